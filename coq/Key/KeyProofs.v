(** C19 – proofs about the key model (Key/KeyModel.v) over the generated tables.

    Everything that depends on what is in the tables is in one boolean,
    [table_wellformed], a finite sweep over the generated lists that
    [tables_wellformed] evaluates (section 3).  The round-trip theorems take
    [table_wellformed = true] as their only hypothesis about the tables and are
    proved by induction: over the modifier slots (all 2^17 named masks, none
    enumerated), then for every named key, then over a key sequence of any
    length.  Parser soundness (section 8) needs nothing of the tables. *)
From Coq Require Import List ZArith NArith Bool Lia FMapPositive.
From Coq.Strings Require Import Byte.
From RimeV Require Import Base.Bytes Base.ListX Gen.KeyTable Key.KeyModel.
Import ListNotations.
Local Open Scope Z_scope.

(** * 1. The sweep *)

Definition is_nil {A} (l : list A) : bool := match l with [] => true | _ => false end.

(** the characters a name cannot carry through the textual form: NUL ends a C
    string, '+' ends a token of KeyEvent::Parse, '{' and '}' delimit a group of
    KeySequence::Parse *)
Definition char_ok (c : byte) : bool :=
  negb (Byte.eqb c x00) && negb (Byte.eqb c ch_plus) && negb (Byte.eqb c ch_lbrace) && negb (Byte.eqb c ch_rbrace).
Definition name_ok (nm : bytes) : bool := negb (is_nil nm) && forallb char_ok nm.

(** KeyEvent::Parse does not look a one-character text up: the character is the
    key code *)
Definition single_ok (e : Z * bytes) : bool :=
  match snd e with
  | [c] => schar c =? fst e
  | _ => true
  end.

Fixpoint has_nul (s : bytes) : bool :=
  match s with
  | [] => false
  | c :: r => if Byte.eqb c x00 then true else has_nul r
  end.
(** [key_names + offset] reads inside the array: the offset is in the blob,
    starts a string (offset 0 or just after a NUL), and a NUL follows *)
Definition offset_ok (len : nat) (e : Z * N) : bool :=
  let off := N.to_nat (snd e) in
  Nat.ltb off len
  && (Nat.eqb off 0 || Byte.eqb (nth (off - 1) key_names x01) x00)
  && has_nul (skipn off key_names).

(** keys_by_name holds what RimeGetKeyName can return.  Looking a name up
    gives the key value back, except for VoidSymbol, which RimeGetKeycodeByName
    returns for "not found" *)
Definition by_name_entry_ok (e : Z * bytes) : bool :=
  name_ok (snd e) && single_ok e
  && ((fst e =? XK_VoidSymbol) || (RimeGetKeycodeByName (snd e) =? fst e)).

Definition by_keyval_entry_ok (e : Z * bytes) : bool :=
  name_ok (snd e) && single_ok e && key_named (fst e).

(** slot i is found again under its name, as bit i; [1 << 31] overflows int *)
Fixpoint mods_good (names : list (option bytes)) (i : nat) : bool :=
  match names with
  | [] => true
  | None :: rest => mods_good rest (S i)
  | Some n :: rest =>
      name_ok n && (RimeGetModifierByName n =? Z.shiftl 1 (Z.of_nat i)) && Nat.ltb i 31
      && mods_good rest (S i)
  end.

Definition table_wellformed : bool :=
  translation_ok
  && (let len := length key_names in forallb (offset_ok len) keys_by_keyval && forallb (offset_ok len) keys_by_name)
  && existsb (fun e => fst e =? XK_VoidSymbol) keys_by_keyval       (* the scan of RimeGetKeycodeByName ends *)
  && forallb by_name_entry_ok resolved_by_name
  && forallb by_keyval_entry_ok resolved_by_keyval
  && Nat.eqb (length modifier_name) 32
  && mods_good modifier_name 0
  && (Z.land named_bits kModifierMask =? named_bits)                  (* repr() masks no named bit away *)
  && (0 <=? kModifierMask) && (kModifierMask <? 4294967296).

(** * 2. Basics *)

Lemma bytes_eqb_eq a b : bytes_eqb a b = true <-> a = b.
Proof.
  revert b. induction a as [|x a IH]; intros [|y b]; cbn; split; intro H; try reflexivity; try discriminate.
  - destruct (Byte.eqb x y) eqn:E; [|discriminate]. apply Byte.byte_dec_bl in E. apply IH in H. now subst.
  - inversion H; subst. rewrite (Byte.byte_dec_lb (x:=y) (y:=y) eq_refl). now apply IH.
Qed.

Lemma bytes_eqb_refl a : bytes_eqb a a = true.
Proof. now apply bytes_eqb_eq. Qed.

Definition without (x : byte) (s : bytes) : bool := forallb (fun c => negb (Byte.eqb c x)) s.
(** [without ch_rbrace] unfolded; the lemmas on [without] apply to it as they are *)
Definition rbrace_free (s : bytes) : bool := forallb (fun c => negb (Byte.eqb c ch_rbrace)) s.

Lemma without_cons x c s : without x (c :: s) = true -> Byte.eqb c x = false /\ without x s = true.
Proof. cbn. intro H. apply andb_true_iff in H. now rewrite negb_true_iff in H. Qed.

Lemma cstr_app s rest : without x00 s = true -> cstr (s ++ rest) = s ++ cstr rest.
Proof.
  induction s as [|c s IH]; intro H; [reflexivity|]. apply without_cons in H as [Hc Hs].
  cbn. now rewrite Hc, IH.
Qed.

Lemma cstr_without_nul s : without x00 s = true -> cstr s = s.
Proof. intro H. rewrite <- (app_nil_r s) at 1. rewrite cstr_app by assumption. apply app_nil_r. Qed.

Lemma name_ok_without nm x : name_ok nm = true -> char_ok x = false -> without x nm = true.
Proof.
  intros H Hx. apply andb_true_iff in H as [_ H]. apply forallb_forall. intros c Hc.
  apply (proj1 (forallb_forall _ _) H) in Hc.
  destruct (Byte.eqb c x) eqn:E; [|reflexivity]. apply Byte.byte_dec_bl in E. congruence.
Qed.

Lemma name_ok_nonempty nm : name_ok nm = true -> nm <> [].
Proof. now destruct nm. Qed.

Lemma forallb_app' {A} (f : A -> bool) a b : forallb f (a ++ b) = forallb f a && forallb f b.
Proof. apply forallb_app. Qed.

(** * 3. The tables resolved in one pass, and the sweep

    [cstr_at key_names off] walks the blob from its start, in unary, for every
    entry it is asked about; evaluating the sweep that way costs a pass over the
    blob per entry and per use.  [blob_index] passes over the blob once and maps
    every offset at which a NUL-terminated string starts to that string, so that
    an entry is resolved by one map lookup.  [string_at] is what an entry of the
    index says about the blob; it gives both [offset_ok] and [cstr_at]. *)

Definition string_at (blob : bytes) (off : N) (nm : bytes) : Prop :=
  exists pre rest, blob = pre ++ nm ++ x00 :: rest /\ off = N.of_nat (length pre) /\
                   without x00 nm = true /\ (pre = [] \/ exists p, pre = p ++ [x00]).

(** [s]: the rest of the blob, at offset [off]; the string being read started at
    [start] and is [rev cur_rev] so far *)
Fixpoint blob_index (s : bytes) (off start : N) (cur_rev : bytes) : PositiveMap.t bytes :=
  match s with
  | [] => PositiveMap.empty _
  | c :: r =>
      if Byte.eqb c x00
      then PositiveMap.add (N.succ_pos start) (rev cur_rev) (blob_index r (N.succ off) (N.succ off) [])
      else blob_index r (N.succ off) start (c :: cur_rev)
  end.

Lemma blob_index_sound blob off nm : forall s pre cur o st,
  blob = pre ++ rev cur ++ s -> without x00 cur = true -> (pre = [] \/ exists p, pre = p ++ [x00]) ->
  o = N.of_nat (length pre + length cur) -> st = N.of_nat (length pre) ->
  PositiveMap.find (N.succ_pos off) (blob_index s o st cur) = Some nm ->
  string_at blob off nm.
Proof.
  induction s as [|c r IH]; intros pre cur o st E Hcur Hpre -> ->; cbn [blob_index].
  - now rewrite PositiveMap.gempty.
  - destruct (Byte.eqb c x00) eqn:Ec.
    + apply Byte.byte_dec_bl in Ec. subst c. rewrite PositiveMapAdditionalFacts.gsspec.
      destruct (PositiveMap.E.eq_dec (N.succ_pos off) (N.succ_pos (N.of_nat (length pre)))) as [Eo|_].
      * intro H. injection H as <-.
        apply (f_equal N.pos) in Eo. rewrite !N.succ_pos_spec in Eo. apply N.succ_inj in Eo.
        exists pre, r. unfold without. now rewrite forallb_rev.
      * apply (IH (pre ++ rev cur ++ [x00]) []); try reflexivity;
          try (rewrite !app_length, rev_length; cbn [length]; lia).
        -- rewrite E, <- !app_assoc. reflexivity.
        -- right. exists (pre ++ rev cur). now rewrite <- app_assoc.
    + apply (IH pre (c :: cur)); try assumption; try reflexivity.
      * rewrite E. cbn [rev]. now rewrite <- !app_assoc.
      * cbn. now rewrite Ec.
      * cbn [length]. lia.
Qed.

Lemma has_nul_app nm rest : has_nul (nm ++ x00 :: rest) = true.
Proof. induction nm as [|c nm IH]; cbn; [reflexivity|]. now destruct (Byte.eqb c x00). Qed.

Lemma string_at_cstr blob off nm : string_at blob off nm -> cstr_at blob off = nm.
Proof.
  intros (pre & rest & -> & -> & Hn & _). unfold cstr_at.
  rewrite Nat2N.id, skipn_app, skipn_all, Nat.sub_diag. cbn [app skipn].
  rewrite cstr_app by assumption. apply app_nil_r.
Qed.

Lemma string_at_offset_ok k off nm : string_at key_names off nm -> offset_ok (length key_names) (k, off) = true.
Proof.
  unfold offset_ok. generalize key_names. intros blob (pre & rest & -> & -> & _ & Hpre). cbv zeta. cbn [snd].
  rewrite Nat2N.id, skipn_app, skipn_all, Nat.sub_diag. cbn [app skipn]. rewrite has_nul_app, andb_true_r.
  apply andb_true_iff. split.
  - apply Nat.ltb_lt. rewrite !app_length. cbn [length]. lia.
  - destruct Hpre as [->|(p & ->)]; [reflexivity|].
    rewrite app_length, Nat.add_sub, <- !app_assoc. cbn [app length]. rewrite nth_middle. apply orb_true_r.
Qed.

Lemma blob_index_start blob off nm :
  PositiveMap.find (N.succ_pos off) (blob_index blob 0 0 []) = Some nm -> string_at blob off nm.
Proof. apply (blob_index_sound blob off nm blob [] []); auto. Qed.

Definition name_at (ix : PositiveMap.t bytes) (off : N) : bytes :=
  match PositiveMap.find (N.succ_pos off) ix with Some nm => nm | None => [] end.

Definition resolve_ix ix (tbl : list (Z * N)) : list (Z * bytes) := map (fun e => (fst e, name_at ix (snd e))) tbl.

Definition indexed (ix : PositiveMap.t bytes) (tbl : list (Z * N)) : bool :=
  forallb (fun e => match PositiveMap.find (N.succ_pos (snd e)) ix with Some _ => true | None => false end) tbl.

Lemma resolve_indexed ix tbl :
  (forall off nm, PositiveMap.find (N.succ_pos off) ix = Some nm -> string_at key_names off nm) ->
  indexed ix tbl = true ->
  resolve tbl = resolve_ix ix tbl /\ forallb (offset_ok (length key_names)) tbl = true.
Proof.
  intros Hix H. assert (Hs : forall e, In e tbl -> string_at key_names (snd e) (name_at ix (snd e))).
  { intros e He. apply (proj1 (forallb_forall _ _) H) in He. unfold name_at.
    destruct (PositiveMap.find _ ix) as [nm|] eqn:E; [|discriminate]. exact (Hix _ _ E). }
  split.
  - apply map_ext_in. intros e He. now rewrite (string_at_cstr _ _ _ (Hs e He)).
  - apply forallb_forall. intros [k off] He. exact (string_at_offset_ok k off _ (Hs _ He)).
Qed.

(** The index, the tables it resolves and the two maps below are constants on
    purpose, and [keys_resolved], [keycode_by_name_ix], [key_named_ix] are stated
    over their names.  [vm_compute] evaluates a constant once, but a closed term
    that is not a constant at every use: once per entry in the body of a
    [forallb].  And where a step leaves Qed (and then coqchk) to convert a name
    with its unfolding, the kernel may unfold the wrong side and evaluate the
    whole table on its own slow machine: every step between the names is a
    [rewrite] or an [exact] whose type mentions the same names.  In the same way
    a bare [now] with [key_named k = true] for a literal [k] in the context (the
    examples of Properties_C19.v) evaluates the tables, since [easy] works on
    every hypothesis; be as wary there of [lia] and [discriminate] left to
    choose their hypothesis. *)
Definition key_index : PositiveMap.t bytes := blob_index key_names 0 0 [].
Definition names_by_keyval : list (Z * bytes) := resolve_ix key_index keys_by_keyval.
Definition names_by_name : list (Z * bytes) := resolve_ix key_index keys_by_name.

Lemma keys_indexed : indexed key_index keys_by_keyval = true /\ indexed key_index keys_by_name = true.
Proof. vm_compute. split; reflexivity. Qed.

Lemma key_index_sound off nm :
  PositiveMap.find (N.succ_pos off) key_index = Some nm -> string_at key_names off nm.
Proof. exact (blob_index_start key_names off nm). Qed.

Lemma keys_resolved :
  (resolved_by_keyval = names_by_keyval /\ forallb (offset_ok (length key_names)) keys_by_keyval = true) /\
  (resolved_by_name = names_by_name /\ forallb (offset_ok (length key_names)) keys_by_name = true).
Proof. exact (conj (resolve_indexed _ _ key_index_sound (proj1 keys_indexed)) (resolve_indexed _ _ key_index_sound (proj2 keys_indexed))). Qed.

(** RimeGetKeycodeByName compares the name with every entry before the one it
    finds; over the whole table that is a quadratic number of string
    comparisons.  A map from names (as bit strings) to key values, filled from
    the end of the table so that the first of equal names wins and cut at the
    sentinel as the scan is, answers the same. *)
Definition pbit (b : bool) (p : positive) : positive := if b then p~1 else p~0.

Fixpoint enc_bytes (s : bytes) : positive :=
  match s with
  | [] => 1
  | c :: r =>
      let '(b0, (b1, (b2, (b3, (b4, (b5, (b6, b7))))))) := Byte.to_bits c in
      pbit b0 (pbit b1 (pbit b2 (pbit b3 (pbit b4 (pbit b5 (pbit b6 (pbit b7 (enc_bytes r))))))))
  end.

Lemma pbit_inj b p b' p' : pbit b p = pbit b' p' -> b = b' /\ p = p'.
Proof. destruct b, b'; cbn; intro H; inversion H; auto. Qed.

Lemma enc_bytes_inj a : forall b, enc_bytes a = enc_bytes b -> a = b.
Proof.
  induction a as [|c a IH]; intros [|d b]; cbn [enc_bytes]; try reflexivity.
  - destruct (Byte.to_bits d) as (b0 & ? & ? & ? & ? & ? & ? & ?). now destruct b0.
  - destruct (Byte.to_bits c) as (b0 & ? & ? & ? & ? & ? & ? & ?). now destruct b0.
  - destruct (Byte.to_bits c) as (c0 & c1 & c2 & c3 & c4 & c5 & c6 & c7) eqn:Ec.
    destruct (Byte.to_bits d) as (d0 & d1 & d2 & d3 & d4 & d5 & d6 & d7) eqn:Ed. intro H.
    repeat (apply pbit_inj in H; destruct H as [<- H]). apply IH in H. subst b.
    rewrite <- (Byte.of_bits_to_bits c), <- (Byte.of_bits_to_bits d), Ec, Ed. reflexivity.
Qed.

Fixpoint name_map (tbl : list (Z * bytes)) : PositiveMap.t Z :=
  match tbl with
  | [] => PositiveMap.empty Z
  | (kv, nm) :: rest =>
      if kv =? XK_VoidSymbol then PositiveMap.empty Z else PositiveMap.add (enc_bytes nm) kv (name_map rest)
  end.

Lemma keycode_by_name_map tbl name :
  keycode_by_name_in tbl name =
  match PositiveMap.find (enc_bytes name) (name_map tbl) with Some kv => kv | None => XK_VoidSymbol end.
Proof.
  induction tbl as [|[kv nm] rest IH]; cbn [keycode_by_name_in name_map]; [now rewrite PositiveMap.gempty|].
  destruct (kv =? XK_VoidSymbol); [now rewrite PositiveMap.gempty|].
  rewrite PositiveMapAdditionalFacts.gsspec.
  destruct (PositiveMap.E.eq_dec (enc_bytes name) (enc_bytes nm)) as [E|E].
  - apply enc_bytes_inj in E. subst. now rewrite bytes_eqb_refl.
  - destruct (bytes_eqb name nm) eqn:Eb; [|exact IH]. apply bytes_eqb_eq in Eb. now subst.
Qed.

Definition keycodes_by_name : PositiveMap.t Z := name_map names_by_keyval.

Lemma keycode_by_name_ix name :
  RimeGetKeycodeByName name =
  match PositiveMap.find (enc_bytes (cstr name)) keycodes_by_name with Some kv => kv | None => XK_VoidSymbol end.
Proof. unfold RimeGetKeycodeByName. rewrite (proj1 (proj1 keys_resolved)). apply keycode_by_name_map. Qed.

(** RimeGetKeyName scans keys_by_name; asked for every key value of
    keys_by_keyval that is again quadratic.  Whether it finds anything is
    membership in the set of key values of the table. *)
Definition encZ (z : Z) : positive := match z with Z0 => 1 | Zpos p => p~0 | Zneg p => p~1 end.

Lemma encZ_inj a b : encZ a = encZ b -> a = b.
Proof. destruct a, b; cbn; intro H; inversion H; reflexivity. Qed.

Fixpoint keyset (tbl : list (Z * bytes)) : PositiveMap.t unit :=
  match tbl with
  | [] => PositiveMap.empty unit
  | e :: rest => PositiveMap.add (encZ (fst e)) tt (keyset rest)
  end.

Lemma key_name_in_keyset tbl k :
  match key_name_in tbl k with Some _ => true | None => false end = PositiveMap.mem (encZ k) (keyset tbl).
Proof.
  rewrite PositiveMap.mem_find.
  induction tbl as [|[kv nm] rest IH]; cbn [key_name_in keyset fst]; [now rewrite PositiveMap.gempty|].
  rewrite PositiveMapAdditionalFacts.gsspec.
  destruct (PositiveMap.E.eq_dec (encZ k) (encZ kv)) as [E|E].
  - apply encZ_inj in E. subst. now rewrite Z.eqb_refl.
  - destruct (k =? kv) eqn:Eb; [|exact IH]. apply Z.eqb_eq in Eb. now subst.
Qed.

Definition named_keys : PositiveMap.t unit := keyset names_by_name.

Lemma key_named_ix k : key_named k = PositiveMap.mem (encZ k) named_keys.
Proof. unfold key_named, RimeGetKeyName. rewrite (proj1 (proj2 keys_resolved)). apply key_name_in_keyset. Qed.

(** The sweep itself: the offsets by the index, the lookups by the two maps, the
    rest by evaluation over the tables as the index resolves them. *)
Lemma tables_wellformed : table_wellformed = true.
Proof.
  destruct keys_resolved as [[Ek Ok] [En On]].
  unfold table_wellformed. cbv zeta. rewrite Ok, On, Ek, En.
  assert (Hn : forallb by_name_entry_ok names_by_name = true).
  { apply forallb_forall. intros e He. unfold by_name_entry_ok. rewrite keycode_by_name_ix.
    revert e He. apply forallb_forall. vm_compute. reflexivity. }
  assert (Hk : forallb by_keyval_entry_ok names_by_keyval = true).
  { apply forallb_forall. intros e He. unfold by_keyval_entry_ok. rewrite key_named_ix.
    revert e He. apply forallb_forall. vm_compute. reflexivity. }
  rewrite Hn, Hk. vm_compute. reflexivity.
Qed.

(** * 4. What [table_wellformed] gives *)

Record tables_facts : Prop := {
  tf_by_name : forall e, In e resolved_by_name -> by_name_entry_ok e = true;
  tf_len : length modifier_name = 32%nat;
  tf_mods : mods_good modifier_name 0 = true;
  tf_mask : Z.land named_bits kModifierMask = named_bits
}.

Lemma wellformed_facts : table_wellformed = true -> tables_facts.
Proof.
  unfold table_wellformed. intro H.
  repeat (apply andb_true_iff in H; destruct H as [H ?]).
  constructor; [now apply forallb_forall | now apply Nat.eqb_eq | assumption | now apply Z.eqb_eq].
Qed.

Lemma key_name_in_In tbl k nm : key_name_in tbl k = Some nm -> In (k, nm) tbl.
Proof.
  induction tbl as [|[kv n] rest IH]; cbn; [discriminate|].
  destruct (k =? kv) eqn:E.
  - intro H. inversion H; subst. apply Z.eqb_eq in E. subst. now left.
  - intro H. right. now apply IH.
Qed.

Lemma keycode_by_name_in_In tbl name k :
  keycode_by_name_in tbl name = k -> k <> XK_VoidSymbol -> In (k, name) tbl.
Proof.
  induction tbl as [|[kv n] rest IH]; cbn; intros H Hk; [congruence|].
  destruct (kv =? XK_VoidSymbol) eqn:E1; [congruence|].
  destruct (bytes_eqb name n) eqn:E2.
  - apply bytes_eqb_eq in E2. subst. now left.
  - right. now apply IH.
Qed.

Lemma key_name_facts (TF : tables_facts) k nm :
  RimeGetKeyName k = Some nm ->
  name_ok nm = true /\ single_ok (k, nm) = true /\ (k <> XK_VoidSymbol -> RimeGetKeycodeByName nm = k).
Proof.
  intro H. apply key_name_in_In, (tf_by_name TF) in H. unfold by_name_entry_ok in H. cbn [fst snd] in H.
  apply andb_true_iff in H as [H H3]. apply andb_true_iff in H as [H1 H2]. repeat split; try assumption.
  intro Hk. apply orb_true_iff in H3 as [H3|H3]; apply Z.eqb_eq in H3; congruence.
Qed.

Lemma mods_good_cons nm names i :
  mods_good (nm :: names) i = true ->
  mods_good names (S i) = true /\
  forall n, nm = Some n -> name_ok n = true /\ RimeGetModifierByName n = Z.shiftl 1 (Z.of_nat i).
Proof.
  cbn [mods_good]. destruct nm as [n|]; intro H; [|now split].
  do 3 (apply andb_true_iff in H; destruct H as [H ?]). split; [assumption|].
  intros ? [= <-]. split; [assumption|now apply Z.eqb_eq].
Qed.

(** * 5. Modifiers: repr() and Parse() against a structural specification *)

Lemma half_decomp m : m = 2 * Z.shiftr m 1 + Z.b2z (Z.odd m).
Proof. rewrite <- Z.div2_spec. apply Z.div2_odd. Qed.

Lemma half_bounds m n : 0 <= n -> 0 <= m < 2 ^ Z.succ n <-> 0 <= Z.shiftr m 1 < 2 ^ n.
Proof.
  intro Hn. rewrite Z.pow_succ_r by assumption.
  pose proof (half_decomp m) as Hd. destruct (Z.odd m); cbn [Z.b2z] in Hd; lia.
Qed.

Lemma shiftl_half m i :
  0 <= m -> 0 <= i ->
  Z.shiftl m i = Z.lor (Z.shiftl (Z.b2z (Z.odd m)) i) (Z.shiftl (Z.shiftr m 1) (Z.succ i)).
Proof.
  intros Hm Hi. rewrite <- Z.add_1_l, <- Z.shiftl_shiftl, <- Z.shiftl_lor by lia. f_equal.
  rewrite (half_decomp m) at 1. apply (Z.shiftr_nonneg m 1) in Hm.
  (* the binary numeral of 2h + b is that of h followed by the bit b *)
  destruct (Z.shiftr m 1); [| |lia]; now destruct (Z.odd m).
Qed.

(** the text repr() writes for the mask [m], slot by slot *)
Fixpoint mods_spec (names : list (option bytes)) (m : Z) : bytes :=
  match names with
  | [] => []
  | nm :: rest =>
      (if Z.odd m then match nm with Some n => cstr n ++ [ch_plus] | None => [] end else [])
      ++ mods_spec rest (Z.shiftr m 1)
  end.

Lemma mods_spec_0 names : mods_spec names 0 = [].
Proof. induction names as [|nm rest IH]; cbn; [reflexivity|]. exact IH. Qed.

(** [named_mask] over any list of slots, for the inductions *)
Definition mask_in (names : list (option bytes)) (m : Z) : Prop :=
  0 <= m /\ Z.land m (named_bits_of names) = m.

Lemma named_mask_in m : named_mask m = true -> mask_in modifier_name m.
Proof.
  unfold named_mask. intro H. apply andb_true_iff in H. destruct H as [H1 H2].
  split; [now apply Z.leb_le|now apply Z.eqb_eq].
Qed.

Lemma mask_in_nil m : mask_in [] m -> m = 0.
Proof. intros [_ H]. cbn in H. now rewrite Z.land_0_r in H. Qed.

Lemma mask_in_cons nm rest m :
  mask_in (nm :: rest) m -> (Z.odd m = true -> exists n, nm = Some n) /\ mask_in rest (Z.shiftr m 1).
Proof.
  intros [Hm H]. cbn [named_bits_of] in H. split; [|split].
  - intro Eo. apply (f_equal Z.odd) in H.
    rewrite <- !Z.bit0_odd, Z.land_spec, !Z.bit0_odd, Eo, Z.odd_add_mul_2 in H.
    destruct nm as [n|]; [now exists n|discriminate].
  - now apply Z.shiftr_nonneg.
  - rewrite <- H at 2. rewrite Z.shiftr_land. f_equal.
    rewrite Z.shiftr_div_pow2 by lia. change (2 ^ 1) with 2.
    rewrite Z.add_comm, Z.mul_comm, Z.div_add_l by lia. destruct nm; cbn; lia.
Qed.

Lemma mask_in_bound names m : mask_in names m -> 0 <= m < 2 ^ Z.of_nat (length names).
Proof.
  revert m. induction names as [|nm rest IH]; intros m H.
  - apply mask_in_nil in H. subst. cbn. lia.
  - cbn [length]. rewrite Nat2Z.inj_succ. apply half_bounds; [lia|]. now apply IH, (mask_in_cons nm).
Qed.

Lemma mods_spec_nil names m : mask_in names m -> mods_spec names m = [] -> m = 0.
Proof.
  revert m. induction names as [|nm rest IH]; intros m H Hs; [now apply mask_in_nil|].
  destruct (mask_in_cons _ _ _ H) as [Hb Hr]. cbn [mods_spec] in Hs.
  apply app_eq_nil in Hs. destruct Hs as [Hs1 Hs2]. apply (IH _ Hr) in Hs2.
  pose proof (half_decomp m) as Hd. rewrite Hs2 in Hd.
  destruct (Z.odd m); [|exact Hd].
  destruct (Hb eq_refl) as [n ->]. now apply app_eq_nil in Hs1.
Qed.

Lemma parse_from_token t r acc m :
  without ch_plus t = true -> parse_from (t ++ r) acc m = parse_from r (rev t ++ acc) m.
Proof.
  revert acc. induction t as [|c t IH]; intros acc H; [reflexivity|]. apply without_cons in H as [Hc Ht].
  cbn [app parse_from]. rewrite Hc, IH by assumption. cbn [rev]. now rewrite <- app_assoc.
Qed.

Lemma parse_from_mods_spec names : forall i m m0 rest,
  mask_in names m -> mods_good names i = true ->
  parse_from (mods_spec names m ++ rest) [] m0 = parse_from rest [] (Z.lor m0 (Z.shiftl m (Z.of_nat i))).
Proof.
  induction names as [|nm names IH]; intros i m m0 rest Hin Hg.
  - apply mask_in_nil in Hin. subst. now rewrite Z.shiftl_0_l, Z.lor_0_r.
  - destruct (mask_in_cons _ _ _ Hin) as [Hb Hr]. destruct (mods_good_cons _ _ _ Hg) as [Hg' Hn].
    cbn [mods_spec]. rewrite (shiftl_half m (Z.of_nat i)) by (try apply Hin; lia).
    rewrite <- Nat2Z.inj_succ. destruct (Z.odd m).
    + destruct (Hb eq_refl) as [n ->]. destruct (Hn n eq_refl) as [Hok Hbit].
      rewrite (cstr_without_nul n) by (now apply name_ok_without).
      rewrite <- !app_assoc, parse_from_token by (now apply name_ok_without).
      cbn [app parse_from]. unfold ch_plus at 1.
      rewrite byte_eqb_refl, app_nil_r, rev_involutive, Hbit.
      destruct (Z.shiftl 1 (Z.of_nat i) =? 0) eqn:E.
      { apply Z.eqb_eq in E. apply Z.shiftl_eq_0_iff in E; lia. }
      rewrite (IH (S i)) by assumption. now rewrite Z.lor_assoc.
    + cbn [app Z.b2z]. rewrite (IH (S i)) by assumption. now rewrite Z.shiftl_0_l, Z.lor_0_l.
Qed.

Lemma mods_spec_rbrace_free names : forall i m,
  mods_good names i = true -> rbrace_free (mods_spec names m) = true.
Proof.
  induction names as [|nm names IH]; intros i m Hg; [reflexivity|].
  destruct (mods_good_cons _ _ _ Hg) as [Hg' Hn].
  cbn [mods_spec]. unfold rbrace_free. rewrite forallb_app. apply andb_true_iff. split; [|exact (IH _ _ Hg')].
  destruct (Z.odd m); [|reflexivity]. destruct nm as [n|]; [|reflexivity]. destruct (Hn n eq_refl) as [Hok _].
  rewrite (cstr_without_nul n), forallb_app by (now apply name_ok_without).
  apply andb_true_iff. split; [now apply name_ok_without|reflexivity].
Qed.

Lemma modifier_name_loop_shift names i k :
  Z.odd k = true -> (i < length names)%nat ->
  modifier_name_loop names (Z.shiftl k (Z.of_nat i)) = option_map cstr (nth i names None).
Proof.
  intro Hodd. assert (Hk : forall j, (Z.shiftl k (Z.of_nat j) =? 0) = false).
  { intro j. apply Z.eqb_neq. rewrite Z.shiftl_eq_0_iff by lia. intros ->. discriminate. }
  revert i. induction names as [|nm rest IH]; intros i Hi; cbn [length] in Hi; [lia|].
  cbn [modifier_name_loop]. rewrite Hk. destruct i as [|i]; cbn [nth].
  - cbn [Z.of_nat]. now rewrite Z.shiftl_0_r, Hodd.
  - rewrite <- Z.bit0_odd, Z.shiftl_spec_low, Z.shiftr_shiftl_l by lia.
    replace (Z.of_nat (S i) - 1) with (Z.of_nat i) by lia. apply IH. lia.
Qed.

Lemma repr_mods_loop_spec fuel i k :
  0 <= k < 2 ^ Z.of_nat fuel -> (i + fuel = length modifier_name)%nat ->
  repr_mods_loop fuel i k = mods_spec (skipn i modifier_name) k.
Proof.
  revert i k. induction fuel as [|f IH]; intros i k Hk Hi.
  - cbn in Hk. assert (k = 0) by lia. subst. now rewrite mods_spec_0.
  - cbn [repr_mods_loop]. destruct (k =? 0) eqn:E.
    + apply Z.eqb_eq in E. subst. now rewrite mods_spec_0.
    + rewrite (skipn_nth_cons modifier_name i None) by lia. cbn [mods_spec].
      rewrite Nat2Z.inj_succ in Hk. rewrite IH by (try apply half_bounds; lia).
      f_equal. destruct (Z.odd k) eqn:Eo; [|reflexivity].
      unfold RimeGetModifierName. rewrite (modifier_name_loop_shift modifier_name i k Eo) by (unfold bytes in *; lia).
      unfold bytes. now destruct (nth i modifier_name None).
Qed.

Lemma repr_mods_named (TF : tables_facts) m : mask_in modifier_name m -> repr_mods m = mods_spec modifier_name m.
Proof.
  intro Hin. unfold repr_mods. destruct (m =? 0) eqn:E.
  - apply Z.eqb_eq in E. subst. now rewrite mods_spec_0.
  - replace (Z.land m kModifierMask) with m.
    + apply (repr_mods_loop_spec 32 0 m); rewrite <- (tf_len TF); [now apply mask_in_bound|reflexivity].
    + destruct Hin as [_ Hl]. fold named_bits in Hl. now rewrite <- Hl, <- Z.land_assoc, (tf_mask TF).
Qed.

(** C19 (2) *)
Lemma mods_roundtrip (WF : table_wellformed = true) m :
  named_mask m = true ->
  forall rest m0, parse_from (repr_mods m ++ rest) [] m0 = parse_from rest [] (Z.lor m0 m).
Proof.
  intros H rest m0. pose proof (wellformed_facts WF) as TF. apply named_mask_in in H.
  rewrite (repr_mods_named TF m H), (parse_from_mods_spec modifier_name 0 m m0 rest H (tf_mods TF)).
  now rewrite Z.shiftl_0_r.
Qed.

(** * 6. Key events *)

Lemma parse_key_long s : (2 <= length s)%nat -> parse_key s = parse_from s [] 0.
Proof. destruct s as [|a [|b r]]; cbn [length]; intro H; try lia. reflexivity. Qed.

Lemma parse_from_name nm m :
  without ch_plus nm = true ->
  parse_from nm [] m =
    (let k := RimeGetKeycodeByName nm in if k =? XK_VoidSymbol then (false, k, m) else (true, k, m)).
Proof.
  intro H. rewrite <- (app_nil_r nm) at 1. rewrite parse_from_token by assumption.
  cbn [parse_from]. now rewrite app_nil_r, rev_involutive.
Qed.

Lemma repr_key_named k m nm : RimeGetKeyName k = Some nm -> repr_key (k, m) = repr_mods m ++ nm.
Proof. intro H. unfold repr_key, repr_keyname. cbn [fst snd]. now rewrite H. Qed.

(** the one-character text, which KeyEvent::Parse and KeySequence::Parse both
    take as the character itself *)
Lemma named_text_single (TF : tables_facts) k nm m c :
  RimeGetKeyName k = Some nm -> named_mask m = true -> repr_mods m ++ nm = [c] ->
  m = 0 /\ schar c = k /\ Byte.eqb c ch_lbrace = false.
Proof.
  intros En Hm Hc. destruct (key_name_facts TF k nm En) as (Hok & Hsingle & _). apply named_mask_in in Hm.
  apply app_eq_unit in Hc. destruct Hc as [[Hr ->]|[_ ->]]; [|now apply name_ok_nonempty in Hok].
  rewrite (repr_mods_named TF m Hm) in Hr. repeat split.
  - exact (mods_spec_nil _ _ Hm Hr).
  - now apply Z.eqb_eq in Hsingle.
  - now apply (without_cons ch_lbrace c []), name_ok_without.
Qed.

(** C19 (3) *)
Lemma key_roundtrip (WF : table_wellformed = true) k m :
  key_named k = true -> k <> XK_VoidSymbol -> named_mask m = true ->
  parse_key (repr_key (k, m)) = (true, k, m).
Proof.
  intros Hn Hk Hm. pose proof (wellformed_facts WF) as TF.
  unfold key_named in Hn. destruct (RimeGetKeyName k) as [nm|] eqn:En; [|discriminate].
  destruct (key_name_facts TF k nm En) as (Hok & _ & Hback).
  rewrite (repr_key_named k m nm En).
  destruct (repr_mods m ++ nm) as [|c [|d r]] eqn:Et.
  - apply app_eq_nil in Et. destruct Et as [_ ->]. discriminate.
  - now destruct (named_text_single TF k nm m c En Hm Et) as (-> & <- & _).
  - (* two characters or more: the modifiers, if any, then the name as the last token *)
    rewrite <- Et, parse_key_long by (rewrite Et; cbn [length]; lia).
    rewrite (mods_roundtrip WF m Hm), Z.lor_0_l, parse_from_name by (now apply name_ok_without).
    cbn zeta. rewrite (Hback Hk). apply Z.eqb_neq in Hk. now rewrite Hk.
Qed.

(** * 7. Key sequences *)

Lemma N_of_byte_of_N n : (n <= 255)%N -> N_of_byte (byte_of_N n) = n.
Proof.
  intro H. unfold N_of_byte, byte_of_N. destruct (Byte.of_N n) as [b|] eqn:E.
  - now apply Byte.to_of_N.
  - apply Byte.of_N_None_iff in E. lia.
Qed.

Lemma hex_digits_length n v : length (hex_digits n v) = n.
Proof.
  revert v. induction n as [|n IH]; intro v; cbn [hex_digits]; [reflexivity|].
  rewrite app_length, IH. cbn [length]. lia.
Qed.

(** the hex forms and "(unknown)" are longer than one character *)
Lemma repr_key_single e c :
  repr_key e = [c] -> exists nm, RimeGetKeyName (fst e) = Some nm /\ repr_mods (snd e) ++ nm = [c].
Proof.
  unfold repr_key, repr_keyname. destruct (RimeGetKeyName (fst e)) as [nm|] eqn:En.
  - intro H. now exists nm.
  - intro H. exfalso.
    destruct (fst e <? 0); [|destruct (fst e <=? 65535); [|destruct (fst e <=? 16777215); [|discriminate]]];
      apply (f_equal (@length byte)) in H; rewrite !app_length, hex_digits_length in H; cbn [length] in H; lia.
Qed.

Lemma parse_seq_char c rest out :
  Byte.eqb c ch_lbrace = false ->
  parse_seq_from (c :: rest) None out = parse_seq_from rest None ((schar c, 0) :: out).
Proof. intro H. cbn [parse_seq_from]. now rewrite H. Qed.

Lemma parse_seq_body t r acc out :
  rbrace_free t = true ->
  parse_seq_from (t ++ r) (Some acc) out = parse_seq_from r (Some (rev t ++ acc)) out.
Proof.
  revert acc. induction t as [|c t IH]; intros acc H; [reflexivity|]. apply without_cons in H as [Hc Ht].
  cbn [app parse_seq_from]. rewrite Hc, IH by assumption. cbn [rev]. now rewrite <- app_assoc.
Qed.

Lemma parse_seq_group body rest out :
  rbrace_free body = true ->
  parse_seq_from (ch_lbrace :: body ++ ch_rbrace :: rest) None out =
  match parse_key body with
  | (true, k, m) => parse_seq_from rest None ((k, m) :: out)
  | _ => (false, rev out)
  end.
Proof.
  intro Hb. cbn [parse_seq_from]. unfold ch_lbrace at 1. rewrite byte_eqb_refl.
  replace (match body ++ ch_rbrace :: rest with [] => true | _ => false end) with false by (now destruct body).
  cbn [negb andb]. rewrite parse_seq_body by assumption. cbn [parse_seq_from]. unfold ch_rbrace at 1.
  now rewrite byte_eqb_refl, app_nil_r, rev_involutive.
Qed.

Lemma parse_seq_piece_name (TF : tables_facts) k m rest out :
  named_mask m = true -> Nat.eqb (length (repr_key (k, m))) 1 = true ->
  parse_seq_from (repr_key (k, m) ++ rest) None out = parse_seq_from rest None ((k, m) :: out).
Proof.
  intros Hm E1. destruct (repr_key (k, m)) as [|c [|d r]] eqn:Er; try discriminate E1.
  destruct (repr_key_single (k, m) c Er) as (nm & En & Hcat). cbn [fst snd] in *.
  destruct (named_text_single TF k nm m c En Hm Hcat) as (-> & <- & Hlb). now apply parse_seq_char.
Qed.

Lemma parse_seq_piece_char k m rest out :
  is_unescaped_character (k, m) = true ->
  parse_seq_from (byte_of_N (Z.to_N k) :: rest) None out = parse_seq_from rest None ((k, m) :: out).
Proof.
  unfold is_unescaped_character. cbn [fst snd]. intro H.
  assert (Hm : m = 0) by lia. subst m.
  assert (Hc : N_of_byte (byte_of_N (Z.to_N k)) = Z.to_N k) by (apply N_of_byte_of_N; lia).
  rewrite parse_seq_char.
  - unfold schar. rewrite Hc, Z2N.id by lia. now replace (k <? 128) with true by lia.
  - destruct (Byte.eqb (byte_of_N (Z.to_N k)) ch_lbrace) eqn:Eb; [|reflexivity].
    apply Byte.byte_dec_bl in Eb. rewrite Eb in Hc. cbn in Hc. lia.
Qed.

Lemma parse_seq_piece_group (WF : table_wellformed = true) k m rest out :
  representable (k, m) = true ->
  parse_seq_from (ch_lbrace :: repr_key (k, m) ++ ch_rbrace :: rest) None out =
  parse_seq_from rest None ((k, m) :: out).
Proof.
  unfold representable. cbn [fst snd]. intro H. pose proof (wellformed_facts WF) as TF.
  apply andb_true_iff in H as [H Hm]. apply andb_true_iff in H as [Hn Hk]. apply negb_true_iff, Z.eqb_neq in Hk.
  rewrite parse_seq_group, (key_roundtrip WF k m Hn Hk Hm); [reflexivity|].
  unfold key_named in Hn. destruct (RimeGetKeyName k) as [nm|] eqn:En; [|discriminate].
  destruct (key_name_facts TF k nm En) as (Hok & _).
  rewrite (repr_key_named k m nm En), (repr_mods_named TF m) by (now apply named_mask_in).
  unfold rbrace_free. rewrite forallb_app. apply andb_true_iff. split.
  - exact (mods_spec_rbrace_free modifier_name 0 m (tf_mods TF)).
  - now apply name_ok_without.
Qed.

Lemma parse_seq_piece (WF : table_wellformed = true) e rest out :
  seq_representable e = true ->
  parse_seq_from (repr_piece e ++ rest) None out = parse_seq_from rest None (e :: out).
Proof.
  intro Hs. pose proof (wellformed_facts WF) as TF. destruct e as [k m]. unfold seq_representable in Hs.
  assert (Hm : named_mask m = true).
  { apply orb_true_iff in Hs. destruct Hs as [Hs|Hs].
    - unfold representable in Hs. apply andb_true_iff in Hs. exact (proj2 Hs).
    - unfold is_unescaped_character in Hs. cbn [fst snd] in Hs. assert (m = 0) as -> by lia. reflexivity. }
  unfold repr_piece. destruct (Nat.eqb (length (repr_key (k, m))) 1) eqn:E1.
  - now apply (parse_seq_piece_name TF).
  - destruct (is_unescaped_character (k, m)) eqn:E2; [now apply parse_seq_piece_char|].
    rewrite orb_false_r in Hs. rewrite <- !app_assoc. now apply parse_seq_piece_group.
Qed.

Lemma repr_seq_parse (WF : table_wellformed = true) ks : forall rest out,
  Forall (fun e => seq_representable e = true) ks ->
  parse_seq_from (repr_seq ks ++ rest) None out = parse_seq_from rest None (rev ks ++ out).
Proof.
  induction ks as [|e ks IH]; intros rest out H; [reflexivity|].
  inversion H as [|? ? He Hks]; subst.
  change (repr_seq (e :: ks)) with (repr_piece e ++ repr_seq ks).
  rewrite <- app_assoc, (parse_seq_piece WF e _ out He), IH by assumption. cbn [rev]. now rewrite <- app_assoc.
Qed.

(** C19 (4) *)
Lemma seq_roundtrip (WF : table_wellformed = true) ks :
  Forall (fun e => seq_representable e = true) ks ->
  parse_seq (repr_seq ks) = (true, ks).
Proof.
  intro H. unfold parse_seq. rewrite <- (app_nil_r (repr_seq ks)), (repr_seq_parse WF ks [] [] H).
  cbn [parse_seq_from]. now rewrite app_nil_r, rev_involutive.
Qed.

(** * 8. Parser soundness: what a successful Parse() says about the text *)

(** the tokens of a key event text: the ones terminated by '+', and the last *)
Fixpoint split_plus (s : bytes) (cur_rev : bytes) : list bytes * bytes :=
  match s with
  | [] => ([], rev cur_rev)
  | c :: r =>
      if Byte.eqb c ch_plus
      then let (ts, l) := split_plus r [] in (rev cur_rev :: ts, l)
      else split_plus r (c :: cur_rev)
  end.

Definition mask_of (ts : list bytes) (m0 : Z) : Z :=
  fold_left (fun a t => Z.lor a (RimeGetModifierByName t)) ts m0.

Lemma parse_from_spec s : forall acc m0 k m,
  parse_from s acc m0 = (true, k, m) <->
  (let (ts, l) := split_plus s acc in
   Forall (fun t => RimeGetModifierByName t <> 0) ts /\ m = mask_of ts m0 /\
   RimeGetKeycodeByName l = k /\ k <> XK_VoidSymbol).
Proof.
  induction s as [|c r IH]; intros acc m0 k m; cbn [parse_from split_plus].
  - cbn zeta. destruct (RimeGetKeycodeByName (rev acc) =? XK_VoidSymbol) eqn:E.
    + apply Z.eqb_eq in E. split; [discriminate|]. intros (_ & _ & H1 & H2). congruence.
    + apply Z.eqb_neq in E. split.
      * intro H. inversion H; subst. repeat split; [constructor|assumption].
      * intros (_ & Hm & H1 & _). cbn in Hm. now subst.
  - destruct (Byte.eqb c ch_plus).
    + destruct (split_plus r []) as [ts l] eqn:Es.
      destruct (RimeGetModifierByName (rev acc) =? 0) eqn:E.
      * apply Z.eqb_eq in E. split; [discriminate|]. intros (HF & _). inversion HF; subst. contradiction.
      * apply Z.eqb_neq in E. rewrite IH, Es. cbn [mask_of fold_left].
        split.
        -- intros (HF & Hm & H1 & H2). repeat split; try assumption. now constructor.
        -- intros (HF & Hm & H1 & H2). inversion HF; subst. repeat split; assumption.
    + apply IH.
Qed.

Definition is_modifier_text (t : bytes) (bit : Z) : Prop :=
  exists i n, nth_error modifier_name i = Some (Some n) /\ cstr t = cstr n /\ bit = Z.shiftl 1 (Z.of_nat i).

Lemma modifier_by_name_loop_sound names : forall i name b,
  modifier_by_name_loop names i name = b -> b <> 0 ->
  exists j n, nth_error names j = Some (Some n) /\ name = cstr n /\ b = Z.shiftl 1 (Z.of_nat (i + j)).
Proof.
  induction names as [|nm names IH]; intros i name b H Hb; cbn [modifier_by_name_loop] in H; [congruence|].
  destruct nm as [n|]; [destruct (bytes_eqb name (cstr n)) eqn:E|].
  { apply bytes_eqb_eq in E. exists 0%nat, n. rewrite Nat.add_0_r. repeat split; [assumption|congruence]. }
  all: destruct (IH (S i) name b H Hb) as (j & n' & H1 & H2 & H3); exists (S j), n';
    rewrite Nat.add_succ_r; repeat split; assumption.
Qed.

Lemma modifier_by_name_sound t : RimeGetModifierByName t <> 0 -> is_modifier_text t (RimeGetModifierByName t).
Proof.
  intro H. destruct (modifier_by_name_loop_sound modifier_name 0 (cstr t) _ eq_refl H) as (j & n & H1 & H2 & H3).
  exists j, n. repeat split; assumption.
Qed.

Definition is_key_text (t : bytes) (k : Z) : Prop :=
  exists off, In (k, off) keys_by_keyval /\ cstr_at key_names off = cstr t /\ k <> XK_VoidSymbol.

Lemma keycode_by_name_sound t k :
  RimeGetKeycodeByName t = k -> k <> XK_VoidSymbol -> is_key_text t k.
Proof.
  intros H Hk. unfold RimeGetKeycodeByName in H.
  apply keycode_by_name_in_In in H; [|assumption].
  unfold resolved_by_keyval, resolve in H. apply in_map_iff in H. destruct H as ([kv off] & He & Hin).
  cbn [fst snd] in He. inversion He; subst. exists off. repeat split; assumption.
Qed.

Lemma keycode_by_name_in_unknown tbl name :
  (forall k, k <> XK_VoidSymbol -> ~ In (k, name) tbl) -> keycode_by_name_in tbl name = XK_VoidSymbol.
Proof.
  intro H. destruct (Z.eq_dec (keycode_by_name_in tbl name) XK_VoidSymbol) as [E|E]; [assumption|].
  exfalso. exact (H _ E (keycode_by_name_in_In tbl name _ eq_refl E)).
Qed.

(** C19 (5a) *)
Lemma parse_key_sound s k m :
  parse_key s = (true, k, m) ->
  (exists c, s = [c] /\ k = schar c /\ m = 0) \/
  ((2 <= length s)%nat /\
   let (ts, l) := split_plus s [] in
   Forall (fun t => is_modifier_text t (RimeGetModifierByName t)) ts /\ m = mask_of ts 0 /\ is_key_text l k).
Proof.
  destruct s as [|a [|b r]].
  - discriminate.
  - cbn [parse_key]. intro H. inversion H; subst. left. now exists a.
  - intro H. right. split; [cbn [length]; lia|].
    rewrite parse_key_long in H by (cbn [length]; lia).
    apply parse_from_spec in H. destruct (split_plus (a :: b :: r) []) as [ts l].
    destruct H as (HF & Hm & H1 & H2). repeat split.
    + eapply Forall_impl; [|exact HF]. intros t Ht. now apply modifier_by_name_sound.
    + assumption.
    + now apply keycode_by_name_sound.
Qed.

(** C19 (5b) *)
Lemma parse_key_unknown_fails s :
  (2 <= length s)%nat ->
  (let (ts, l) := split_plus s [] in
   (exists t, In t ts /\ forall j n, nth_error modifier_name j = Some (Some n) -> cstr t <> cstr n) \/
   (forall k off, In (k, off) keys_by_keyval -> k <> XK_VoidSymbol -> cstr_at key_names off <> cstr l)) ->
  fst (fst (parse_key s)) = false.
Proof.
  intros Hlen H. destruct (parse_key s) as [[[|] k] m] eqn:E; [exfalso|reflexivity].
  destruct (parse_key_sound s k m E) as [(c & -> & _)|[_ Hs]]; [cbn [length] in Hlen; lia|].
  destruct (split_plus s []) as [ts l]. destruct Hs as (HF & _ & off & Hin & Hc & Hk).
  destruct H as [(t & Ht & Hun)|Hun].
  - rewrite Forall_forall in HF. destruct (HF t Ht) as (j & n & Hj & Hn & _). exact (Hun j n Hj Hn).
  - exact (Hun k off Hin Hk Hc).
Qed.

(** texts whose last token is in no entry before the sentinel are rejected
    (a list of them, so that one evaluation of the name map serves all) *)
Lemma parse_key_no_key ss :
  forallb (fun s => Nat.leb 2 (length s) &&
                    negb (PositiveMap.mem (enc_bytes (cstr (snd (split_plus s [])))) keycodes_by_name)) ss = true ->
  forall s, In s ss -> fst (fst (parse_key s)) = false.
Proof.
  intros Hss s Hs. apply (proj1 (forallb_forall _ _) Hss) in Hs. apply andb_true_iff in Hs as [Hlen H].
  apply Nat.leb_le in Hlen. rewrite PositiveMap.mem_find in H.
  destruct (parse_key s) as [[[|] k] m] eqn:E; [exfalso|reflexivity].
  rewrite parse_key_long in E by assumption. apply parse_from_spec in E.
  destruct (split_plus s []) as [ts l]. destruct E as (_ & _ & Hl & Hk).
  rewrite keycode_by_name_ix in Hl. cbn [snd] in H.
  destruct (PositiveMap.find _ keycodes_by_name); [discriminate|congruence].
Qed.

Definition piece_parses (p : bytes) (e : event) : Prop :=
  (exists c, p = [c] /\ e = (schar c, 0)) \/
  (exists body, p = ch_lbrace :: body ++ [ch_rbrace] /\ rbrace_free body = true /\
                parse_key body = (true, fst e, snd e)).

Lemma parse_seq_from_sound s : forall inb out ks,
  parse_seq_from s inb out = (true, ks) ->
  match inb with Some acc => rbrace_free acc = true | None => True end ->
  exists pieces ks', ks = rev out ++ ks' /\ Forall2 piece_parses pieces ks' /\
    match inb with None => s | Some acc => ch_lbrace :: rev acc ++ s end = concat pieces.
Proof.
  induction s as [|c r IH]; intros inb out ks H Hinb; cbn [parse_seq_from] in H.
  - destruct inb; [discriminate|]. inversion H; subst. exists [], []. rewrite app_nil_r. repeat split. constructor.
  - destruct inb as [acc|].
    + destruct (Byte.eqb c ch_rbrace) eqn:Ec.
      * apply Byte.byte_dec_bl in Ec. subst c.
        destruct (parse_key (rev acc)) as [[ok k] m] eqn:Ek. destruct ok; [|discriminate].
        destruct (IH None ((k, m) :: out) ks H I) as (pieces & ks' & H1 & H2 & H3).
        exists ((ch_lbrace :: rev acc ++ [ch_rbrace]) :: pieces), ((k, m) :: ks').
        split; [rewrite H1; cbn [rev]; now rewrite <- app_assoc|].
        split.
        -- constructor; [|assumption]. right. exists (rev acc). repeat split; [|exact Ek].
           unfold rbrace_free. now rewrite forallb_rev.
        -- cbn [concat]. rewrite <- H3. cbn [app]. now rewrite <- app_assoc.
      * destruct (IH (Some (c :: acc)) out ks H) as (pieces & ks' & H1 & H2 & H3).
        { unfold rbrace_free. cbn [forallb]. rewrite Ec. exact Hinb. }
        exists pieces, ks'. repeat split; try assumption.
        rewrite <- H3. cbn [rev]. now rewrite <- app_assoc.
    + destruct (Byte.eqb c ch_lbrace && negb (match r with [] => true | _ => false end)) eqn:Eb.
      * apply andb_true_iff in Eb. destruct Eb as [Eb _]. apply Byte.byte_dec_bl in Eb. subst c.
        destruct (IH (Some []) out ks H eq_refl) as (pieces & ks' & H1 & H2 & H3).
        exists pieces, ks'. repeat split; assumption.
      * cbn [parse_key] in H.
        destruct (IH None ((schar c, 0) :: out) ks H I) as (pieces & ks' & H1 & H2 & H3).
        exists ([c] :: pieces), ((schar c, 0) :: ks').
        split; [rewrite H1; cbn [rev]; now rewrite <- app_assoc|].
        split; [constructor; [left; now exists c|assumption]|].
        cbn [concat app]. now rewrite H3.
Qed.

(** C19 (5c) *)
Lemma parse_seq_sound s ks :
  parse_seq s = (true, ks) ->
  exists pieces, s = concat pieces /\ Forall2 piece_parses pieces ks.
Proof.
  intro H. destruct (parse_seq_from_sound s None [] ks H I) as (pieces & ks' & H1 & H2 & H3).
  cbn [rev app] in H1. subst ks'. now exists pieces.
Qed.

Lemma parse_seq_group_fails body rest :
  rbrace_free body = true -> fst (fst (parse_key body)) = false ->
  fst (parse_seq (ch_lbrace :: body ++ ch_rbrace :: rest)) = false.
Proof.
  intros Hb Hk. unfold parse_seq. rewrite parse_seq_group by assumption.
  destruct (parse_key body) as [[ok k] m]. cbn [fst] in Hk. now subst ok.
Qed.
