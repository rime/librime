(** C07 - proofs about the port of gear/poet.cc (Lookup/Poet.v).

    (a) soundness, both strategies, every word graph: a returned sentence is a chain of word-graph entries ending at
        total_length that never uses the single edge 0 -> total_length; it starts at 0, or - DynamicProgramming only -
        at a position whose state was created by an edge WITHOUT entries ([states[end_pos]] is created before the
        entry loop).  No edge without entries (script translator), or every start position reached over an edge with
        entries (table translator) => it starts at 0: the oracle hypothesis [wg_path_ok wg 0 total s] of the C07
        theorems.  The unrestricted statement is refuted by a three-vertex graph.
    (b) completeness of the dynamic programme on key-ordered forward graphs: a sentence is returned iff a chain of at
        least two words leads from 0 to total_length.
    (c) optimality of the dynamic programme: no chain beats the returned line under the comparison the code uses.

    All of (a)-(c) for the dynamic programme are read off three facts about one [update(candidate)] ([dp_step]):
    where the lines of the new state come from ([dp_step_cases]), that no stored line gets worse ([dp_step_sle]),
    and that every line the step builds is dominated by the line stored at its end ([dp_step_new]). *)
From Coq Require Import List Arith ZArith NArith Bool Lia Sorted.
From RimeV Require Import Base.ListX Lookup.Defs Lookup.Model Lookup.MapProofs Lookup.ScriptProofs Lookup.Poet.
Import ListNotations.
Local Open Scope nat_scope.

Lemma assoc_put {A} k k' (v : A) m : assoc_nat k' (put k v m) = if k' =? k then Some v else assoc_nat k' m.
Proof.
  induction m as [|[k0 v0] m IH]; cbn [put assoc_nat]; [reflexivity|].
  destruct (k =? k0) eqn:E; cbn [assoc_nat].
  - apply Nat.eqb_eq in E. subst k0. now destruct (k' =? k).
  - destruct (k' =? k0) eqn:E'; [|exact IH]. apply Nat.eqb_eq in E'. subst k0. rewrite Nat.eqb_sym. now rewrite E.
Qed.

(** membership in the lists; [wg_det] below turns it into the lookup [wg_path_ok] makes *)
Definition wedge (wg : wgraph) (s e : nat) (d : dentry) : Prop :=
  exists ends ents, In (s, ends) wg /\ In (e, ents) ends /\ In d ents.

Definition eend (wg : wgraph) (q : nat) : Prop := exists s ends, In (s, ends) wg /\ In (q, []) ends.

Fixpoint wchain (wg : wgraph) (total pos fin : nat) (p : sentence) : Prop :=
  match p with
  | [] => pos = fin
  | (d, e) :: r => wedge wg pos e d /\ ~ (pos = 0 /\ e = total) /\ wchain wg total e fin r
  end.

Lemma wchain_app wg total p1 p2 : forall pos fin,
  wchain wg total pos fin (p1 ++ p2) <-> exists mid, wchain wg total pos mid p1 /\ wchain wg total mid fin p2.
Proof.
  induction p1 as [|[d e] p1 IH]; intros pos fin; cbn [wchain app].
  - split; [eauto|]. now intros [mid [-> H]].
  - rewrite IH. split.
    + intros (W & N & mid & H1 & H2). exists mid. auto.
    + intros (mid & (W & N & H1) & H2). eauto.
Qed.

Lemma sentence_of_cons c l : sentence_of (c :: l) = sentence_of l ++ [(cp_ent c, cp_end c)].
Proof. unfold sentence_of. cbn [rev]. now rewrite map_app. Qed.

Lemma sentence_of_nil l : sentence_of l = [] -> l = [].
Proof. destruct l as [|c r]; [reflexivity|]. rewrite sentence_of_cons. now destruct (sentence_of r). Qed.

Lemma new_line_chain gr pen preceding wg total o s e d cand r :
  wchain wg total o s (sentence_of cand) -> wedge wg s e d -> ~ (s = 0 /\ e = total) ->
  wchain wg total o e (sentence_of (new_line gr pen preceding cand e r d)).
Proof. intros H W N. unfold new_line. rewrite sentence_of_cons. apply wchain_app. exists s. cbn. auto. Qed.

(** [better]: the update happens only on a STRICT improvement, so a line that compares "not less" - equal weight
    under CompareWeight; equal weight, word count and word lengths under LeftAssociateCompare - never replaces the
    stored one; the stored one is the first such line in processing order (start positions ascending, end positions
    in map order, entries in list order) *)
Lemma better_keeps_first cmp best nl : best <> [] -> cmp best nl = false -> better cmp best nl = best.
Proof. intros N H. unfold better. destruct best; [congruence|]. cbn [l_empty orb]. now rewrite H. Qed.

Lemma better_takes_strictly_better cmp best nl : cmp best nl = true -> better cmp best nl = nl.
Proof. intros H. unfold better. rewrite H. now rewrite orb_true_r. Qed.

Lemma better_pick cmp best nl : better cmp best nl = best \/ better cmp best nl = nl.
Proof. unfold better. destruct (l_empty best || cmp best nl); auto. Qed.

Lemma better_nonempty cmp best nl : nl <> [] -> better cmp best nl <> [].
Proof. intros N. destruct best as [|c r]; [exact N|]. now destruct (better_pick cmp (c :: r) nl) as [-> | ->]. Qed.

Record no_worse (cmp : line -> line -> bool) (R : line -> line -> Prop) : Prop := {
  nw_refl : forall x, x <> [] -> R x x;
  nw_trans : forall a b c, R a b -> R b c -> R a c;
  nw_best : forall best nl, best <> [] -> R (better cmp best nl) best;
  nw_new : forall best nl, nl <> [] -> R (better cmp best nl) nl
}.

(** non-emptiness is all that is asked of the stored lines *)
Lemma no_worse_trivial cmp : no_worse cmp (fun _ _ => True).
Proof. now split. Qed.

Lemma single_edgeP s e total : reflect (s = 0 /\ e = total) ((s =? 0) && (e =? total)).
Proof. destruct (Nat.eqb_spec s 0), (Nat.eqb_spec e total); constructor; tauto. Qed.

Section DpStep.
Variable gr : option (text -> text -> bool -> Z).
Variable pen : Z.
Variable cmp : line -> line -> bool.
Variable preceding : text.
Variable total : nat.

Notation better := (better cmp).
Notation new_line := (new_line gr pen preceding).
Notation dp_edge := (dp_edge gr pen cmp preceding).
Notation dp_step := (dp_step gr pen cmp preceding total).

Definition dp_new (s : nat) (cand : line) (ends : list (nat * list dentry)) (q : nat) (l : line) : Prop :=
  exists ents, In (q, ents) ends /\ ~ (s = 0 /\ q = total) /\
               ((exists d, In d ents /\ l = new_line cand q (q =? total) d) \/ (ents = [] /\ l = [])).

Lemma dp_edge_cases s cand sts ends e ents q l :
  In (e, ents) ends -> assoc_nat q (dp_edge s total cand sts (e, ents)) = Some l ->
  assoc_nat q sts = Some l \/ dp_new s cand ends q l.
Proof.
  intros Hin. unfold Poet.dp_edge. cbn [fst snd].
  destruct (single_edgeP s e total) as [_|N]; [now left|].
  rewrite assoc_put. destruct (q =? e) eqn:E; [|now left]. apply Nat.eqb_eq in E. subst q.
  intros H. injection H as <-.
  set (f := fun best d => better best (new_line cand e (e =? total) d)).
  assert (Hf : forall a d, f a d = a \/ f a d = new_line cand e (e =? total) d) by (intros; apply better_pick).
  destruct (assoc_nat e sts) as [l0|].
  - destruct (fold_left_pick f _ ents l0 Hf) as [->|[d [Hd ->]]]; [now left|]. right. exists ents. eauto 6.
  - right. exists ents. split; [exact Hin|]. split; [exact N|]. destruct ents as [|d ents]; [now right|left].
    cbn [fold_left]. destruct (fold_left_pick f _ ents (f [] d) Hf) as [->|[d' [Hd ->]]].
    + exists d. split; [now left|reflexivity].
    + exists d'. split; [now right|reflexivity].
Qed.

Lemma dp_step_cases sts s ends q l :
  assoc_nat q (dp_step sts (s, ends)) = Some l ->
  assoc_nat q sts = Some l \/ exists cand, assoc_nat s sts = Some cand /\ dp_new s cand ends q l.
Proof.
  unfold Poet.dp_step. cbn [fst snd]. destruct (assoc_nat s sts) as [cand|]; [|now left].
  intros A. enough (assoc_nat q sts = Some l \/ dp_new s cand ends q l) as [H|H]; eauto. revert q l A.
  apply (fold_left_inv (fun sts' => forall q l, assoc_nat q sts' = Some l -> assoc_nat q sts = Some l \/ dp_new s cand ends q l));
    [now left|].
  intros sts' [e ents] Hin IH q l A. destruct (dp_edge_cases s cand sts' ends e ents q l Hin A) as [A'|N]; [now apply IH|now right].
Qed.

Definition ends_ok (sts : dp_states) : Prop := forall q l, assoc_nat q sts = Some l -> l <> [] -> l_end l = q.

Lemma dp_step_ends sts sv : ends_ok sts -> ends_ok (dp_step sts sv).
Proof.
  intros H q l A. destruct sv as [s ends].
  destruct (dp_step_cases _ _ _ _ _ A) as [A0|(cand & _ & ents & _ & _ & [(d & _ & ->)|(_ & ->)])];
    [now apply H|reflexivity|congruence].
Qed.

Section Order.
Variable R : line -> line -> Prop.
Hypothesis HR : no_worse cmp R.

Definition imp (old new : line) : Prop := old <> [] -> new <> [] /\ R new old.

Lemma imp_refl l : imp l l.
Proof. intros N. split; [exact N|exact (nw_refl _ _ HR l N)]. Qed.

Lemma imp_trans a b c : imp a b -> imp b c -> imp a c.
Proof. intros H1 H2 N. destruct (H1 N) as [N1 R1]. destruct (H2 N1) as [N2 R2]. eauto using (nw_trans _ _ HR). Qed.

Lemma fold_better_ub (f : dentry -> line) ents target :
  (forall d, f d <> []) ->
  let res := fold_left (fun best d => better best (f d)) ents target in
  imp target res /\ forall d, In d ents -> imp (f d) res.
Proof.
  intros Nf. apply (fold_left_ub imp (fun d r => imp (f d) r)); [exact imp_refl|exact imp_trans| | |].
  - intros d a b. exact (imp_trans _ _ _).
  - intros a d N. split; [apply better_nonempty, Nf|exact (nw_best _ _ HR a (f d) N)].
  - intros a d N. split; [apply better_nonempty, Nf|exact (nw_new _ _ HR a (f d) N)].
Qed.

Definition above (sts : dp_states) (q : nat) (l : line) : Prop := exists r, assoc_nat q sts = Some r /\ imp l r.

Definition sle (sts sts' : dp_states) : Prop := forall q l, assoc_nat q sts = Some l -> above sts' q l.

Lemma sle_refl sts : sle sts sts.
Proof. intros q l A. exists l. split; [exact A|apply imp_refl]. Qed.

Lemma above_sle sts sts' q l : above sts q l -> sle sts sts' -> above sts' q l.
Proof. intros [r [A I1]] S. destruct (S q r A) as [r' [A' I2]]. exists r'. split; [exact A'|exact (imp_trans _ _ _ I1 I2)]. Qed.

Lemma above_le sts q a b : a <> [] -> R a b -> above sts q a -> above sts q b.
Proof. intros N H [r [A Ia]]. exists r. split; [exact A|]. intros _. destruct (Ia N) as [Nr Rr]. eauto using (nw_trans _ _ HR). Qed.

Lemma sle_trans a b c : sle a b -> sle b c -> sle a c.
Proof. intros H1 H2 q l A. exact (above_sle _ _ _ _ (H1 q l A) H2). Qed.

Lemma dp_edge_ub s cand sts e ents :
  let sts' := dp_edge s total cand sts (e, ents) in
  sle sts sts' /\
  (~ (s = 0 /\ e = total) -> forall d, In d ents -> above sts' e (new_line cand e (e =? total) d)).
Proof.
  unfold Poet.dp_edge, sle, above. cbn [fst snd].
  destruct (single_edgeP s e total) as [G|_]; [split; [apply sle_refl|tauto]|].
  destruct (fold_better_ub (fun d => new_line cand e (e =? total) d) ents
              (match assoc_nat e sts with Some l => l | None => [] end)) as [U1 U2];
    [discriminate|]. cbn zeta in U1, U2.
  split.
  - intros q l A. rewrite assoc_put. destruct (q =? e) eqn:E; [|apply sle_refl, A].
    apply Nat.eqb_eq in E. subst q. rewrite A in U1 |- *. eexists. split; [reflexivity|exact U1].
  - intros _ d Hd. rewrite assoc_put, Nat.eqb_refl. eexists. split; [reflexivity|exact (U2 d Hd)].
Qed.

Lemma dp_edges_ub s cand ends sts :
  let sts' := fold_left (dp_edge s total cand) ends sts in
  sle sts sts' /\
  forall ev, In ev ends -> ~ (s = 0 /\ fst ev = total) ->
             forall d, In d (snd ev) -> above sts' (fst ev) (new_line cand (fst ev) (fst ev =? total) d).
Proof.
  apply (fold_left_ub sle (fun ev sts' => ~ (s = 0 /\ fst ev = total) -> forall d, In d (snd ev) ->
                                           above sts' (fst ev) (new_line cand (fst ev) (fst ev =? total) d)));
    [exact sle_refl|exact sle_trans| | |].
  - intros ev a b H S N d Hd. exact (above_sle _ _ _ _ (H N d Hd) S).
  - intros a [e ents]. apply dp_edge_ub.
  - intros a [e ents]. apply dp_edge_ub.
Qed.

Lemma dp_step_sle sts sv : sle sts (dp_step sts sv).
Proof. unfold Poet.dp_step. destruct (assoc_nat (fst sv) sts); [apply dp_edges_ub|apply sle_refl]. Qed.

Lemma dp_step_new sts s ends cand e ents d :
  assoc_nat s sts = Some cand -> In (e, ents) ends -> ~ (s = 0 /\ e = total) -> In d ents ->
  above (dp_step sts (s, ends)) e (new_line cand e (e =? total) d).
Proof.
  intros A Hin N Hd. unfold Poet.dp_step. cbn [fst snd]. rewrite A.
  exact (proj2 (dp_edges_ub s cand ends sts) (e, ents) Hin N d Hd).
Qed.

End Order.

Lemma dp_step_keeps sts sv q l :
  assoc_nat q sts = Some l -> exists l', assoc_nat q (dp_step sts sv) = Some l' /\ (l' = [] -> l = []).
Proof.
  intros A. destruct (dp_step_sle _ (no_worse_trivial cmp) sts sv q l A) as [l' [A' I]].
  exists l'. split; [exact A'|]. intros ->. destruct l as [|c r]; [reflexivity|]. now destruct I.
Qed.

Lemma dp_step_fills sts s ends cand e ents :
  assoc_nat s sts = Some cand -> In (e, ents) ends -> ~ (s = 0 /\ e = total) -> ents <> [] ->
  exists l, assoc_nat e (dp_step sts (s, ends)) = Some l /\ l <> [].
Proof.
  intros A Hin N Ne. destruct ents as [|d ents]; [congruence|].
  destruct (dp_step_new _ (no_worse_trivial cmp) sts s ends cand e (d :: ents) d A Hin N (or_introl eq_refl)) as [l [Al I]].
  exists l. split; [exact Al|]. now destruct I.
Qed.

End DpStep.

(** * (a) soundness of the dynamic programme *)
Section DpSound.
Variable gr : option (text -> text -> bool -> Z).
Variable pen : Z.
Variable cmp : line -> line -> bool.
Variable preceding : text.
Variable wg : wgraph.
Variable total : nat.

Notation dp_step := (dp_step gr pen cmp preceding total).

Definition origin_ok (o : nat) : Prop := o = 0 \/ eend wg o.

Definition okl (q : nat) (l : line) : Prop := exists o, origin_ok o /\ wchain wg total o q (sentence_of l).
Definition ok_states (sts : dp_states) : Prop := forall q l, assoc_nat q sts = Some l -> okl q l.

Lemma dp_step_ok sts sv : In sv wg -> ok_states sts -> ok_states (dp_step sts sv).
Proof.
  destruct sv as [s ends]. intros Hin Hs q l A.
  destruct (dp_step_cases _ _ _ _ _ _ _ _ _ _ A) as [A0|(cand & Ac & ents & He & N & [(d & Hd & ->)|(-> & ->)])].
  - now apply Hs.
  - destruct (Hs s cand Ac) as (o & Ho & Hc). exists o. split; [exact Ho|].
    apply (new_line_chain _ _ _ _ _ _ s); [exact Hc|exists ends, ents; auto|exact N].
  - exists q. split; [right; exists s, ends; auto|reflexivity].
Qed.

Lemma dp_run_ok : ok_states (dp_run gr pen cmp preceding wg total).
Proof.
  unfold dp_run. apply fold_left_inv; [|intros sts sv; apply dp_step_ok].
  intros q l A. apply assoc_nat_single in A as [-> ->]. exists 0. split; [now left|reflexivity].
Qed.

Theorem dp_sentence_chain s :
  dp_sentence gr pen cmp preceding wg total = Some s ->
  s <> [] /\ exists o, wchain wg total o total s /\ origin_ok o.
Proof.
  unfold dp_sentence. destruct (assoc_nat total (dp_run gr pen cmp preceding wg total)) as [l|] eqn:A; [|discriminate].
  destruct (dp_run_ok total l A) as (o & Ho & Hc). destruct l as [|c r]; [discriminate|].
  intros E. injection E as <-. split; [|eauto]. intros E. apply sentence_of_nil in E. discriminate.
Qed.

(** graphs in which every start position is reached over an edge WITH entries from an earlier start position (the
    table translator's graph: [vertices] only grows on a non-exhausted iterator) - the state of every start
    position is non-empty when it is processed, so every line starts at 0 *)
Definition gkey (pre : wgraph) (q : nat) : Prop :=
  q = 0 \/ exists s ends ents, In (s, ends) pre /\ In (q, ents) ends /\ ents <> [] /\ ~ (s = 0 /\ q = total).

Definition grounded : Prop := forall pre q ends post, wg = pre ++ (q, ends) :: post -> gkey pre q.

Definition ginv (pre : wgraph) (sts : dp_states) : Prop :=
  (forall q l, assoc_nat q sts = Some l -> l <> [] -> wchain wg total 0 q (sentence_of l)) /\
  forall q, gkey pre q -> exists l, assoc_nat q sts = Some l /\ (l = [] -> q = 0).

Lemma ginv_step pre q0 ends0 sts :
  In (q0, ends0) wg -> gkey pre q0 -> ginv pre sts -> ginv (pre ++ [(q0, ends0)]) (dp_step sts (q0, ends0)).
Proof.
  intros Hin Hk [G1 G2]. destruct (G2 q0 Hk) as [cand [A H0]]. split.
  - intros q l Al Nl.
    destruct (dp_step_cases _ _ _ _ _ _ _ _ _ _ Al) as [A0|(c & Ac & ents & He & N & [(d & Hd & ->)|(_ & ->)])];
      [now apply (G1 q)| |congruence].
    rewrite A in Ac. injection Ac as <-.
    apply (new_line_chain _ _ _ _ _ _ q0); [|exists ends0, ents; auto|exact N].
    destruct cand as [|c r]; [now rewrite (H0 eq_refl)|]. now apply (G1 q0).
  - assert (Old : forall q, gkey pre q -> exists l, assoc_nat q (dp_step sts (q0, ends0)) = Some l /\ (l = [] -> q = 0)).
    { intros q Hq. destruct (G2 q Hq) as [l [Al Hl]].
      destruct (dp_step_keeps gr pen cmp preceding total sts (q0, ends0) q l Al) as [l' [Al' E]]. exists l'. auto. }
    intros q [->|(s & ends & ents & H1 & H2 & H3 & H4)]; [apply Old; now left|].
    apply in_app_or in H1. destruct H1 as [H1|[[= <- <-]|[]]]; [apply Old; right; exists s, ends, ents; auto|].
    destruct (dp_step_fills gr pen cmp preceding total sts q0 ends0 cand q ents A H2 H4 H3) as [l [Al Nl]].
    exists l. split; [exact Al|]. intros ->. congruence.
Qed.

Theorem dp_sentence_chain_grounded s :
  grounded -> dp_sentence gr pen cmp preceding wg total = Some s -> wchain wg total 0 total s.
Proof.
  intros Hg. unfold dp_sentence, dp_run.
  assert (H : ginv wg (fold_left dp_step wg [(0, [])])).
  { apply fold_left_prefix_inv.
    - split; [|intros q [->|(s0 & ends & ents & [] & _)]; exists []; auto].
      intros q l A. apply assoc_nat_single in A as [_ ->]. congruence.
    - intros pre [q0 ends0] post sts E. apply ginv_step; [rewrite E; apply in_or_app; right; now left|].
      exact (Hg pre q0 ends0 post E). }
  destruct (assoc_nat total (fold_left dp_step wg [(0, [])])) as [[|c r]|] eqn:A; try discriminate.
  intros E. injection E as <-. now apply (proj1 H total).
Qed.

End DpSound.

(** * (b), (c): key-ordered forward graphs (std::map iteration order; every edge ends behind its start) *)
Definition wg_sorted (wg : wgraph) : Prop := StronglySorted lt (map fst wg).
Definition wg_forward (wg : wgraph) : Prop := forall s ends e ents, In (s, ends) wg -> In (e, ents) ends -> s < e.

(** chains from 0, built at the end (the order the dynamic programme discovers them in) *)
Inductive rchain (g : wgraph) (total : nat) : nat -> sentence -> Prop :=
| rc_nil : rchain g total 0 []
| rc_snoc : forall q p d e, rchain g total q p -> wedge g q e d -> ~ (q = 0 /\ e = total) ->
                            rchain g total e (p ++ [(d, e)]).

Lemma wedge_mono g g' s e d : incl g g' -> wedge g s e d -> wedge g' s e d.
Proof. intros Hi [ends [ents [H1 H2]]]. exists ends, ents. split; [now apply Hi|exact H2]. Qed.

Lemma rchain_mono g g' total q p : incl g g' -> rchain g total q p -> rchain g' total q p.
Proof. intros Hi H. induction H; [constructor|]. econstructor; eauto using wedge_mono. Qed.

Lemma rchain_nil_inv g total q : rchain g total q [] -> q = 0.
Proof. intros H. inversion H as [|? p ? ? ? ? ? E]; [reflexivity|]. destruct p; discriminate. Qed.

Lemma wchain_rchain g total : forall p pos q p0,
  rchain g total pos p0 -> wchain g total pos q p -> rchain g total q (p0 ++ p).
Proof.
  induction p as [|[d e] p IH]; intros pos q p0 H0 H; cbn [wchain] in H.
  - subst. now rewrite app_nil_r.
  - destruct H as [H1 [H2 H3]]. replace (p0 ++ (d, e) :: p) with ((p0 ++ [(d, e)]) ++ p) by now rewrite <- app_assoc.
    apply (IH e); [|exact H3]. now apply (rc_snoc g total pos).
Qed.

Lemma rchain_wchain g total q p : rchain g total q p -> wchain g total 0 q p.
Proof. intros H. induction H; [reflexivity|]. apply wchain_app. exists q. cbn. auto. Qed.

Section DpOpt.
Variable pen : Z.
Variable cmp : line -> line -> bool.
Variable preceding : text.
Variable total : nat.
Variable R : line -> line -> Prop.

Notation better := (better cmp).
Notation new_line := (new_line None pen preceding).
Notation dp_step := (dp_step None pen cmp preceding total).

Hypothesis HR : no_worse cmp R.
Hypothesis Rmono : forall a b d e k, a <> [] -> b <> [] -> l_end a = l_end b -> R a b ->
  R (mkComp d e (l_weight a + k)%Z :: a) (mkComp d e (l_weight b + k)%Z :: b).

Definition line_of (p : sentence) : line :=
  fold_left (fun l (de : dentry * nat) => new_line l (snd de) (snd de =? total) (fst de)) p [].

Lemma line_of_snoc p d e : line_of (p ++ [(d, e)]) = new_line (line_of p) e (e =? total) d.
Proof. unfold line_of. rewrite fold_left_app. reflexivity. Qed.

Lemma rchain_line_end g q p : rchain g total q p -> p <> [] -> line_of p <> [] /\ l_end (line_of p) = q.
Proof.
  intros H. destruct H as [|q p d e H W N]; [congruence|]. intros _. rewrite line_of_snoc.
  unfold Poet.new_line. split; [discriminate|reflexivity].
Qed.

Lemma rchain_split pre s ends0 q p :
  (forall k ends', In (k, ends') pre -> k < s) -> (forall e ents, In (e, ents) ends0 -> s < e) ->
  rchain (pre ++ [(s, ends0)]) total q p ->
  rchain pre total q p \/
  (s < q /\ exists p0 d ents, p = p0 ++ [(d, q)] /\ rchain pre total s p0 /\ In (q, ents) ends0 /\ In d ents /\
                             ~ (s = 0 /\ q = total)).
Proof.
  intros Hlt Hfw H. induction H as [|q p d e H IH W N]; [left; constructor|].
  destruct W as [ends [ents [H1 [H2 H3]]]]. apply in_app_or in H1. destruct IH as [IH|[Hs _]].
  - destruct H1 as [H1|[H1|[]]].
    + left. apply (rc_snoc pre total q); [exact IH| exists ends, ents; auto|exact N].
    + injection H1 as <- <-. right. split; [now apply (Hfw e ents)|]. exists p, d, ents. auto.
  - exfalso. destruct H1 as [H1|[H1|[]]]; [apply Hlt in H1; lia|injection H1 as <- <-; lia].
Qed.

Definition oinv (pre : wgraph) (sts : dp_states) : Prop :=
  assoc_nat 0 sts = Some [] /\ ends_ok sts /\
  forall q p, p <> [] -> rchain pre total q p -> above R sts q (line_of p).

Lemma oinv_pred pre sts s p0 q d :
  oinv pre sts -> rchain pre total s p0 ->
  exists cand, assoc_nat s sts = Some cand /\
               R (new_line cand q (q =? total) d) (new_line (line_of p0) q (q =? total) d).
Proof.
  intros [I0 [I1 I2]] H0. destruct p0 as [|x p0].
  - apply rchain_nil_inv in H0. subst s. exists []. split; [exact I0|]. apply (nw_refl _ _ HR). discriminate.
  - destruct (rchain_line_end pre s (x :: p0) H0 ltac:(discriminate)) as [Nl El].
    destruct (I2 s (x :: p0) ltac:(discriminate) H0) as [r [Ar Ir]]. destruct (Ir Nl) as [Nr Rr].
    exists r. split; [exact Ar|]. apply (Rmono r (line_of (x :: p0)) d q (d_w d + pen)%Z Nr Nl); [|exact Rr].
    rewrite El. now apply I1.
Qed.

Lemma oinv_step pre s ends0 sts :
  (forall k ends', In (k, ends') pre -> k < s) -> (forall e ents, In (e, ents) ends0 -> s < e) ->
  oinv pre sts -> oinv (pre ++ [(s, ends0)]) (dp_step sts (s, ends0)).
Proof.
  intros Hlt Hfw I. pose proof I as [I0 [I1 I2]].
  assert (S : sle R sts (dp_step sts (s, ends0))) by now apply dp_step_sle.
  split; [|split; [now apply dp_step_ends|]].
  - destruct (S 0 [] I0) as [l [Al _]]. rewrite Al. f_equal.
    destruct (dp_step_cases _ _ _ _ _ _ _ _ _ _ Al) as [A0|(_ & _ & ents & He & _)]; [congruence|].
    apply Hfw in He. lia.
  - intros q p Np H. apply (rchain_split pre s ends0 q p Hlt Hfw) in H.
    destruct H as [H|[_ (p0 & d & ents & -> & H0 & H1 & H2 & H3)]]; [exact (above_sle _ R HR _ _ _ _ (I2 q p Np H) S)|].
    rewrite line_of_snoc. destruct (oinv_pred pre sts s p0 q d I H0) as [cand [Ac Rc]].
    apply (above_le _ R HR _ _ (new_line cand q (q =? total) d)); [discriminate|exact Rc|].
    exact (dp_step_new _ _ _ _ _ R HR _ _ _ _ _ _ _ Ac H1 H3 H2).
Qed.

Definition dp_best (wg : wgraph) : option line := assoc_nat total (dp_run None pen cmp preceding wg total).

(** (b) and (c) at every position, not only under [total] *)
Theorem dp_run_complete wg : wg_sorted wg -> wg_forward wg -> oinv wg (dp_run None pen cmp preceding wg total).
Proof.
  intros Hs Hf. unfold dp_run. apply fold_left_prefix_inv.
  - split; [reflexivity|]. split.
    + intros q l A. apply assoc_nat_single in A as [_ ->]. congruence.
    + intros q p Np H. exfalso. destruct H as [|? ? ? ? ? [ends [ents [[] _]]]]. congruence.
  - intros pre [s ends0] post sts E. apply oinv_step.
    + intros k ends' Hin. unfold wg_sorted in Hs. rewrite E, map_app in Hs. cbn [map fst] in Hs.
      apply (sorted_app_inv lt _ _ k s Hs); [now apply (in_map fst) in Hin|now left].
    + intros e ents Hin. apply (Hf s ends0 e ents); [|exact Hin]. rewrite E. apply in_or_app. right. now left.
Qed.

Theorem dp_best_complete wg p :
  wg_sorted wg -> wg_forward wg -> p <> [] -> wchain wg total 0 total p ->
  exists r, dp_best wg = Some r /\ r <> [] /\ R r (line_of p).
Proof.
  intros Hs Hf Np H. apply (wchain_rchain wg total p 0 total [] (rc_nil wg total)) in H.
  destruct (dp_run_complete wg Hs Hf) as [_ [_ G]]. destruct (G total p Np H) as [r [A Ir]].
  exists r. split; [exact A|]. apply Ir. now apply (rchain_line_end wg total p).
Qed.

End DpOpt.

Lemma dp_sentence_best pen cmp preceding total wg :
  dp_sentence None pen cmp preceding wg total =
  match dp_best pen cmp preceding total wg with Some (c :: r) => Some (sentence_of (c :: r)) | _ => None end.
Proof. unfold dp_sentence, dp_best. destruct (assoc_nat total _) as [[|c r]|]; reflexivity. Qed.

(** ** (b) completeness: whatever the comparison, a chain of at least two words yields a sentence *)
Theorem dp_sentence_complete pen cmp preceding wg total p :
  wg_sorted wg -> wg_forward wg -> p <> [] -> wchain wg total 0 total p ->
  exists s, dp_sentence None pen cmp preceding wg total = Some s.
Proof.
  intros Hs Hf Np H.
  destruct (dp_best_complete pen cmp preceding total _ (no_worse_trivial cmp) ltac:(auto) wg p Hs Hf Np H) as [r [E [N _]]].
  rewrite dp_sentence_best, E. destruct r; [congruence|]. eauto.
Qed.

(** ** (c) optimality.  What is needed of [compare_]: a strict weak order ("one is less than other") that is
    preserved when two lines ending at one position are extended by the same word *)
Record cmp_ok (cmp : line -> line -> bool) : Prop := {
  cmp_irrefl : forall x, cmp x x = false;
  cmp_asym : forall a b, cmp a b = true -> cmp b a = false;
  cmp_ntrans : forall a b c, cmp a b = false -> cmp b c = false -> cmp a c = false;
  cmp_mono : forall a b d e k, a <> [] -> b <> [] -> l_end a = l_end b -> cmp a b = false ->
             cmp (mkComp d e (l_weight a + k)%Z :: a) (mkComp d e (l_weight b + k)%Z :: b) = false
}.

Lemma no_worse_cmp cmp : cmp_ok cmp -> no_worse cmp (fun a b => cmp a b = false).
Proof.
  intros [Ci Ca Ct _]. split.
  - intros x _. apply Ci.
  - exact Ct.
  - intros best nl Nb. destruct (cmp best nl) eqn:C.
    + rewrite (better_takes_strictly_better _ _ _ C). now apply Ca.
    + rewrite (better_keeps_first _ _ _ Nb C). apply Ci.
  - intros best nl _. destruct best as [|c r]; [apply Ci|]. destruct (cmp (c :: r) nl) eqn:C.
    + rewrite (better_takes_strictly_better _ _ _ C). apply Ci.
    + now rewrite (better_keeps_first cmp (c :: r) nl ltac:(discriminate) C).
Qed.

Theorem dp_optimal pen cmp preceding wg total p :
  cmp_ok cmp -> wg_sorted wg -> wg_forward wg -> p <> [] -> wchain wg total 0 total p ->
  exists r, dp_best pen cmp preceding total wg = Some r /\
            dp_sentence None pen cmp preceding wg total = Some (sentence_of r) /\
            cmp r (line_of pen preceding total p) = false.
Proof.
  intros C Hs Hf Np H.
  destruct (dp_best_complete pen cmp preceding total _ (no_worse_cmp cmp C) (cmp_mono cmp C) wg p Hs Hf Np H) as [r [E [N Rr]]].
  exists r. split; [exact E|]. split; [|exact Rr]. rewrite dp_sentence_best, E. destruct r; [congruence|reflexivity].
Qed.

Fixpoint path_weight (pen : Z) (p : sentence) : Z :=
  match p with
  | [] => 0%Z
  | (d, _) :: r => (d_w d + pen + path_weight pen r)%Z
  end.

Lemma fold_new_line_weight pen preceding total p : forall l,
  l_weight (fold_left (fun l (de : dentry * nat) => new_line None pen preceding l (snd de) (snd de =? total) (fst de)) p l)
  = (l_weight l + path_weight pen p)%Z.
Proof.
  induction p as [|[d e] p IH]; intros l; cbn [fold_left path_weight]; [lia|].
  rewrite IH. unfold new_line, evaluate. cbn [l_weight cp_w fst snd]. lia.
Qed.

Lemma line_of_weight pen preceding total p : l_weight (line_of pen preceding total p) = path_weight pen p.
Proof. unfold line_of. rewrite fold_new_line_weight. reflexivity. Qed.

Lemma compare_weight_ok : cmp_ok compare_weight.
Proof.
  unfold compare_weight. split.
  - intros x. apply Z.ltb_irrefl.
  - intros a b H. apply Z.ltb_lt in H. apply Z.ltb_ge. lia.
  - intros a b c H1 H2. apply Z.ltb_ge in H1, H2. apply Z.ltb_ge. lia.
  - intros a b d e k _ _ _ H. cbn [l_weight cp_w]. apply Z.ltb_ge in H. apply Z.ltb_ge. lia.
Qed.

Lemma compare_weight_tie a b : compare_weight a b = false /\ compare_weight b a = false <-> l_weight a = l_weight b.
Proof. unfold compare_weight. rewrite !Z.ltb_ge. lia. Qed.

(** the script translator's sentence has the greatest weight among all chains of at least two words *)
Theorem dp_weight_maximal pen preceding wg total p :
  wg_sorted wg -> wg_forward wg -> p <> [] -> wchain wg total 0 total p ->
  exists r, dp_sentence None pen compare_weight preceding wg total = Some (sentence_of r) /\
            (path_weight pen p <= l_weight r)%Z.
Proof.
  intros Hs Hf Np H. destruct (dp_optimal pen compare_weight preceding wg total p compare_weight_ok Hs Hf Np H) as [r [_ [E C]]].
  exists r. split; [exact E|]. unfold compare_weight in C. apply Z.ltb_ge in C. now rewrite line_of_weight in C.
Qed.

Lemma lex_lt_cons x a y b :
  lex_lt (x :: a) (y :: b) = match x ?= y with Lt => true | Eq => lex_lt a b | Gt => false end.
Proof.
  cbn [lex_lt]. destruct (Nat.compare_spec x y) as [->|H|H].
  - now rewrite Nat.ltb_irrefl.
  - apply Nat.ltb_lt in H. now rewrite H.
  - rewrite (proj2 (Nat.ltb_ge x y)) by lia. apply Nat.ltb_lt in H. now rewrite H.
Qed.

Lemma lex_lt_irrefl a : lex_lt a a = false.
Proof. induction a as [|x a IH]; [reflexivity|]. now rewrite lex_lt_cons, Nat.compare_refl. Qed.

Lemma lex_lt_asym a : forall b, lex_lt a b = true -> lex_lt b a = false.
Proof.
  induction a as [|x a IH]; intros [|y b]; try reflexivity; try discriminate.
  rewrite !lex_lt_cons, (Nat.compare_antisym x y). destruct (x ?= y); cbn [CompOpp]; auto.
Qed.

Lemma lex_lt_ntrans a : forall b c, lex_lt a b = false -> lex_lt b c = false -> lex_lt a c = false.
Proof.
  induction a as [|x a IH]; intros [|y b] [|z c]; try reflexivity; try discriminate. rewrite !lex_lt_cons.
  destruct (Nat.compare_spec x y), (Nat.compare_spec y z), (Nat.compare_spec x z); try lia; try discriminate; try reflexivity.
  apply IH.
Qed.

Lemma lex_lt_snoc_same x a : forall b, length a = length b -> lex_lt (a ++ [x]) (b ++ [x]) = lex_lt a b.
Proof.
  induction a as [|y a IH]; intros [|z b] L; try discriminate; cbn [app].
  - now rewrite lex_lt_cons, Nat.compare_refl.
  - injection L as L. now rewrite !lex_lt_cons, IH.
Qed.

Lemma last_cons_default (xs : list nat) : forall x d, last (x :: xs) d = last xs x.
Proof.
  induction xs as [|a xs IH]; intros x d; [reflexivity|].
  change (last (x :: a :: xs) d) with (last (a :: xs) d). now rewrite !IH.
Qed.

Lemma diffs_snoc xs : forall prev e, diffs prev (xs ++ [e]) = diffs prev xs ++ [e - last xs prev].
Proof.
  induction xs as [|x xs IH]; intros prev e; [reflexivity|]. cbn [app diffs]. rewrite IH. now rewrite last_cons_default.
Qed.

Lemma word_lengths_cons c l : word_lengths (c :: l) = word_lengths l ++ [cp_end c - l_end l].
Proof.
  unfold word_lengths. cbn [rev]. rewrite map_app. cbn [map]. rewrite diffs_snoc. f_equal. f_equal. f_equal.
  destruct l as [|c' r]; [reflexivity|]. cbn [rev l_end]. rewrite map_app. cbn [map]. apply last_last.
Qed.

Lemma lac_compare a b :
  left_associate_compare a b =
  match (l_weight a ?= l_weight b)%Z with
  | Lt => true
  | Gt => false
  | Eq => match length (word_lengths b) ?= length (word_lengths a) with
          | Lt => true
          | Gt => false
          | Eq => lex_lt (word_lengths a) (word_lengths b)
          end
  end.
Proof.
  unfold left_associate_compare. rewrite Z.ltb_compare, Z.eqb_compare, Nat.ltb_compare, Nat.eqb_compare, (Nat.compare_antisym (length (word_lengths b))).
  destruct (l_weight a ?= l_weight b)%Z; try reflexivity. now destruct (length (word_lengths b) ?= length (word_lengths a)).
Qed.

Lemma left_associate_compare_ok : cmp_ok left_associate_compare.
Proof.
  split.
  - intros x. now rewrite lac_compare, Z.compare_refl, Nat.compare_refl, lex_lt_irrefl.
  - intros a b. rewrite !lac_compare, (Z.compare_antisym (l_weight a)), (Nat.compare_antisym (length (word_lengths b)) (length (word_lengths a))).
    destruct (l_weight a ?= l_weight b)%Z; cbn [CompOpp]; try easy.
    destruct (length (word_lengths b) ?= length (word_lengths a)); cbn [CompOpp]; try easy. apply lex_lt_asym.
  - intros a b c. rewrite !lac_compare.
    destruct (Z.compare_spec (l_weight a) (l_weight b)), (Z.compare_spec (l_weight b) (l_weight c)),
      (Z.compare_spec (l_weight a) (l_weight c)); try lia; try discriminate; try reflexivity.
    destruct (Nat.compare_spec (length (word_lengths b)) (length (word_lengths a))),
      (Nat.compare_spec (length (word_lengths c)) (length (word_lengths b))),
      (Nat.compare_spec (length (word_lengths c)) (length (word_lengths a))); try lia; try discriminate; try reflexivity.
    apply lex_lt_ntrans.
  - intros a b d e k _ _ He. rewrite !lac_compare. cbn [l_weight cp_w].
    rewrite !word_lengths_cons, !app_length, !Nat.add_1_r, !(Z.add_comm _ k), Z.add_compare_mono_l.
    cbn [cp_end Nat.compare]. rewrite He.
    destruct (l_weight a ?= l_weight b)%Z; try easy.
    destruct (Nat.compare_spec (length (word_lengths b)) (length (word_lengths a))) as [L| |]; try easy.
    now rewrite lex_lt_snoc_same.
Qed.

(** * (a) for BeamSearch: every word graph, every grammar - the sentence is a chain from 0 (an empty hash map has no
    candidate to extend, so the strategy does not start lines at states created by edges without entries) *)
Section BeamSound.
Variable gr : option (text -> text -> bool -> Z).
Variable pen : Z.
Variable cmp : line -> line -> bool.
Variable preceding : text.
Variable wg : wgraph.
Variable total : nat.

Notation new_line := (new_line gr pen preceding).

Definition okb (q : nat) (l : line) : Prop := wchain wg total 0 q (sentence_of l).
Definition ok_bstate (q : nat) (st : bstate) : Prop := forall k l, In (k, l) st -> okb q l.
Definition ok_bstates (sts : beam_states) : Prop := forall q st, assoc_nat q sts = Some st -> ok_bstate q st.

Lemma bs_put_in k v st k' l : In (k', l) (bs_put k v st) -> (k', l) = (k, v) \/ In (k', l) st.
Proof.
  induction st as [|[k0 l0] st IH]; cbn [bs_put]; [intros [H|[]]; left; now symmetry|].
  destruct (text_eqb k k0).
  - intros [H|H]; [left; now symmetry|right; now right].
  - intros [H|H]; [right; now left|]. destruct (IH H) as [H'|H']; [now left|right; now right].
Qed.

Lemma bs_find_in k st l : bs_find k st = Some l -> exists k', In (k', l) st.
Proof.
  induction st as [|[k0 l0] st IH]; cbn [bs_find]; [discriminate|].
  destruct (text_eqb k k0); [intros H; injection H as <-; exists k0; now left|].
  intros H. destruct (IH H) as [k' Hin]. exists k'. now right.
Qed.

Lemma top_insert_in top c x : In x (top_insert cmp top c) -> In x top \/ x = c.
Proof.
  unfold top_insert. set (pos := upper_bound _ _ _ _ _).
  destruct (k_max_line_candidates <=? pos); [now left|].
  assert (G : In x (firstn pos top ++ c :: skipn pos top) -> In x top \/ x = c).
  { intros H. apply in_app_or in H. rewrite <- (firstn_skipn pos top) at 1.
    destruct H as [H|[H|H]]; [left; apply in_or_app; now left|now right|left; apply in_or_app; now right]. }
  destruct (k_max_line_candidates <? length (firstn pos top ++ c :: skipn pos top)); [|exact G].
  rewrite removelast_firstn_len. intros H. apply G. exact (in_firstn _ _ _ H).
Qed.

Lemma find_top_in st x : In x (find_top cmp st) -> exists k, In (k, x) st.
Proof.
  unfold find_top. intros H.
  assert (G : forall y, In y (fold_left (top_insert cmp) (map snd st) []) -> In y (map snd st)).
  { apply fold_left_inv; [intros ? []|]. intros top c Hc IH y Hy.
    destruct (top_insert_in top c y Hy) as [Hy'| ->]; [now apply IH|exact Hc]. }
  apply G, in_map_iff in H. destruct H as [[k l] [<- H]]. now exists k.
Qed.

Lemma beam_entry_ok s e d cand st :
  wedge wg s e d -> ~ (s = 0 /\ e = total) -> okb s cand ->
  ok_bstate e st -> ok_bstate e (beam_entry gr pen cmp preceding cand e (e =? total) st d).
Proof.
  intros W N Hc Hs k l Hin. unfold beam_entry in Hin. apply bs_put_in in Hin. destruct Hin as [Hin|Hin]; [|now apply (Hs k)].
  injection Hin as _ ->. set (nl := new_line cand e (e =? total) d).
  assert (Hn : okb e nl) by now apply (new_line_chain _ _ _ _ _ _ s).
  destruct (bs_find (d_text d) st) as [b|] eqn:F; [|exact Hn].
  destruct (better_pick cmp b nl) as [-> | ->]; [|exact Hn]. destruct (bs_find_in _ _ _ F) as [k' Hin]. now apply (Hs k').
Qed.

Lemma beam_edge_ok s ends cand sts ev :
  In (s, ends) wg -> In ev ends -> okb s cand -> ok_bstates sts ->
  ok_bstates (beam_edge gr pen cmp preceding s total cand sts ev).
Proof.
  intros H1 H2 Hc Hs. destruct ev as [e ents]. unfold beam_edge. cbn [fst snd].
  destruct (single_edgeP s e total) as [_|N]; [exact Hs|].
  intros q st. rewrite assoc_put. destruct (q =? e) eqn:E; [|apply Hs].
  apply Nat.eqb_eq in E. subst q. intros H. injection H as <-. apply fold_left_inv.
  - destruct (assoc_nat e sts) as [st0|] eqn:A; [now apply Hs|intros k l []].
  - intros st d Hd. apply (beam_entry_ok s); [exists ends, ents; auto|exact N|exact Hc].
Qed.

Lemma beam_step_ok sts sv : In sv wg -> ok_bstates sts -> ok_bstates (beam_step gr pen cmp preceding total sts sv).
Proof.
  intros H Hs. destruct sv as [s ends]. unfold beam_step. cbn [fst snd].
  destruct (assoc_nat s sts) as [src|] eqn:A; [|exact Hs].
  apply fold_left_inv; [exact Hs|]. intros sts1 c Hc Hs1. apply fold_left_inv; [exact Hs1|].
  intros sts2 ev Hev. apply (beam_edge_ok s ends); [exact H|exact Hev|].
  destruct (find_top_in _ _ Hc) as [k Hk]. exact (Hs s src A k c Hk).
Qed.

Lemma beam_run_ok : ok_bstates (beam_run gr pen cmp preceding wg total).
Proof.
  unfold beam_run. apply fold_left_inv; [|intros sts sv; apply beam_step_ok].
  intros q st A. apply assoc_nat_single in A as [-> ->]. intros k l [[= _ <-]|[]]. reflexivity.
Qed.

Lemma best_in_state_in st : st <> [] -> exists k, In (k, best_in_state cmp st) st.
Proof.
  unfold best_in_state. destruct st as [|[k0 l0] st]; [congruence|]. intros _. cbn [fold_left snd].
  set (f := fun (best : option line) (kl : text * line) =>
              match best with None => Some (snd kl) | Some b => if cmp b (snd kl) then Some (snd kl) else best end).
  destruct (fold_left_pick f (fun kl => Some (snd kl)) st (Some l0)) as [->|[[k l] [Hin ->]]].
  - intros [b|] kl; cbn; [destruct (cmp b (snd kl))|]; auto.
  - exists k0. now left.
  - exists k. now right.
Qed.

Theorem beam_sentence_chain s :
  beam_sentence gr pen cmp preceding wg total = Some s -> wchain wg total 0 total s.
Proof.
  unfold beam_sentence. destruct (assoc_nat total (beam_run gr pen cmp preceding wg total)) as [st|] eqn:A; [|discriminate].
  pose proof (beam_run_ok total st A) as H. destruct st as [|x st]; [discriminate|].
  intros E. injection E as <-. destruct (best_in_state_in (x :: st) ltac:(discriminate)) as [k Hin]. exact (H k _ Hin).
Qed.

End BeamSound.

(** * from chains to the check [wg_path_ok] the C07 theorems assume of the sentence maker *)
(** the graph is a map of maps (std::map): looking an edge up finds the list it was found in *)
Definition wg_det (wg : wgraph) : Prop :=
  forall s ends e ents, In (s, ends) wg -> In (e, ents) ends -> assoc_list e (assoc_list s wg) = ents.

Definition wg_map (wg : wgraph) : Prop :=
  NoDup (map fst wg) /\ forall s ends, In (s, ends) wg -> NoDup (map fst ends).

Lemma wg_map_det wg : wg_map wg -> wg_det wg.
Proof.
  intros [H1 H2] s ends e ents Hs He. unfold assoc_list.
  rewrite (in_assoc_nat_nodup s ends wg H1 Hs). now rewrite (in_assoc_nat_nodup e ents ends (H2 s ends Hs) He).
Qed.

Definition wg_no_empty (wg : wgraph) : Prop := forall s ends e ents, In (s, ends) wg -> In (e, ents) ends -> ents <> [].

Lemma wchain_path_ok wg total : wg_det wg -> forall p pos fin, wchain wg total pos fin p -> wg_path_ok wg pos fin p = true.
Proof.
  intros Hd. induction p as [|[d e] p IH]; intros pos fin H; cbn [wchain wg_path_ok] in *.
  - now apply Nat.eqb_eq.
  - destruct H as [[ends [ents [H1 [H2 H3]]]] [_ H4]]. apply andb_true_iff. split; [|now apply IH].
    rewrite (Hd pos ends e ents H1 H2). apply dentry_in_spec. exists d. auto.
Qed.

Lemma wchain_two wg total p : p <> [] -> wchain wg total 0 total p -> 2 <= length p.
Proof.
  destruct p as [|[d e] [|x p]]; [congruence| |cbn; lia]. intros _ [_ [N E]]. cbn in E. subst. tauto.
Qed.

Section MakeSentence.
Variable gr : option (text -> text -> bool -> Z).
Variable pen : Z.
Variable cmp : line -> line -> bool.
Variable preceding : text.

Theorem make_sentence_chain wg total s :
  make_sentence gr pen cmp preceding wg total = Some s ->
  exists o, wchain wg total o total s /\ (o = 0 \/ (gr = None /\ eend wg o)).
Proof.
  unfold make_sentence. destruct gr as [q|] eqn:G.
  - intros H. exists 0. split; [now apply (beam_sentence_chain (Some q) pen cmp preceding)|now left].
  - intros H. destruct (dp_sentence_chain None pen cmp preceding wg total s H) as [_ [o [H1 [H2|H2]]]]; exists o; auto.
Qed.

Theorem make_sentence_path_ok_no_empty wg total s :
  wg_det wg -> wg_no_empty wg ->
  make_sentence gr pen cmp preceding wg total = Some s -> wg_path_ok wg 0 total s = true.
Proof.
  intros Hd Hn H. destruct (make_sentence_chain wg total s H) as [o [W [->|[_ [s0 [ends [H1 H2]]]]]]].
  - now apply (wchain_path_ok wg total Hd).
  - exfalso. now apply (Hn s0 ends o [] H1 H2).
Qed.

Theorem make_sentence_chain_grounded wg total s :
  grounded wg total -> make_sentence gr pen cmp preceding wg total = Some s -> wchain wg total 0 total s.
Proof.
  intros Hg. unfold make_sentence. destruct gr as [q|];
    [apply beam_sentence_chain|now apply dp_sentence_chain_grounded].
Qed.

Theorem make_sentence_path_ok_grounded wg total s :
  wg_det wg -> grounded wg total ->
  make_sentence gr pen cmp preceding wg total = Some s -> wg_path_ok wg 0 total s = true.
Proof. intros Hd Hg H. apply (wchain_path_ok wg total Hd). now apply make_sentence_chain_grounded. Qed.

End MakeSentence.

(** ** (b) as an equivalence, and what happens for an unreachable end: [states.find(total_length)] fails or finds an
    empty line, MakeSentence returns a null pointer, the translator shows no sentence *)
Theorem dp_sentence_iff pen cmp preceding wg total :
  wg_sorted wg -> wg_forward wg -> wg_no_empty wg ->
  ((exists s, dp_sentence None pen cmp preceding wg total = Some s) <->
   (exists p, 2 <= length p /\ wchain wg total 0 total p)).
Proof.
  intros Hs Hf Hn. split.
  - intros [s H]. destruct (dp_sentence_chain None pen cmp preceding wg total s H) as [N [o [W [->|[s0 [ends [H1 H2]]]]]]].
    + exists s. split; [now apply (wchain_two wg total)|exact W].
    + exfalso. now apply (Hn s0 ends o [] H1 H2).
  - intros [p [L W]]. apply (dp_sentence_complete pen cmp preceding wg total p Hs Hf); [|exact W]. destruct p; [cbn in L; lia|discriminate].
Qed.

Corollary dp_sentence_none_iff_unreachable pen cmp preceding wg total :
  wg_sorted wg -> wg_forward wg -> wg_no_empty wg ->
  (dp_sentence None pen cmp preceding wg total = None <-> ~ exists p, 2 <= length p /\ wchain wg total 0 total p).
Proof.
  intros Hs Hf Hn. rewrite <- (dp_sentence_iff pen cmp preceding wg total Hs Hf Hn).
  destruct (dp_sentence None pen cmp preceding wg total) as [s|]; split; try discriminate; try reflexivity.
  - intros H. exfalso. apply H. now exists s.
  - intros _ [s' H]. discriminate.
Qed.

(** ** the unrestricted statement "the sentence starts at 0" is FALSE of the faithful model: an edge without entries
    creates the state of its end position, and the dynamic programme then starts a line there.
    0 -[no entry]-> 1 -[X]-> 2: the sentence is "X", reported as covering [0, 2).  Replayed on rime::Poet by the
    direct stream of the check; no translator builds such a graph (theorems [script_wgraph_*], [table_wgraph_*]). *)
Definition qx : dentry := mkDE [88%N] [7] 0%Z 0 0.
Definition quirk_wg : wgraph := [(0, [(1, [])]); (1, [(2, [qx])])].

Theorem dp_sentence_from_zero_refuted :
  wg_map quirk_wg /\ wg_sorted quirk_wg /\ wg_forward quirk_wg /\
  dp_sentence None 0%Z compare_weight [] quirk_wg 2 = Some [(qx, 2)] /\
  wg_path_ok quirk_wg 0 2 [(qx, 2)] = false /\ wg_path_ok quirk_wg 1 2 [(qx, 2)] = true.
Proof.
  split; [split; [repeat constructor; cbn; intuition discriminate|]|].
  { intros s ends [H|[H|[]]]; injection H as <- <-; repeat constructor; cbn; tauto. }
  split; [repeat constructor|]. split; [|now vm_compute].
  intros s ends e ents [H|[H|[]]]; injection H as <- <-; intros [H|[]]; injection H as <- <-; lia.
Qed.

(** ** non-vacuity: two competing segmentations of [0, 3) and the excluded single word *)
Definition eA : dentry := mkDE [65%N] [1] 5%Z 0 0.
Definition eB : dentry := mkDE [66%N] [2] 1%Z 0 0.
Definition eC : dentry := mkDE [67%N] [3] 2%Z 0 0.
Definition eD : dentry := mkDE [68%N] [4] 7%Z 0 0.
Definition eE : dentry := mkDE [69%N] [5] 100%Z 0 0.
Definition ex_wg : wgraph := [(0, [(1, [eA]); (2, [eC]); (3, [eE])]); (1, [(3, [eB])]); (2, [(3, [eD])])].
(* the same with C D as heavy as A B *)
Definition eD' : dentry := mkDE [68%N] [4] 4%Z 0 0.
Definition ex_wg_tie : wgraph := [(0, [(1, [eA]); (2, [eC]); (3, [eE])]); (1, [(3, [eB])]); (2, [(3, [eD'])])].

Lemma ex_wg_hyps : wg_map ex_wg /\ wg_sorted ex_wg /\ wg_forward ex_wg /\ wg_no_empty ex_wg /\
  wchain ex_wg 3 0 3 [(eA, 1); (eB, 3)] /\ wchain ex_wg 3 0 3 [(eC, 2); (eD, 3)].
Proof.
  split; [split; [repeat constructor; cbn; intuition discriminate|]|].
  { intros s ends [H|[H|[H|[]]]]; injection H as <- <-; repeat constructor; cbn; intuition discriminate. }
  split; [repeat constructor|].
  split.
  { intros s ends e ents [H|[H|[H|[]]]]; injection H as <- <-; cbn; intros H; repeat (destruct H as [H|H]; [injection H as <- <-; lia|]);
      destruct H. }
  split.
  { intros s ends e ents [H|[H|[H|[]]]]; injection H as <- <-; cbn; intros H; repeat (destruct H as [H|H]; [injection H as <- <-; discriminate|]);
      destruct H. }
  split; cbn [wchain]; repeat split; try lia; unfold wedge, ex_wg.
  - exists [(1, [eA]); (2, [eC]); (3, [eE])], [eA]. cbn. auto.
  - exists [(3, [eB])], [eB]. cbn. auto.
  - exists [(1, [eA]); (2, [eC]); (3, [eE])], [eC]. cbn. auto.
  - exists [(3, [eD])], [eD]. cbn. auto.
Qed.

(* the heavier segmentation wins although the single word E is far heavier; the penalty is paid per word *)
Example ex_dp_best : dp_sentence None (-10)%Z compare_weight [] ex_wg 3 = Some [(eC, 2); (eD, 3)] /\
                     path_weight (-10)%Z [(eC, 2); (eD, 3)] = (-11)%Z /\ path_weight (-10)%Z [(eA, 1); (eB, 3)] = (-14)%Z.
Proof. now vm_compute. Qed.

(* a tie: CompareWeight keeps the line that was stored first (start positions ascending: A B over start 1 comes
   before C D over start 2); LeftAssociateCompare prefers the longer first word (word lengths [2;1] over [1;2]) *)
Example ex_dp_tie : dp_sentence None (-10)%Z compare_weight [] ex_wg_tie 3 = Some [(eA, 1); (eB, 3)] /\
                    dp_sentence None (-10)%Z left_associate_compare [] ex_wg_tie 3 = Some [(eC, 2); (eD', 3)].
Proof. now vm_compute. Qed.

(* an end that only the single word reaches, and an unreachable end: no sentence *)
Example ex_dp_none : dp_sentence None (-10)%Z compare_weight [] [(0, [(3, [eE])])] 3 = None /\
                     dp_sentence None (-10)%Z compare_weight [] ex_wg 4 = None.
Proof. now vm_compute. Qed.

(* BeamSearch with a grammar that likes "C" after nothing and dislikes everything else *)
Example ex_beam : make_sentence (Some (fun ctx w _ => match ctx, w with [], [67%N] => 0%Z | _, _ => (-10)%Z end)) 0%Z
                                compare_weight [] ex_wg_tie 3 = Some [(eC, 2); (eD', 3)].
Proof. now vm_compute. Qed.
