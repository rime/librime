(** C07 - composition with C06 (Dict/Vocab.v, Dict/TableIx.v): a conversion from the four-level index
    Table::Build produces to the abstract table of the lookup model, and the proof that the index built from any
    well-formed vocabulary - in particular from any source, C06's [compile_vocab] - satisfies [wf_table], and
    [table_sorted] unless the source asks for the original order. *)
From Coq Require Import List Arith ZArith NArith Bool Lia Sorted Permutation.
From Coq.Strings Require Import Byte.
From RimeV Require Base.Bytes Dict.TableLists Dict.Vocab Dict.TableIx Dict.TableProofs.
From RimeV Require Import Lookup.Defs Lookup.Spec Lookup.ScriptProofs.
Import ListNotations.

Module Vo := RimeV.Dict.Vocab.
Module Ix := RimeV.Dict.TableIx.
Module TP := RimeV.Dict.TableProofs.

Section TableSide.
Variable F : Type.                 (* table::Weight *)
Variable cast : Vo.dec -> F.       (* the double -> float cast of the log weight *)
Variable wz : F -> Z.              (* its exact value, scaled *)

Definition conv_text (b : Base.Bytes.bytes) : text := map Byte.to_N b.
Definition conv_entry (e : Ix.ientry F) : tentry := mkTE (conv_text (Ix.ie_text e)) (wz (Ix.ie_w e)).
Definition conv_tail (tl : Ix.tail F) : list lentry :=
  map (fun le => mkLE (Ix.le_extra le) (conv_entry (Ix.le_entry le))) tl.
Definition is_some {A} (o : option A) : bool := match o with Some _ => true | None => false end.

Definition node3 (pre : code) (n : Ix.inode F (Ix.tail F)) : node :=
  mkNode (pre ++ [Ix.n_key n]) (map conv_entry (Ix.n_entries n)) (is_some (Ix.n_next n))
         (match Ix.n_next n with Some tl => conv_tail tl | None => [] end).
Definition node2 (pre : code) (n : Ix.inode F (Ix.trunk3 F)) : node :=
  mkNode (pre ++ [Ix.n_key n]) (map conv_entry (Ix.n_entries n)) (is_some (Ix.n_next n)) [].
Definition node1 (i : nat) (hn : Ix.hnode F) : node :=
  mkNode [i] (map conv_entry (Ix.h_entries hn)) (is_some (Ix.h_next hn)) [].

Definition nodes2 (pre : code) (t2 : Ix.trunk2 F) : list node :=
  flat_map (fun n => node2 pre n ::
                     match Ix.n_next n with Some t3 => map (node3 (pre ++ [Ix.n_key n])) t3 | None => [] end) t2.

Definition conv_head (h : Ix.head F) : table :=
  flat_map (fun ih : nat * Ix.hnode F =>
              node1 (fst ih) (snd ih) ::
              match Ix.h_next (snd ih) with Some t2 => nodes2 [fst ih] t2 | None => [] end)
           (combine (seq 0 (length h)) h).

Record rnode := mkR { r_code : code; r_ents : list (Ix.ientry F); r_next : bool; r_tail : Ix.tail F }.

Definition conv_node (r : rnode) : node :=
  mkNode (r_code r) (map conv_entry (r_ents r)) (r_next r) (conv_tail (r_tail r)).

Definition tail_of (o : option (Ix.tail F)) : Ix.tail F := match o with Some tl => tl | None => [] end.

Inductive ix_node (h : Ix.head F) : rnode -> Prop :=
| ixn1 : forall i hn, nth_error h i = Some hn ->
                      ix_node h (mkR [i] (Ix.h_entries hn) (is_some (Ix.h_next hn)) [])
| ixn2 : forall i hn t2 n2, nth_error h i = Some hn -> Ix.h_next hn = Some t2 -> In n2 t2 ->
                            ix_node h (mkR [i; Ix.n_key n2] (Ix.n_entries n2) (is_some (Ix.n_next n2)) [])
| ixn3 : forall i hn t2 n2 t3 n3, nth_error h i = Some hn -> Ix.h_next hn = Some t2 -> In n2 t2 ->
                                  Ix.n_next n2 = Some t3 -> In n3 t3 ->
                                  ix_node h (mkR [i; Ix.n_key n2; Ix.n_key n3] (Ix.n_entries n3)
                                                 (is_some (Ix.n_next n3)) (tail_of (Ix.n_next n3))).

Lemma node3_conv pre n :
  node3 pre n = conv_node (mkR (pre ++ [Ix.n_key n]) (Ix.n_entries n) (is_some (Ix.n_next n)) (tail_of (Ix.n_next n))).
Proof. unfold node3, conv_node. now destruct (Ix.n_next n). Qed.

Lemma conv_head_in h n : In n (conv_head h) <-> exists r, ix_node h r /\ n = conv_node r.
Proof.
  unfold conv_head. rewrite in_flat_map. split.
  - intros [[i hn] [Hi Hn]]. apply TableLists.in_combine_seq in Hi as [_ Hi]. rewrite Nat.sub_0_r in Hi. cbn [fst snd] in Hn.
    destruct Hn as [<-|Hn]; [eexists; split; [exact (ixn1 h i hn Hi)|reflexivity]|].
    destruct (Ix.h_next hn) as [t2|] eqn:E2; [|destruct Hn]. unfold nodes2 in Hn. apply in_flat_map in Hn.
    destruct Hn as [n2 [H2 Hn]]. destruct Hn as [<-|Hn]; [eexists; split; [exact (ixn2 h i hn t2 n2 Hi E2 H2)|reflexivity]|].
    destruct (Ix.n_next n2) as [t3|] eqn:E3; [|destruct Hn]. apply in_map_iff in Hn. destruct Hn as [n3 [<- H3]].
    rewrite node3_conv. eexists. split; [exact (ixn3 h i hn t2 n2 t3 n3 Hi E2 H2 E3 H3)|reflexivity].
  - intros [r [S ->]]. destruct S as [i hn Hi|i hn t2 n2 Hi E2 H2|i hn t2 n2 t3 n3 Hi E2 H2 E3 H3];
      exists (i, hn); (split; [apply TableLists.in_combine_seq; rewrite Nat.sub_0_r; split; [lia|exact Hi]|]); cbn [fst snd].
    + now left.
    + right. rewrite E2. unfold nodes2. apply in_flat_map. exists n2. split; [exact H2|now left].
    + right. rewrite E2. unfold nodes2. apply in_flat_map. exists n2. split; [exact H2|]. right. rewrite E3.
      apply in_map_iff. exists n3. split; [apply node3_conv|exact H3].
Qed.

(** * with key-sorted trunks (C06_index_keys_sorted) a code determines its node *)
Lemma keys_unique {A} (l : list (Ix.inode F A)) a b :
  TP.keys_sorted F l -> In a l -> In b l -> Ix.n_key a = Ix.n_key b -> a = b.
Proof.
  unfold TP.keys_sorted. induction l as [|x l IH]; intros S Ha Hb E; [destruct Ha|].
  cbn in S. inversion S as [|? ? S' Fa]; subst. rewrite Forall_forall in Fa.
  destruct Ha as [<-|Ha], Hb as [<-|Hb]; try reflexivity.
  - specialize (Fa _ (in_map (@Ix.n_key F A) _ _ Hb)). lia.
  - specialize (Fa _ (in_map (@Ix.n_key F A) _ _ Ha)). lia.
  - now apply IH.
Qed.

Lemma sorted2_of h i hn t2 : TP.ix_sorted_head F h -> nth_error h i = Some hn -> Ix.h_next hn = Some t2 -> TP.ix_sorted2 F t2.
Proof.
  intros S Hi E. unfold TP.ix_sorted_head in S. rewrite Forall_forall in S.
  specialize (S hn (nth_error_In _ _ Hi)). now rewrite E in S.
Qed.

Lemma sorted3_of t2 n2 t3 : TP.ix_sorted2 F t2 -> In n2 t2 -> Ix.n_next n2 = Some t3 -> TP.ix_sorted3 F t3.
Proof.
  intros [_ S] H2 E. rewrite Forall_forall in S. specialize (S n2 H2). now rewrite E in S.
Qed.

Lemma ix_node_unique h r1 r2 :
  TP.ix_sorted_head F h -> ix_node h r1 -> ix_node h r2 -> r_code r1 = r_code r2 -> r1 = r2.
Proof.
  intros S S1 S2 E.
  destruct S1 as [i hn Hi|i hn t2 a2 Hi E2 H2|i hn t2 a2 t3 a3 Hi E2 H2 E3 H3];
  destruct S2 as [j hm Hj|j hm u2 b2 Hj F2 G2|j hm u2 b2 u3 b3 Hj F2 G2 F3 G3]; cbn in E; try discriminate.
  - injection E as ->. congruence.
  - injection E as -> Ek. assert (hm = hn) by congruence. subst hm. assert (u2 = t2) by congruence. subst u2.
    now rewrite (keys_unique t2 a2 b2 (proj1 (sorted2_of h j hn t2 S Hi E2)) H2 G2 Ek).
  - injection E as -> Ek2 Ek3. assert (hm = hn) by congruence. subst hm. assert (u2 = t2) by congruence. subst u2.
    pose proof (sorted2_of h j hn t2 S Hi E2) as S2.
    assert (b2 = a2) by (eapply keys_unique; [apply S2|exact G2|exact H2|now symmetry]). subst b2.
    assert (u3 = t3) by congruence. subst u3.
    now rewrite (keys_unique t3 a3 b3 (sorted3_of t2 a2 t3 S2 H2 E3) H3 G3 Ek3).
Qed.

Lemma find_node_conv h c n : find_node (conv_head h) c = Some n -> exists r, ix_node h r /\ n = conv_node r /\ r_code r = c.
Proof.
  intros E. destruct (find_node_spec _ _ _ E) as [Hin Hc]. apply conv_head_in in Hin as [r [Hr ->]]. eauto.
Qed.

Lemma node_at h r :
  TP.ix_sorted_head F h -> ix_node h r -> find_node (conv_head h) (r_code r) = Some (conv_node r).
Proof.
  intros S Hr. destruct (find_node_exists (conv_head h) (conv_node r)) as [n' E]; [apply conv_head_in; eauto|].
  cbn [conv_node n_code] in E. rewrite E. destruct (find_node_conv _ _ _ E) as (r' & Hr' & -> & Hc).
  now rewrite (ix_node_unique h r' r S Hr' Hr Hc).
Qed.

Lemma ix_node_prefix h r c' :
  ix_node h r -> proper_prefix_of c' (r_code r) -> c' <> [] -> exists r', ix_node h r' /\ r_code r' = c' /\ r_next r' = true.
Proof.
  intros Hr [x [Nx E]] Nc. destruct Hr as [i hn Hi|i hn t2 n2 Hi E2 H2|i hn t2 n2 t3 n3 Hi E2 H2 E3 H3]; cbn [r_code] in E.
  - destruct c' as [|a c']; [congruence|]. destruct c'; destruct x; try congruence; discriminate.
  - destruct c' as [|a [|b c']]; [congruence| |destruct c'; destruct x; try congruence; discriminate].
    injection E as <- _. eexists. split; [exact (ixn1 h i hn Hi)|]. cbn. now rewrite E2.
  - destruct c' as [|a [|b [|c0 c']]]; [congruence| | |destruct c'; destruct x; try congruence; discriminate].
    + injection E as <- _. eexists. split; [exact (ixn1 h i hn Hi)|]. cbn. now rewrite E2.
    + injection E as <- <- _. eexists. split; [exact (ixn2 h i hn t2 n2 Hi E2 H2)|]. cbn. now rewrite E3.
Qed.

(** * the index-level facts the lookup relies on, as predicates over all nodes: their keys, entry lists and tails *)
Section IxAll.
Variables (K : nat -> Prop) (Pe : list (Ix.ientry F) -> Prop) (Pt : Ix.tail F -> Prop).

Definition ix_node_ok {A} (Pn : A -> Prop) (n : Ix.inode F A) : Prop :=
  K (Ix.n_key n) /\ Pe (Ix.n_entries n) /\ match Ix.n_next n with Some x => Pn x | None => True end.
Definition ix_all3 (t3 : Ix.trunk3 F) : Prop := Forall (ix_node_ok Pt) t3.
Definition ix_all2 (t2 : Ix.trunk2 F) : Prop := Forall (ix_node_ok ix_all3) t2.
Definition ix_all (h : Ix.head F) : Prop :=
  Forall (fun hn => Pe (Ix.h_entries hn) /\ match Ix.h_next hn with Some t2 => ix_all2 t2 | None => True end) h.

Lemma ix_all_at2 h i hn t2 n2 :
  ix_all h -> nth_error h i = Some hn -> Ix.h_next hn = Some t2 -> In n2 t2 -> ix_node_ok ix_all3 n2.
Proof.
  intros A Hi E2 H2. unfold ix_all in A. rewrite Forall_forall in A. destruct (A hn (nth_error_In _ _ Hi)) as [_ Q].
  rewrite E2 in Q. unfold ix_all2 in Q. rewrite Forall_forall in Q. now apply Q.
Qed.

Lemma ix_all_at3 h i hn t2 n2 t3 n3 :
  ix_all h -> nth_error h i = Some hn -> Ix.h_next hn = Some t2 -> In n2 t2 -> Ix.n_next n2 = Some t3 -> In n3 t3 ->
  ix_node_ok Pt n3.
Proof.
  intros A Hi E2 H2 E3 H3. destruct (ix_all_at2 h i hn t2 n2 A Hi E2 H2) as (_ & _ & Q).
  rewrite E3 in Q. unfold ix_all3 in Q. rewrite Forall_forall in Q. now apply Q.
Qed.

Lemma ix_all_node h r :
  ix_all h -> ix_node h r ->
  Pe (r_ents r) /\ (r_tail r = [] \/ Pt (r_tail r) /\ r_next r = true /\ length (r_code r) = 3).
Proof.
  intros A S. destruct S as [i hn Hi|i hn t2 n2 Hi E2 H2|i hn t2 n2 t3 n3 Hi E2 H2 E3 H3]; cbn [r_ents r_tail r_next r_code].
  - unfold ix_all in A. rewrite Forall_forall in A. destruct (A hn (nth_error_In _ _ Hi)) as [P1 _]. auto.
  - destruct (ix_all_at2 h i hn t2 n2 A Hi E2 H2) as (_ & P2 & _). auto.
  - destruct (ix_all_at3 h i hn t2 n2 t3 n3 A Hi E2 H2 E3 H3) as (_ & P3 & Q3). split; [exact P3|].
    destruct (Ix.n_next n3) as [tl|]; cbn; auto.
Qed.

End IxAll.

(** * wf_table and table_sorted for the converted index *)
Definition tail_ok (tl : Ix.tail F) : Prop := Forall (fun le => Ix.le_extra le <> []) tl.

Lemma conv_head_tail K h c :
  ix_all K (fun _ => True) tail_ok h -> node_tail (conv_head h) c <> [] ->
  node_next (conv_head h) c = true /\ length c = 3 /\ forall le, In le (node_tail (conv_head h) c) -> le_extra le <> [].
Proof.
  intros A. unfold node_tail, node_next. destruct (find_node (conv_head h) c) as [n|] eqn:E; [|congruence].
  destruct (find_node_conv _ _ _ E) as (r & Hr & -> & <-). cbn [conv_node n_tail n_next].
  destruct (ix_all_node _ _ _ h r A Hr) as (_ & [->|(Ht & Hn & L)]); [now intros []|].
  intros _. split; [exact Hn|]. split; [exact L|]. intros le H.
  unfold conv_tail in H. apply in_map_iff in H. destruct H as [le0 [<- Hle]]. cbn.
  unfold tail_ok in Ht. rewrite Forall_forall in Ht. now apply Ht.
Qed.

Theorem conv_head_wf K h :
  TP.ix_sorted_head F h -> ix_all K (fun _ => True) tail_ok h -> wf_table (conv_head h).
Proof.
  intros S A. constructor.
  - intros c c' H P Nc.
    assert (Hr : exists r, ix_node h r /\ r_code r = c).
    { unfold node_ents, node_tail in H. destruct (find_node (conv_head h) c) as [n|] eqn:Ef; [|destruct H; congruence].
      destruct (find_node_conv _ _ _ Ef) as (r & Hr & _ & Hc). eauto. }
    destruct Hr as (r & Hr & <-). destruct (ix_node_prefix h r c' Hr P Nc) as (r' & Hr' & <- & Hn).
    unfold node_next. now rewrite (node_at h r' S Hr').
  - intros c H. now apply (conv_head_tail K h c A).
  - intros c H. now apply (conv_head_tail K h c A).
  - intros c le H. apply (conv_head_tail K h c A); [|exact H]. intros E. rewrite E in H. destruct H.
Qed.

Definition entries_desc (es : list (Ix.ientry F)) : Prop :=
  StronglySorted (fun a b => (wz (Ix.ie_w b) <= wz (Ix.ie_w a))%Z) es.

Theorem conv_head_sorted K h : ix_all K entries_desc (fun _ => True) h -> table_sorted (conv_head h).
Proof.
  intros A c. unfold node_ents, weights_sorted. destruct (find_node (conv_head h) c) as [n|] eqn:E; [|constructor].
  destruct (find_node_conv _ _ _ E) as (r & Hr & -> & _). destruct (ix_all_node _ _ _ h r A Hr) as [Hs _].
  cbn [conv_node n_ents]. unfold entries_desc in Hs. induction Hs as [|a l Hs IH Fa]; cbn; constructor; [exact IH|].
  rewrite Forall_forall in *. intros y Hy. apply in_map_iff in Hy. destruct Hy as [b [<- Hb]]. cbn. now apply Fa.
Qed.

(** * the index C06's builder produces from a well-formed vocabulary has these properties *)
Definition lvl_all {A} (K : nat -> Prop) (Qe : list Vo.entry -> Prop) (Qn : A -> Prop) (v : Vo.lvl A) : Prop :=
  Forall (fun kp => K (fst kp) /\ Qe (Vo.p_entries (snd kp)) /\
                    match Vo.p_next (snd kp) with Some n => Qn n | None => True end) v.

Section Build.
Variables (K : nat -> Prop) (Qe : list Vo.entry -> Prop) (Q4 : Vo.voc4 -> Prop).
Variables (Pe : list (Ix.ientry F) -> Prop) (Pt : Ix.tail F -> Prop).
Hypothesis He : forall es, Qe es -> Pe (map (Ix.build_entry cast) es).
Hypothesis Ht : forall v4, Q4 v4 -> Pt (Ix.build_tail cast v4).
Hypothesis Pe_nil : Pe [].

Lemma build_trunk_all {A B} (bn : A -> B) (Qn : A -> Prop) (Pn : B -> Prop) v :
  (forall x, Qn x -> Pn (bn x)) -> lvl_all K Qe Qn v -> Forall (ix_node_ok K Pe Pn) (Ix.build_trunk F cast bn v).
Proof.
  intros Hn H. unfold Ix.build_trunk. rewrite Forall_map. eapply Forall_impl; [|exact H].
  intros [k p] (H0 & H1 & H2). cbn in *. split; [exact H0|]. split; [now apply He|].
  destruct (Vo.p_next p); cbn; [now apply Hn|exact I].
Qed.

Lemma build_head_all S v :
  lvl_all (fun _ => True) Qe (lvl_all K Qe (lvl_all K Qe Q4)) v -> ix_all K Pe Pt (Ix.build_head cast S v).
Proof.
  unfold lvl_all at 1, ix_all. intros H. apply TP.build_head_Forall; [cbn; auto|].
  eapply Forall_impl; [|exact H]. intros [k p] (_ & H1 & H2). cbn in *. split; [now apply He|].
  unfold Vo.voc2, Vo.voc3 in *. destruct (Vo.p_next p); cbn; [|exact I].
  apply (build_trunk_all _ (lvl_all K Qe Q4)); [|exact H2]. intros v3. now apply build_trunk_all.
Qed.
End Build.

Lemma wf1_all S v : TP.wf1 S v ->
  lvl_all (fun _ => True) (fun _ => True)
          (lvl_all (fun k => k < S) (fun _ => True) (lvl_all (fun k => k < S) (fun _ => True) TP.wf4)) v.
Proof.
  assert (G : forall A (P : A -> Prop) (Q : A -> Prop) (K : nat -> Prop) (v : Vo.lvl A),
              (forall k, k < S -> K k) -> (forall n, P n -> Q n) -> TP.wf_lvl P S v -> lvl_all K (fun _ => True) Q v).
  { intros A P Q K v0 HK PQ [_ H]. unfold lvl_all. eapply Forall_impl; [|exact H]. intros [k p] [Hk Hp]. cbn in *.
    split; [now apply HK|]. split; [exact I|]. destruct (Vo.p_next p); auto. }
  apply G; [auto|]. intros v2. apply G; [auto|]. intros v3. apply G; auto.
Qed.

Lemma build_tail_ok v4 : TP.wf4 v4 -> tail_ok (Ix.build_tail cast v4).
Proof.
  unfold TP.wf4, tail_ok, Ix.build_tail. intros H. rewrite Forall_map. eapply Forall_impl; [|exact H].
  intros e L. cbn beta in L. cbn [Ix.le_extra]. intros E. apply (f_equal (@length _)) in E. rewrite skipn_length in E. cbn [length] in E. lia.
Qed.

Definition ix_wf (S : nat) : Ix.head F -> Prop := ix_all (fun k => k < S) (fun _ => True) tail_ok.

Lemma built_ix_wf S v : TP.wf1 S v -> ix_wf S (Ix.build_head cast S v).
Proof.
  intros W. apply (build_head_all _ (fun _ => True) TP.wf4); auto using build_tail_ok. now apply wf1_all.
Qed.

Theorem built_index_wf S v : TP.wf1 S v -> wf_table (conv_head (Ix.build_head cast S v)).
Proof. intros W. apply (conv_head_wf (fun k => k < S)); [now apply TP.build_head_sorted|now apply built_ix_wf]. Qed.

Hypothesis cast_mono : forall a b, Vo.dec_leb a b = true -> (wz (cast a) <= wz (cast b))%Z.

Lemma build_entries_desc es : StronglySorted TP.wdesc es -> entries_desc (map (Ix.build_entry cast) es).
Proof.
  unfold entries_desc. induction 1 as [|a l Hs IH Fa]; cbn; constructor; [exact IH|].
  rewrite Forall_forall in *. intros y Hy. apply in_map_iff in Hy. destruct Hy as [b [<- Hb]]. cbn.
  apply cast_mono. exact (Fa b Hb).
Qed.

Lemma sorted1_all v : TP.sorted1 v ->
  lvl_all (fun _ => True) (StronglySorted TP.wdesc)
          (lvl_all (fun _ => True) (StronglySorted TP.wdesc) (lvl_all (fun _ => True) (StronglySorted TP.wdesc) TP.sorted4)) v.
Proof.
  assert (G : forall A (P Q : A -> Prop) (v : Vo.lvl A),
              (forall n, P n -> Q n) -> TP.sorted_lvl P v -> lvl_all (fun _ => True) (StronglySorted TP.wdesc) Q v).
  { intros A P Q v0 PQ H. unfold lvl_all. eapply Forall_impl; [|exact H]. intros [k p] [He Hp]. cbn in *.
    split; [exact I|]. split; [exact He|]. destruct (Vo.p_next p); auto. }
  apply G. intros v2. apply G. intros v3. now apply G.
Qed.

Theorem built_index_sorted S v : TP.sorted1 v -> table_sorted (conv_head (Ix.build_head cast S v)).
Proof.
  intros H. apply (conv_head_sorted (fun _ => True)).
  apply (build_head_all _ (StronglySorted TP.wdesc) TP.sorted4); auto using build_entries_desc, sorted1_all. constructor.
Qed.

Lemma compiled_wf1 (sort_original : bool) (files : list (Vo.colspec * list Base.Bytes.bytes)) :
  let c := Vo.collect_files files in TP.wf1 (length (Vo.co_syll c)) (Vo.compile_vocab sort_original c).
Proof. intros c. apply TP.compiled_wf, TP.entries_of_ids, TP.collect_files_inv. Qed.

Theorem compiled_index_wf (sort_original : bool) (files : list (Vo.colspec * list Base.Bytes.bytes)) :
  let c := Vo.collect_files files in
  wf_table (conv_head (Ix.build_head cast (length (Vo.co_syll c)) (Vo.compile_vocab sort_original c))).
Proof. intros c. apply built_index_wf, compiled_wf1. Qed.

Theorem compiled_index_sorted (files : list (Vo.colspec * list Base.Bytes.bytes)) :
  let c := Vo.collect_files files in
  table_sorted (conv_head (Ix.build_head cast (length (Vo.co_syll c)) (Vo.compile_vocab false c))).
Proof. intros c. apply built_index_sorted. unfold Vo.compile_vocab. apply TP.sort1_sorted. Qed.

(** * [table_has] of the converted index = C06's [enumerate] = the collected source entries *)

Lemma build_head_length S (v : Vo.voc1) : length (Ix.build_head cast S v) = S.
Proof.
  unfold Ix.build_head. rewrite <- (repeat_length (Ix.hnode0 F) S) at 2. generalize (repeat (Ix.hnode0 F) S).
  induction v as [|kp v IH]; intros arr; cbn [fold_left]; [reflexivity|]. rewrite IH. apply TP.set_nth_length.
Qed.

(** the entries of an index, with their full codes: what the decompiler prints at a node - its entries, then those of
    its tail page *)
Definition node_out (r : rnode) : list (Ix.iout F) :=
  Ix.emit (r_code r) (r_ents r) ++ Ix.emit_tail (r_code r) (r_tail r).

Definition ix_entry (h : Ix.head F) (c : code) (ie : Ix.ientry F) : Prop := exists r, ix_node h r /\ In (c, ie) (node_out r).

Lemma find_node_ix {A} (l : list (Ix.inode F A)) k n :
  TP.keys_sorted F l -> (Ix.find_node k l = Some n <-> In n l /\ Ix.n_key n = k).
Proof.
  intros S. unfold Ix.find_node. split.
  - intros H. apply find_some in H. destruct H as [H1 H2]. apply Nat.eqb_eq in H2. auto.
  - intros [H1 H2]. destruct (find (fun n0 => Ix.n_key n0 =? k) l) as [n'|] eqn:E.
    + apply find_some in E. destruct E as [E1 E2]. apply Nat.eqb_eq in E2. f_equal.
      eapply keys_unique; eauto. congruence.
    + exfalso. pose proof (find_none _ _ E n H1) as X. cbn in X. rewrite H2, Nat.eqb_refl in X. discriminate.
Qed.

Lemma in_emit c code es (ie : Ix.ientry F) : In (c, ie) (Ix.emit code es) <-> c = code /\ In ie es.
Proof.
  unfold Ix.emit. rewrite in_map_iff. split; [intros [x [E H]]; injection E as <- <-; auto|intros [-> H]; eauto].
Qed.

(** what the decompiler's walk needs of a trunk: lower_bound finds a key, and every key is among the ids it tries *)
Definition trunk_ok {A} (S : nat) (t : list (Ix.inode F A)) : Prop :=
  TP.keys_sorted F t /\ Forall (fun n => Ix.n_key n < S) t.

Lemma in_enum_trunk {A} (enum_next : list nat -> A -> list (Ix.iout F)) S prefix (nodes : list (Ix.inode F A)) x :
  trunk_ok S nodes ->
  (In x (Ix.enum_trunk F enum_next S prefix nodes) <->
   exists n, In n nodes /\ (In x (Ix.emit (prefix ++ [Ix.n_key n]) (Ix.n_entries n)) \/
                            exists y, Ix.n_next n = Some y /\ In x (enum_next (prefix ++ [Ix.n_key n]) y))).
Proof.
  intros [Hs Hk]. unfold Ix.enum_trunk. rewrite in_flat_map. split.
  - intros [k [_ H]]. destruct (Ix.find_node k nodes) as [n|] eqn:E; [|destruct H].
    apply (find_node_ix nodes k n Hs) in E. destruct E as [Hn <-]. exists n. split; [exact Hn|].
    apply in_app_or in H. destruct H as [H|H]; [now left|right]. destruct (Ix.n_next n) as [y|]; [eauto|destruct H].
  - intros [n [Hn H]]. exists (Ix.n_key n). rewrite Forall_forall in Hk. split; [apply in_seq; specialize (Hk n Hn); lia|].
    rewrite (proj2 (find_node_ix nodes _ n Hs) (conj Hn eq_refl)). apply in_or_app.
    destruct H as [H|[y [E H]]]; [now left|right]. now rewrite E.
Qed.

Section Enumerate.
Variables (S : nat) (h : Ix.head F).
Hypotheses (HL : length h = S) (HS : TP.ix_sorted_head F h) (HA : ix_wf S h).

Lemma trunk2_ok i hn t2 : nth_error h i = Some hn -> Ix.h_next hn = Some t2 -> trunk_ok S t2.
Proof.
  intros E1 E2. split; [apply (sorted2_of h i hn t2 HS E1 E2)|].
  unfold ix_wf, ix_all in HA. rewrite Forall_forall in HA. destruct (HA hn (nth_error_In _ _ E1)) as [_ Q]. rewrite E2 in Q.
  eapply Forall_impl; [|exact Q]. now intros n [Hk _].
Qed.

Lemma trunk3_ok i hn t2 n2 t3 :
  nth_error h i = Some hn -> Ix.h_next hn = Some t2 -> In n2 t2 -> Ix.n_next n2 = Some t3 -> trunk_ok S t3.
Proof.
  intros E1 E2 H2 E3. split; [apply (sorted3_of t2 n2 t3 (sorted2_of h i hn t2 HS E1 E2) H2 E3)|].
  destruct (ix_all_at2 _ _ _ h i hn t2 n2 HA E1 E2 H2) as (_ & _ & Q). rewrite E3 in Q.
  eapply Forall_impl; [|exact Q]. now intros n [Hk _].
Qed.

Lemma in_enumerate x :
  In x (Ix.enumerate S h) <->
  exists i hn, nth_error h i = Some hn /\
               (In x (Ix.emit [i] (Ix.h_entries hn)) \/ exists t2, Ix.h_next hn = Some t2 /\ In x (Ix.enum_trunk2 S [i] t2)).
Proof.
  unfold Ix.enumerate. rewrite in_flat_map. split.
  - intros [i [_ H]]. destruct (nth_error h i) as [hn|] eqn:E1; [|destruct H]. exists i, hn. split; [exact E1|].
    apply in_app_or in H. destruct H as [H|H]; [now left|right]. destruct (Ix.h_next hn) as [t2|]; [eauto|destruct H].
  - intros (i & hn & E1 & H). exists i. split; [apply in_seq; rewrite <- HL; split; [lia|]; apply nth_error_Some; congruence|].
    rewrite E1. apply in_or_app. destruct H as [H|(t2 & E2 & H)]; [now left|right]. now rewrite E2.
Qed.

Lemma enumerate_nodes x : In x (Ix.enumerate S h) <-> exists r, ix_node h r /\ In x (node_out r).
Proof.
  unfold node_out. rewrite in_enumerate. split.
  - intros (i & hn & E1 & [H|(t2 & E2 & H)]);
      [eexists; split; [exact (ixn1 h i hn E1)|apply in_or_app; now left]|].
    apply (in_enum_trunk _ S [i] t2 _ (trunk2_ok i hn t2 E1 E2)) in H. destruct H as [n2 [H2 [H|[t3 [E3 H]]]]];
      [eexists; split; [exact (ixn2 h i hn t2 n2 E1 E2 H2)|apply in_or_app; now left]|].
    apply (in_enum_trunk _ S _ t3 _ (trunk3_ok i hn t2 n2 t3 E1 E2 H2 E3)) in H. destruct H as [n3 [H3 H]].
    eexists. split; [exact (ixn3 h i hn t2 n2 t3 n3 E1 E2 H2 E3 H3)|]. apply in_or_app.
    destruct H as [H|[tl [E4 H]]]; [now left|right]. cbn [r_tail]. now rewrite E4.
  - intros (r & Hr & H). apply in_app_or in H.
    destruct Hr as [i hn E1|i hn t2 n2 E1 E2 H2|i hn t2 n2 t3 n3 E1 E2 H2 E3 H3]; cbn [r_code r_ents r_tail] in H;
      exists i, hn; (split; [exact E1|]).
    + destruct H as [H|[]]. now left.
    + right. exists t2. split; [exact E2|]. apply (in_enum_trunk _ S [i] t2 _ (trunk2_ok i hn t2 E1 E2)).
      exists n2. split; [exact H2|]. destruct H as [H|[]]. now left.
    + right. exists t2. split; [exact E2|]. apply (in_enum_trunk _ S [i] t2 _ (trunk2_ok i hn t2 E1 E2)).
      exists n2. split; [exact H2|]. right. exists t3. split; [exact E3|].
      apply (in_enum_trunk _ S _ t3 _ (trunk3_ok i hn t2 n2 t3 E1 E2 H2 E3)). exists n3. split; [exact H3|].
      destruct H as [H|H]; [now left|right]. destruct (Ix.n_next n3) as [tl|]; [eauto|destruct H].
Qed.

Lemma enumerate_ix_entry c ie : In (c, ie) (Ix.enumerate S h) <-> ix_entry h c ie.
Proof. apply enumerate_nodes. Qed.

End Enumerate.

Lemma table_has_ix_entry S h c te :
  TP.ix_sorted_head F h -> ix_wf S h ->
  (table_has (conv_head h) c te <-> exists ie, ix_entry h c ie /\ te = conv_entry ie).
Proof.
  intros HS HA. unfold ix_entry, node_out. split.
  - intros [[L Hin]|[L Hin]].
    + unfold node_ents in Hin. destruct (find_node (conv_head h) c) as [n|] eqn:E; [|destruct Hin].
      destruct (find_node_conv _ _ _ E) as (r & Hr & -> & <-). cbn [conv_node n_ents] in Hin.
      apply in_map_iff in Hin. destruct Hin as [ie [<- Hie]]. exists ie. split; [|reflexivity].
      exists r. split; [exact Hr|]. apply in_or_app. left. now apply in_emit.
    + unfold node_tail in Hin. destruct (find_node (conv_head h) (firstn 3 c)) as [n|] eqn:E; [|destruct Hin].
      destruct (find_node_conv _ _ _ E) as (r & Hr & -> & Hc). cbn [conv_node n_tail] in Hin.
      unfold conv_tail in Hin. apply in_map_iff in Hin. destruct Hin as [le [Ele Hle]]. injection Ele as Ex Ee.
      exists (Ix.le_entry le). split; [|now rewrite Ee].
      exists r. split; [exact Hr|]. apply in_or_app. right. unfold Ix.emit_tail. apply in_map_iff. exists le. split; [|exact Hle].
      f_equal. rewrite <- (firstn_skipn 3 c). now f_equal.
  - intros (ie & (r & Hr & H) & ->). apply in_app_or in H. destruct H as [H|H].
    + apply in_emit in H as [-> Hie].
      left. split; [destruct Hr; cbn; lia|]. unfold node_ents. rewrite (node_at h r HS Hr). now apply in_map.
    + unfold Ix.emit_tail in H. apply in_map_iff in H. destruct H as [le [E Hle]]. injection E as <- <-.
      destruct (ix_all_node _ _ _ h r HA Hr) as (_ & [T|(Ht & _ & L)]); [rewrite T in Hle; destruct Hle|].
      unfold tail_ok in Ht. rewrite Forall_forall in Ht. pose proof (Ht le Hle) as NX.
      destruct (firstn_skipn_at (r_code r) (Ix.le_extra le) 3 L) as [E1 E2].
      right. unfold syll in *.   (* the index speaks of [list nat], the lookup of [list syll] *)
      split; [rewrite app_length, L; destruct (Ix.le_extra le); [congruence|cbn; lia]|].
      rewrite E1, E2. unfold node_tail. rewrite (node_at h r HS Hr). cbn [conv_node n_tail].
      unfold conv_tail. apply in_map_iff. exists le. auto.
Qed.

Theorem table_has_enumerate S v c te :
  TP.wf1 S v ->
  (table_has (conv_head (Ix.build_head cast S v)) c te <->
   exists ie, In (c, ie) (Ix.enumerate S (Ix.build_head cast S v)) /\ te = conv_entry ie).
Proof.
  intros W. pose proof (TP.build_head_sorted F cast S v W) as HS. pose proof (built_ix_wf S v W) as HA.
  rewrite (table_has_ix_entry S _ c te HS HA).
  split; intros [ie [H E]]; exists ie; (split; [|exact E]); now apply (enumerate_ix_entry S _ (build_head_length S v) HS HA).
Qed.

(** hence, for every source, the collected entries that carry a code (C06_enumerate_build) *)
Theorem table_has_source (sort_original : bool) (files : list (Vo.colspec * list Base.Bytes.bytes)) c te :
  let col := Vo.collect_files files in
  let t := conv_head (Ix.build_head cast (length (Vo.co_syll col)) (Vo.compile_vocab sort_original col)) in
  table_has t c te <->
  exists e, In e (Vo.entries_of col) /\ Vo.e_code e = c /\ c <> [] /\
            te = mkTE (conv_text (Vo.e_text e)) (wz (cast (Vo.e_w e))).
Proof.
  intros col t. unfold t. rewrite table_has_enumerate by apply compiled_wf1.
  pose proof (TP.enumerate_build_source cast sort_original files) as P. cbn zeta in P. fold col in P.
  split.
  - intros [ie [Hin ->]]. eapply Permutation_in in Hin; [|exact P].
    apply in_map_iff in Hin. destruct Hin as [o [Eo Ho]]. apply in_map_iff in Ho. destruct Ho as [e [<- He]].
    apply filter_In in He. destruct He as [He Hc]. unfold TP.conv, TP.out_of, TP.te in Eo. cbn in Eo. injection Eo as <- <-.
    exists e. split; [exact He|]. split; [reflexivity|]. split; [|reflexivity].
    unfold TP.has_code in Hc. destruct (Vo.e_code e); [discriminate|discriminate].
  - intros [e [He [<- [Nc ->]]]]. exists (Ix.build_entry cast e). split; [|reflexivity].
    eapply Permutation_in; [symmetry; exact P|]. apply in_map_iff. exists (TP.out_of e). split; [reflexivity|].
    apply in_map. apply filter_In. split; [exact He|]. unfold TP.has_code. destruct (Vo.e_code e) eqn:Ee; [exfalso; now apply Nc|reflexivity].
Qed.

(** ... i.e. the rows of the source files (C06_nothing_invented / C06_nothing_lost): text and code *)
Theorem table_has_rows (sort_original : bool) (files : list (Vo.colspec * list Base.Bytes.bytes)) c txt :
  let col := Vo.collect_files files in
  let t := conv_head (Ix.build_head cast (length (Vo.co_syll col)) (Vo.compile_vocab sort_original col)) in
  (exists w, table_has t c (mkTE txt w)) <->
  c <> [] /\ exists tx cs ws, In (Vo.LRow tx cs ws) (TP.source_rows files) /\ cs <> [] /\
                              txt = conv_text tx /\ c = map (Vo.id_of (Vo.co_syll col)) (Vo.split_skip Byte.x20 cs).
Proof.
  intros col t. split.
  - intros [w H]. apply (table_has_source sort_original files) in H. destruct H as [e [He [Ec [Nc Et]]]].
    split; [exact Nc|]. unfold Vo.entries_of in He. apply in_map_iff in He. destruct He as [r [<- Hr]].
    apply in_rev in Hr. destruct (TP.source_nothing_invented files r Hr) as (tx & cs & ws & Hrow & Ncs & ->).
    exists tx, cs, ws. injection Et as -> _. cbn in *. auto.
  - intros [Nc (tx & cs & ws & Hrow & Ncs & -> & ->)].
    destruct (TP.source_nothing_lost files tx cs ws Hrow Ncs) as (r & Hr & Et & Ec & _).
    exists (wz (cast (Vo.e_w (Vo.short_of (Vo.co_syll col) r)))).
    apply (table_has_source sort_original files). exists (Vo.short_of (Vo.co_syll col) r).
    split; [unfold Vo.entries_of; apply in_map; now apply -> in_rev|]. cbn. rewrite Et, Ec. auto.
Qed.

End TableSide.
