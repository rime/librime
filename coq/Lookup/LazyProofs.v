(** C07 - LazyTableTranslation's fetch-more protocol (limits 10, 100, 1000, ... with Skip) for any number of keys:
    the first fetch is drained completely, best head first; everything shown afterwards stems from keys beyond the
    first ten. *)
From Coq Require Import List Arith ZArith NArith Bool Lia Sorted Permutation.
From RimeV Require Import Lookup.Defs Lookup.Model Lookup.Spec Lookup.MapProofs Lookup.IterProofs Lookup.ScriptProofs
     Lookup.TableProofs Lookup.Checks.
Import ListNotations.

Section Lazy.
Variables (presort : bool) (pr : prism) (syls : list (nat * text)) (t : table) (inp : text).

Definition keys_of := filter (fun ks : text * list (syll * nat) => is_prefix inp (fst ks)) pr.
Definition chunks_of (ks : list (text * list (syll * nat))) : list chunk :=
  flat_map (fun ks => words_chunks syls t (length inp) (length (fst ks)) (snd ks)) ks.

Lemma lookup_words_limit limit :
  lookup_words pr syls t inp true limit =
  (length (if limit =? 0 then keys_of else firstn limit keys_of), chunks_of (if limit =? 0 then keys_of else firstn limit keys_of)).
Proof. unfold lookup_words, expand_search, keys_of, chunks_of. destruct (limit =? 0); reflexivity. Qed.

Lemma chunks_of_app a b : chunks_of (a ++ b) = chunks_of a ++ chunks_of b.
Proof. unfold chunks_of. apply flat_map_app. Qed.

Definition B1 := chunks_of (firstn 10 keys_of).
Definition R := chunks_of (skipn 10 keys_of).

Lemma full_split : snd (lookup_words pr syls t inp true 0) = B1 ++ R.
Proof. rewrite lookup_words_limit. cbn [Nat.eqb snd]. unfold B1, R. rewrite <- chunks_of_app. now rewrite firstn_skipn. Qed.

Lemma chunks_limit_split limit : 10 <= limit ->
  exists ks, snd (lookup_words pr syls t inp true limit) = B1 ++ chunks_of ks /\ incl ks (skipn 10 keys_of).
Proof.
  intros H. rewrite lookup_words_limit. destruct (limit =? 0) eqn:E; [apply Nat.eqb_eq in E; lia|]. cbn [snd].
  exists (skipn 10 (firstn limit keys_of)). split.
  - unfold B1. rewrite <- chunks_of_app. f_equal.
    rewrite <- (firstn_skipn 10 (firstn limit keys_of)) at 1. f_equal.
    rewrite firstn_firstn. now rewrite Nat.min_l by lia.
  - intros x Hx. rewrite <- (firstn_skipn limit keys_of). rewrite skipn_app. apply in_or_app. left. exact Hx.
Qed.

Lemma chunks_of_nonempty ks : Forall nonempty (chunks_of ks).
Proof.
  unfold chunks_of. apply Forall_flat_map. rewrite Forall_forall. intros k _.
  rewrite Forall_forall. intros c Hc. apply words_chunks_spec in Hc. destruct Hc as [sid [_ [NE ->]]]. exact NE.
Qed.

(** after the first batch: the limit is 0 or at least 10, the count covers B1; then every fetch yields parts of
    chunks of R only *)
Definition later (limit cnt : nat) : Prop := (limit = 0 \/ 10 <= limit) /\ total B1 <= cnt.

Lemma fetch_more_later limit cnt :
  later limit cnt -> parts_state R later (fetch_more presort pr syls t inp ([], limit, cnt)).
Proof.
  intros [HL HC]. unfold parts_state, fetch_more. destruct (limit =? 0) eqn:E0; [split; [constructor|now split]|].
  apply Nat.eqb_neq in E0. destruct (chunks_limit_split limit ltac:(lia)) as [ks [Ek Ik]].
  assert (HL' : forall n, (if n <? limit then 0 else limit * 10) = 0 \/ 10 <= (if n <? limit then 0 else limit * 10))
    by (intros n; destruct (n <? limit); [now left|right; lia]).
  destruct (cnt <? total _) eqn:EC; cbn [fst snd]; [|split; [constructor|split; [apply HL'|exact HC]]].
  rewrite Ek. split; [|split; [apply HL'|rewrite total_app; lia]].
  rewrite skip_app_ge by (try apply chunks_of_nonempty; exact HC).
  apply skip_parts. unfold R, chunks_of. intros c Hc.
  apply in_flat_map in Hc. destruct Hc as [k [Hk Hc]]. apply in_flat_map. exists k. auto.
Qed.

Lemma lazy_split fuel it limit cnt :
  Forall nonempty it -> it <> [] -> total it < fuel ->
  lazy_drain presort pr syls t inp fuel (it, limit, cnt) =
  drain_all it ++ lazy_drain presort pr syls t inp (fuel - total it) (fetch_more presort pr syls t inp ([], limit, cnt)).
Proof.
  revert it. induction fuel as [|f IH]; intros it F NE H; [lia|].
  destruct it as [|c r]; [congruence|]. inversion F as [|? ? Hc Hr]; subst.
  pose proof (total_iter_next c r Hc) as T. destruct (c_ents c) as [|e tl] eqn:E; [contradiction|].
  cbn [lazy_drain]. unfold drain_all. rewrite T. cbn [drain]. rewrite (iter_peek_some c r e tl E). cbn [app]. f_equal.
  pose proof (iter_next_Forall _ _ nonempty_tail_closed F) as F1.
  destruct (iter_next (c :: r)) as [|c1 r1] eqn:E1.
  - cbn [total fold_right drain app]. replace (S f - 1) with f by lia. reflexivity.
  - rewrite IH; [|exact F1|discriminate|lia]. unfold drain_all. f_equal.
Qed.

Lemma first_fetch :
  exists limit, fetch_more presort pr syls t inp ([], 10, 0) = (maybe_sort presort B1, limit, total B1) /\
                later limit (total B1).
Proof.
  unfold fetch_more. rewrite lookup_words_limit. cbn [Nat.eqb fst snd]. fold B1. eexists. split.
  - destruct (0 <? total B1) eqn:ET; [now rewrite skip_0|]. apply Nat.ltb_ge in ET.
    rewrite (total_0_nil B1) by (try apply chunks_of_nonempty; lia). now destruct presort.
  - split; [|apply le_n]. destruct (_ <? 10); [now left|right; lia].
Qed.

Lemma lazy_drain_first fuel it limit cnt :
  Forall nonempty it -> total it < fuel -> later limit cnt ->
  exists rest, lazy_drain presort pr syls t inp fuel (it, limit, cnt) = drain_all it ++ rest /\
               forall d, In d rest -> exists c te, In c R /\ In te (c_ents c) /\ d = mk_dentry c te.
Proof.
  intros F T L. destruct it as [|c it'].
  - exists []. split; [now destruct fuel|intros d []].
  - rewrite lazy_split by (assumption || discriminate). eexists. split; [reflexivity|].
    intros d. apply (lazy_drain_parts presort pr syls t inp R later fetch_more_later), fetch_more_later, L.
Qed.

End Lazy.

(** * exact matches first, then completions: any number of extending keys *)
Theorem table_exact_then_completion pr syls t code :
  table_sorted t ->
  let b1 := B1 pr syls t code in
  let r := R pr syls t code in
  snd (lookup_words pr syls t code true 0) = b1 ++ r /\
  exists rest,
    table_entries true true pr syls t code = drain_all (sort_head b1) ++ rest /\
    Permutation (drain_all (sort_head b1)) (all_entries b1) /\
    StronglySorted dle (drain_all (sort_head b1)) /\
    forall d, In d rest -> exists c te, In c r /\ In te (c_ents c) /\ d = mk_dentry c te.
Proof.
  intros TS b1 r. split; [apply full_split|].
  assert (NE : Forall nonempty b1) by apply chunks_of_nonempty.
  assert (OK : Forall chunk_ok b1).
  { replace b1 with (snd (lookup_words pr syls t code true 10)) by (rewrite lookup_words_limit; reflexivity).
    now apply lookup_words_ok. }
  unfold table_entries. destruct (first_fetch true pr syls t code) as (limit & -> & L). cbn [maybe_sort]. fold b1.
  destruct (lazy_drain_first true pr syls t code (lazy_fuel pr syls t code) (sort_head b1) limit (total b1)) as (rest & E & Hr);
    [apply sort_head_Forall, NE| |exact L|].
  - unfold lazy_fuel. rewrite (full_split pr syls t code), total_app, total_sort_head. fold b1. lia.
  - exists rest. split; [exact E|]. split; [now apply drain_all_sort_head_perm|]. split; [now apply drain_all_sorted|exact Hr].
Qed.

(** with fewer than 10 extending keys (one fetch) the whole list is one best-head-first merge of all chunks *)
Corollary table_exact_then_completion_partial pr syls t code :
  table_sorted t ->
  fst (lookup_words pr syls t code true 10) < 10 ->
  let chunks := snd (lookup_words pr syls t code true 0) in
  Permutation (table_entries true true pr syls t code) (all_entries chunks) /\
  StronglySorted dle (table_entries true true pr syls t code).
Proof.
  intros TS H chunks. destruct (table_exact_then_completion pr syls t code TS) as [Es (rest & E & P & S & Hr)].
  assert (R0 : R pr syls t code = []).
  { unfold R. rewrite lookup_words_limit in H. cbn [fst Nat.eqb] in H. rewrite firstn_length in H.
    rewrite skipn_all2 by lia. reflexivity. }
  rewrite R0 in Es, Hr. rewrite app_nil_r in Es.
  assert (rest = []) by (destruct rest as [|d rest]; [reflexivity|]; destruct (Hr d (or_introl eq_refl)) as (c & te & [] & _)).
  subst rest. rewrite app_nil_r in E. unfold chunks. rewrite E, Es. auto.
Qed.

(** * the stronger reading - ONE globally sorted list of all chunks' entries - is false of the faithful model as
    soon as more than ten keys extend the input: a later fetch is drained after the earlier one.  (The property asks
    for no order among completions, so this is not a violation; the witness below has eleven keys, the eleventh with
    the best weight.) *)
Definition global_order_full : Prop := forall pr syls t code,
  table_sorted t ->
  let chunks := snd (lookup_words pr syls t code true 0) in
  Permutation (table_entries true true pr syls t code) (all_entries chunks) /\
  StronglySorted dle (table_entries true true pr syls t code).

Definition kltb (a b : key) : bool :=
  let '(a1, a2, a3) := a in let '(b1, b2, b3) := b in
  (a1 <? b1) || ((a1 =? b1) && ((a2 <? b2) || ((a2 =? b2) && (a3 <? b3)%Z))).
Definition dleb (a b : dentry) : bool := negb (kltb (dkey b) (dkey a)).

Lemma dle_dleb a b : dle a b -> dleb a b = true.
Proof.
  unfold dle, kle, dleb. destruct (dkey a) as [[a1 a2] a3], (dkey b) as [[b1 b2] b3]. unfold klt, kltb. intros H.
  destruct (Nat.ltb_spec b1 a1), (Nat.eqb_spec b1 a1), (Nat.ltb_spec b2 a2), (Nat.eqb_spec b2 a2), (Z.ltb_spec b3 a3);
    cbn; try reflexivity; exfalso; apply H; lia.
Qed.

Definition e11_prism : prism := map (fun k => ([97%N; N.of_nat k], [(k - 1, 0)])) (seq 1 11).
Definition e11_syls : list (nat * text) := map (fun i => (i, [97%N; N.of_nat (S i)])) (seq 0 11).
Definition e11_table : table := map (fun i => mkNode [i] [mkTE [N.of_nat (65 + i)] (Z.of_nat i)] false []) (seq 0 11).

Theorem global_order_full_refuted : ~ global_order_full.
Proof.
  intros H. destruct (H e11_prism e11_syls e11_table [97%N]) as [_ S]; [now apply table_sorted_b_ok|].
  apply (sorted_b_complete _ _ _ dle_dleb) in S. vm_compute in S. discriminate S.
Qed.

(* what the model shows on that instance: weights 9..0 of the first ten keys, then 10 *)
Example e11_entries : map d_w (table_entries true true e11_prism e11_syls e11_table [97%N])
                      = [9; 8; 7; 6; 5; 4; 3; 2; 1; 0; 10]%Z.
Proof. reflexivity. Qed.
