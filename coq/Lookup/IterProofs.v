(** C07 - DictEntryIterator: the comparator is a total preorder on head elements, Sort() moves a minimal chunk to
    the head, draining the iterator yields every entry exactly once, in "best head first" order. *)
From Coq Require Import List Arith ZArith NArith Bool Lia Sorted Permutation.
From RimeV Require Import Lookup.Defs Lookup.Model Lookup.Spec Lookup.ListFacts.
Import ListNotations.

(** * the sort key the comparator implements *)
Definition key := (nat * nat * Z)%type.

Definition klt (a b : key) : Prop :=
  let '(a1, a2, a3) := a in let '(b1, b2, b3) := b in
  a1 < b1 \/ (a1 = b1 /\ (a2 < b2 \/ (a2 = b2 /\ (a3 < b3)%Z))).
Definition kle (a b : key) : Prop := ~ klt b a.

Lemma kle_refl a : kle a a.
Proof. destruct a as [[a1 a2] a3]. unfold kle, klt. lia. Qed.
Lemma kle_trans a b c : kle a b -> kle b c -> kle a c.
Proof. destruct a as [[a1 a2] a3], b as [[b1 b2] b3], c as [[c1 c2] c3]. unfold kle, klt. lia. Qed.
Lemma kle_total a b : kle a b \/ kle b a.
Proof. destruct a as [[a1 a2] a3], b as [[b1 b2] b3]. unfold kle, klt. lia. Qed.

(** exact matches before predictive ones, shorter remaining code first, then credibility + weight descending *)
Definition ekey (c : chunk) (e : tentry) : key :=
  (if is_exact c then 0 else 1, c_remlen c, (- (c_cred c + te_w e))%Z).

Lemma chunk_lt_spec a b ea la eb lb :
  c_ents a = ea :: la -> c_ents b = eb :: lb -> (chunk_lt a b = true <-> klt (ekey a ea) (ekey b eb)).
Proof.
  intros Ea Eb. unfold chunk_lt, ekey, klt. rewrite Ea, Eb.
  destruct (is_exact a), (is_exact b); cbn [Bool.eqb negb]; [|split; [lia|reflexivity]|split; [discriminate|lia]|];
    (destruct (Nat.eqb_spec (c_remlen a) (c_remlen b)); cbn [negb]; [rewrite Z.ltb_lt|rewrite Nat.ltb_lt]; lia).
Qed.

(** the comparator on possibly exhausted chunks: an exhausted chunk is never less, and everything else is less than
    it.  [cle a b]: a is no worse than b *)
Definition ck (c : chunk) : option key := match c_ents c with [] => None | e :: _ => Some (ekey c e) end.
Definition cle (a b : chunk) : Prop := chunk_lt b a = false.

Lemma cle_spec a b :
  cle a b <-> match ck a, ck b with _, None => True | None, Some _ => False | Some x, Some y => kle x y end.
Proof.
  unfold cle, ck, chunk_lt. destruct (c_ents b) as [|eb lb] eqn:Eb; [now destruct (c_ents a)|].
  destruct (c_ents a) as [|ea la] eqn:Ea; [split; [discriminate|tauto]|].
  unfold kle. rewrite <- (chunk_lt_spec b a eb lb ea la Eb Ea). unfold chunk_lt. rewrite Ea, Eb.
  split; [congruence|apply not_true_is_false].
Qed.

Lemma cle_refl a : cle a a.
Proof. apply cle_spec. destruct (ck a); [apply kle_refl|exact I]. Qed.
Lemma cle_trans a b c : cle a b -> cle b c -> cle a c.
Proof. rewrite !cle_spec. destruct (ck a), (ck b), (ck c); try tauto. apply kle_trans. Qed.
Lemma lt_cle a b : chunk_lt a b = true -> cle a b.
Proof.
  intros H. assert (T : cle a b \/ cle b a) by (rewrite !cle_spec; destruct (ck a), (ck b); auto using kle_total).
  destruct T as [T|T]; [exact T|]. unfold cle in T. congruence.
Qed.

Lemma select_swap_perm cur rest :
  Permutation (cur :: rest) (fst (select_swap cur rest) :: snd (select_swap cur rest)).
Proof.
  revert cur. induction rest as [|x r IH]; intros cur; cbn [select_swap]; [reflexivity|].
  destruct (chunk_lt x cur); cbn [fst snd].
  - eapply perm_trans; [apply perm_skip; apply (IH x)|apply perm_swap].
  - eapply perm_trans; [apply perm_swap|]. eapply perm_trans; [apply perm_skip; apply (IH cur)|apply perm_swap].
Qed.

Lemma select_swap_min cur rest :
  cle (fst (select_swap cur rest)) cur /\ Forall (cle (fst (select_swap cur rest))) rest.
Proof.
  revert cur. induction rest as [|x r IH]; intros cur; cbn [select_swap].
  - split; [apply cle_refl|constructor].
  - destruct (chunk_lt x cur) eqn:E; cbn [fst snd].
    + destruct (IH x) as [H1 H2]. pose proof (lt_cle _ _ E) as Hx.
      split; [eapply cle_trans; eassumption|]. constructor; assumption.
    + destruct (IH cur) as [H1 H2]. split; [exact H1|]. constructor; [|exact H2].
      eapply cle_trans; [exact H1|exact E].
Qed.

Definition head_min (it : list chunk) : Prop :=
  match it with [] => True | c :: r => Forall (cle c) r end.

Lemma sort_head_perm cs : Permutation cs (sort_head cs).
Proof. destruct cs as [|c r]; [reflexivity|]. apply select_swap_perm. Qed.

Lemma sort_head_min cs : head_min (sort_head cs).
Proof.
  destruct cs as [|c r]; [exact I|]. cbn [sort_head head_min]. destruct (select_swap_min c r) as [H1 H2].
  eapply incl_Forall; [|exact (Forall_cons _ H1 H2)].
  intros x Hx. eapply Permutation_in; [symmetry; apply select_swap_perm|]. now right.
Qed.

Definition entries_of (c : chunk) : list dentry := map (mk_dentry c) (c_ents c).
Definition all_entries (it : list chunk) : list dentry := flat_map entries_of it.

Lemma all_entries_perm it it' : Permutation it it' -> Permutation (all_entries it) (all_entries it').
Proof. apply Permutation_flat_map. Qed.

Lemma all_entries_length it : length (all_entries it) = total it.
Proof.
  induction it as [|c r IH]; [reflexivity|]. unfold all_entries in *. cbn [flat_map total fold_right].
  rewrite app_length, IH. unfold entries_of. now rewrite map_length.
Qed.

Lemma in_all_entries it d :
  In d (all_entries it) <-> exists c te, In c it /\ In te (c_ents c) /\ d = mk_dentry c te.
Proof.
  unfold all_entries, entries_of. rewrite in_flat_map. split.
  - intros [c [Hc Hd]]. apply in_map_iff in Hd. destruct Hd as [te [<- Hte]]. eauto.
  - intros (c & te & Hc & Hte & ->). exists c. split; [exact Hc|now apply in_map].
Qed.

Lemma mk_dentry_set_ents c l e : mk_dentry (set_ents c l) e = mk_dentry c e.
Proof. reflexivity. Qed.

Definition nonempty (c : chunk) : Prop := c_ents c <> [].

Lemma iter_peek_some c r e tl : c_ents c = e :: tl -> iter_peek (c :: r) = Some (mk_dentry c e).
Proof. intros E. unfold iter_peek. now rewrite E. Qed.

Lemma iter_next_perm c r e tl :
  c_ents c = e :: tl -> Permutation (all_entries (c :: r)) (mk_dentry c e :: all_entries (iter_next (c :: r))).
Proof.
  intros E. cbn [all_entries flat_map]. unfold entries_of at 1, iter_next. rewrite E. cbn [map app]. apply perm_skip.
  destruct tl as [|e2 tl]; (etransitivity; [|apply all_entries_perm, sort_head_perm]); reflexivity.
Qed.

Lemma total_iter_next c r : nonempty c -> total (c :: r) = S (total (iter_next (c :: r))).
Proof.
  intros N. destruct (c_ents c) as [|e tl] eqn:E; [contradiction|].
  rewrite <- !all_entries_length. apply (Permutation_length (iter_next_perm c r e tl E)).
Qed.

Lemma total_0_nil it : Forall nonempty it -> total it = 0 -> it = [].
Proof.
  intros F T. destruct it as [|c r]; [reflexivity|]. inversion F as [|? ? Hc _]; subst. unfold nonempty in Hc.
  cbn in T. destruct (c_ents c); [contradiction|discriminate].
Qed.

Lemma total_sort_head cs : total (sort_head cs) = total cs.
Proof. rewrite <- !all_entries_length. symmetry. apply Permutation_length, all_entries_perm, sort_head_perm. Qed.

(** * properties of all chunks of an iterator that Sort(), Next() and Skip() preserve: those that survive when a chunk's
    entries are replaced by a non-empty tail of them *)
Definition tail_closed (P : chunk -> Prop) : Prop :=
  forall c pre l, P c -> c_ents c = pre ++ l -> l <> [] -> P (set_ents c l).

Lemma sort_head_Forall P cs : Forall P cs -> Forall P (sort_head cs).
Proof. apply Permutation_Forall, sort_head_perm. Qed.

Lemma iter_next_Forall P it : tail_closed P -> Forall P it -> Forall P (iter_next it).
Proof.
  intros C F. destruct it as [|c r]; [constructor|]. inversion F as [|? ? Hc Hr]; subst. unfold iter_next.
  destruct (c_ents c) as [|e [|e2 tl]] eqn:E; apply sort_head_Forall; try exact Hr.
  constructor; [|exact Hr]. apply (C c [e]); [exact Hc|exact E|discriminate].
Qed.

Lemma skip_Forall P it n : tail_closed P -> Forall P it -> Forall P (skip it n).
Proof.
  intros C. revert n. induction it as [|c r IH]; intros n F; [destruct n; constructor|].
  inversion F as [|? ? Hc Hr]; subst. destruct n as [|n]; [exact F|]. cbn [skip].
  destruct (S n <? length (c_ents c)) eqn:E; [|now apply IH].
  apply Nat.ltb_lt in E. constructor; [|exact Hr].
  apply (C c (firstn (S n) (c_ents c))); [exact Hc|symmetry; apply firstn_skipn|].
  intros E0. apply (f_equal (@length _)) in E0. rewrite skipn_length in E0. cbn in E0. lia.
Qed.

Lemma skip_0 it : skip it 0 = it.
Proof. destruct it; reflexivity. Qed.

Lemma total_app a b : total (a ++ b) = total a + total b.
Proof. induction a as [|c a IH]; cbn [app total fold_right]; [reflexivity|]. fold (total (a ++ b)) (total a). lia. Qed.

Lemma skip_app_ge a b n : Forall nonempty a -> total a <= n -> skip (a ++ b) n = skip b (n - total a).
Proof.
  revert n. induction a as [|c a IH]; intros n F H; cbn [app total fold_right]; [now rewrite Nat.sub_0_r|].
  inversion F as [|? ? Hc Ha]; subst. cbn [total fold_right] in H. fold (total a) in *.
  assert (0 < length (c_ents c)) by (unfold nonempty in Hc; destruct (c_ents c); [congruence|cbn; lia]).
  destruct n as [|n]; [lia|]. cbn [skip].
  destruct (S n <? length (c_ents c)) eqn:E; [apply Nat.ltb_lt in E; lia|].
  rewrite IH by (try assumption; lia). f_equal. lia.
Qed.

Lemma nonempty_tail_closed : tail_closed nonempty.
Proof. intros c pre l _ _ N. exact N. Qed.

Definition part_of (S : list chunk) (c' : chunk) : Prop :=
  exists c, In c S /\ c' = set_ents c (c_ents c') /\ incl (c_ents c') (c_ents c).

Lemma part_of_tail_closed S : tail_closed (part_of S).
Proof.
  intros c' pre l (c & Hin & E & I) El _. exists c. cbn [set_ents c_ents].
  split; [exact Hin|]. split; [rewrite E; reflexivity|]. intros x Hx. apply I. rewrite El. apply in_or_app. now right.
Qed.

Lemma part_of_member S c : In c S -> part_of S c.
Proof. intros Hc. exists c. split; [exact Hc|]. split; [now destruct c|apply incl_refl]. Qed.

Lemma peek_part_of S it d :
  Forall (part_of S) it -> iter_peek it = Some d -> exists c te, In c S /\ In te (c_ents c) /\ d = mk_dentry c te.
Proof.
  intros F EP. destruct it as [|c' r]; [discriminate|]. cbn [iter_peek] in EP.
  destruct (c_ents c') as [|e tl] eqn:E; [discriminate|]. injection EP as <-.
  inversion F as [|? ? (c & Hin & Ec & I) _]; subst. exists c, e. split; [exact Hin|].
  split; [apply I; rewrite E; now left|]. rewrite Ec. apply mk_dentry_set_ents.
Qed.

Lemma drain_perm n it :
  Forall nonempty it -> total it <= n -> Permutation (drain n it) (all_entries it).
Proof.
  revert it. induction n as [|n IH]; intros it F T.
  - rewrite <- all_entries_length in T. destruct (all_entries it); [reflexivity|cbn in T; lia].
  - destruct it as [|c r]; [reflexivity|]. inversion F as [|? ? Hc Hr]; subst.
    pose proof (total_iter_next c r Hc) as TN. destruct (c_ents c) as [|e tl] eqn:E; [contradiction|].
    cbn [drain]. rewrite (iter_peek_some c r e tl E), (iter_next_perm c r e tl E). apply perm_skip.
    apply IH; [now apply iter_next_Forall; [apply nonempty_tail_closed|]|lia].
Qed.

Theorem drain_all_perm it : Forall nonempty it -> Permutation (drain_all it) (all_entries it).
Proof. intros F. now apply drain_perm. Qed.

Lemma drain_all_sort_head_perm cs : Forall nonempty cs -> Permutation (drain_all (sort_head cs)) (all_entries cs).
Proof.
  intros F. etransitivity; [apply drain_all_perm, sort_head_Forall, F|symmetry; apply all_entries_perm, sort_head_perm].
Qed.

Lemma in_drain_all it d : Forall nonempty it -> (In d (drain_all it) <-> In d (all_entries it)).
Proof. intros F. split; apply Permutation_in; [|symmetry]; now apply drain_all_perm. Qed.

Definition chunk_wf (c : chunk) : Prop := 1 <= c_match c <= length (c_code c).
Definition chunk_ok (c : chunk) : Prop := nonempty c /\ weights_sorted (c_ents c) /\ chunk_wf c.

Definition dkey (d : dentry) : key := (if d_match d =? 0 then 0 else 1, d_remlen d, (- d_w d)%Z).
Definition dle (a b : dentry) : Prop := kle (dkey a) (dkey b).

Lemma dkey_mk c e : chunk_wf c -> dkey (mk_dentry c e) = ekey c e.
Proof.
  intros [H1 H2]. unfold dkey, ekey, mk_dentry, is_exact. cbn [d_match d_remlen d_w].
  destruct (Nat.ltb_spec (c_match c) (length (c_code c))), (Nat.eqb_spec (c_match c) (length (c_code c))); try lia;
    [destruct (Nat.eqb_spec (c_match c) 0); [lia|]|]; f_equal; lia.
Qed.

Lemma chunk_head_le c e tl x : chunk_ok c -> c_ents c = e :: tl -> In x (entries_of c) -> kle (ekey c e) (dkey x).
Proof.
  intros (_ & S & W) E Hx. unfold entries_of in Hx. apply in_map_iff in Hx. destruct Hx as [e' [<- He']].
  rewrite (dkey_mk c e' W). rewrite E in *.
  assert (te_w e' <= te_w e)%Z.
  { destruct He' as [<-|He']; [lia|]. inversion S as [|? ? _ Fs]; subst. rewrite Forall_forall in Fs. now apply Fs. }
  unfold kle, klt, ekey. lia.
Qed.

Lemma head_is_min c r e tl :
  Forall chunk_ok (c :: r) -> head_min (c :: r) -> c_ents c = e :: tl ->
  Forall (dle (mk_dentry c e)) (all_entries (c :: r)).
Proof.
  intros F M E. cbn [head_min] in M. rewrite Forall_forall in *. intros x Hx.
  unfold all_entries in Hx. apply in_flat_map in Hx. destruct Hx as [c' [Hc' Hx]].
  assert (Hle : cle c c') by (destruct Hc' as [<-|Hc']; [apply cle_refl|now apply M]).
  pose proof (F c (or_introl eq_refl)) as (_ & _ & Wc). pose proof (F c' Hc') as OK'.
  destruct (c_ents c') as [|e1 tl1] eqn:E1; [now destruct OK'|].
  apply cle_spec in Hle. unfold ck in Hle. rewrite E, E1 in Hle.
  unfold dle. rewrite (dkey_mk c e Wc). eapply kle_trans; [exact Hle|]. now apply (chunk_head_le c' e1 tl1).
Qed.

Lemma chunk_ok_tail_closed : tail_closed chunk_ok.
Proof.
  intros c pre l (_ & S & W) E N. split; [exact N|]. split; [|exact W]. cbn [set_ents c_ents].
  unfold weights_sorted in *. rewrite E in S. now apply StronglySorted_app_r in S.
Qed.

Lemma iter_next_head_min it : head_min (iter_next it).
Proof.
  destruct it as [|c r]; [exact I|]. unfold iter_next.
  destruct (c_ents c) as [|e [|e2 tl]]; apply sort_head_min.
Qed.

Lemma chunk_ok_nonempty it : Forall chunk_ok it -> Forall nonempty it.
Proof. apply Forall_impl. now intros c [H _]. Qed.

Theorem drain_sorted n it :
  Forall chunk_ok it -> head_min it -> total it <= n -> StronglySorted dle (drain n it).
Proof.
  revert it. induction n as [|n IH]; intros it F M T; [constructor|].
  destruct it as [|c r]; [constructor|].
  pose proof (iter_next_Forall _ _ chunk_ok_tail_closed F) as F1.
  assert (T1 : total (iter_next (c :: r)) <= n).
  { inversion F as [|? ? [Nc _] _]; subst. rewrite (total_iter_next c r Nc) in T. lia. }
  destruct (c_ents c) as [|e tl] eqn:E; [inversion F as [|? ? [Nc _] _]; contradiction|].
  cbn [drain]. rewrite (iter_peek_some c r e tl E). constructor.
  - apply IH; [exact F1|apply iter_next_head_min|exact T1].
  - eapply incl_Forall; [|apply (head_is_min c r e tl F M E)]. intros x Hx.
    eapply Permutation_in; [symmetry; apply (iter_next_perm c r e tl E)|]. right.
    eapply Permutation_in; [apply drain_perm; [now apply chunk_ok_nonempty|exact T1]|exact Hx].
Qed.

Theorem drain_all_sorted it : Forall chunk_ok it -> StronglySorted dle (drain_all (sort_head it)).
Proof.
  intros F. apply drain_sorted; [now apply sort_head_Forall|apply sort_head_min|apply le_n].
Qed.

(** what [dle] says for two entries of the same class: the one emitted first has the larger weight + credibility *)
Lemma dle_same_class a b :
  dle a b -> (d_match a =? 0) = (d_match b =? 0) -> d_remlen a = d_remlen b -> (d_w b <= d_w a)%Z.
Proof.
  unfold dle, kle, klt, dkey. intros H E1 E2. rewrite E1, E2 in H. lia.
Qed.

Lemma dle_exact_first a b : dle a b -> d_match b = 0 -> d_match a = 0.
Proof.
  unfold dle, kle, klt, dkey. intros H E. rewrite E in H. cbn [Nat.eqb] in H.
  destruct (d_match a =? 0) eqn:Ea; [now apply Nat.eqb_eq in Ea|]. lia.
Qed.

Lemma iter_peek_drain it d : iter_peek it = Some d -> drain_all it <> [].
Proof.
  unfold drain_all. destruct it as [|c r]; [discriminate|]. cbn [iter_peek]. destruct (c_ents c) as [|e tl] eqn:E; [discriminate|].
  intros _. cbn [total fold_right]. rewrite E. cbn [length Nat.add drain iter_peek]. rewrite E. discriminate.
Qed.
