(** C07 - ScriptTranslation: the phrase candidates are exactly the spelled entries, longer matches first, best head
    first inside one end position; the sentence is a concatenation of spelled entries; nothing else is emitted. *)
From Coq Require Import List Arith ZArith NArith Bool Lia Sorted.
From RimeV Require Export Lookup.ListFacts.
From RimeV Require Import Lookup.Defs Lookup.Model Lookup.Spec Lookup.MapProofs Lookup.QueryProofs Lookup.IterProofs
     Lookup.LookupProofs.
Import ListNotations.

Lemma text_eqb_eq a b : text_eqb a b = true <-> a = b.
Proof.
  revert b. induction a as [|x a IH]; intros [|y b]; cbn; try (split; congruence).
  rewrite andb_true_iff, N.eqb_eq, IH. split; [intros [-> ->]; reflexivity|intros H; injection H; auto].
Qed.

Lemma code_eqb_eq a b : code_eqb a b = true <-> a = b.
Proof.
  revert b. induction a as [|x a IH]; intros [|y b]; cbn; try (split; congruence).
  rewrite andb_true_iff, Nat.eqb_eq, IH. split; [intros [-> ->]; reflexivity|intros H; injection H; auto].
Qed.

Lemma find_node_spec t c n : find_node t c = Some n -> In n t /\ n_code n = c.
Proof.
  induction t as [|m t IH]; cbn; [discriminate|]. destruct (code_eqb (n_code m) c) eqn:E.
  - intros H. injection H as <-. split; [now left|]. now apply code_eqb_eq.
  - intros H. destruct (IH H) as [H1 H2]. split; [now right|exact H2].
Qed.

Lemma find_node_exists t n : In n t -> exists n', find_node t (n_code n) = Some n'.
Proof.
  induction t as [|m t IH]; intros H; [destruct H|]. cbn. destruct (code_eqb (n_code m) (n_code n)) eqn:E; [eauto|].
  destruct H as [->|H]; [now rewrite (proj2 (code_eqb_eq _ _) eq_refl) in E|now apply IH].
Qed.

Lemma distinct_incl seen l : incl (distinct seen l) l.
Proof.
  revert seen. induction l as [|c r IH]; intros seen x Hx; [destruct Hx|]. cbn in Hx.
  destruct (text_mem (k_text c) seen); [right; eapply IH; exact Hx|].
  destruct Hx as [<-|Hx]; [now left|right; eapply IH; exact Hx].
Qed.

Lemma text_mem_in x l : text_mem x l = true <-> In x l.
Proof.
  induction l as [|y r IH]; cbn; [split; [discriminate|tauto]|].
  rewrite orb_true_iff, text_eqb_eq, IH. split; intros [H|H]; auto.
Qed.

Lemma distinct_keeps_texts seen l c :
  In c l -> In (k_text c) seen \/ exists c', In c' (distinct seen l) /\ k_text c' = k_text c.
Proof.
  revert seen. induction l as [|x r IH]; intros seen H; [destruct H|]. cbn [distinct].
  destruct (text_mem (k_text x) seen) eqn:E.
  - destruct H as [<-|H]; [left; now apply text_mem_in|]. apply IH. exact H.
  - destruct H as [<-|H]; [right; exists x; split; [now left|reflexivity]|].
    destruct (IH (k_text x :: seen) H) as [[Hs|Hs]|[c' [Hc' Ht]]].
    + right. exists x. split; [now left|exact Hs].
    + now left.
    + right. exists c'. split; [now right|exact Ht].
Qed.

Corollary distinct_complete l c : In c l -> exists c', In c' (distinct [] l) /\ k_text c' = k_text c.
Proof. intros H. destruct (distinct_keeps_texts [] l c H) as [[]|H']. exact H'. Qed.

Lemma distinct_sorted (R : cand -> cand -> Prop) seen l : StronglySorted R l -> StronglySorted R (distinct seen l).
Proof.
  intros S. revert seen. induction S as [|a l S IH F]; intros seen; [constructor|]. cbn.
  destruct (text_mem (k_text a) seen); [apply IH|]. constructor; [apply IH|].
  rewrite Forall_forall in *. intros y Hy. apply F. eapply distinct_incl. exact Hy.
Qed.

Lemma script_phrase_entries_coll coll e d :
  In (e, d) (script_phrase_entries coll) <-> exists it, In (e, it) coll /\ In d (drain_all it).
Proof.
  unfold script_phrase_entries. rewrite in_flat_map. split.
  - intros [[e' it] [Hin Hd]]. apply in_rev in Hin. apply in_map_iff in Hd. destruct Hd as [d' [E Hd]].
    injection E as -> ->. eauto.
  - intros [it [Hin Hd]]. exists (e, it). split; [now apply -> in_rev|]. now apply in_map.
Qed.

Lemma script_phrase_entries_in g t start predict e d :
  wf_graph g ->
  (In (e, d) (script_phrase_entries (lookup g t start predict)) <->
   exists c te, In (e, c) (lookup_chunks g t start predict) /\ In te (c_ents c) /\ d = mk_dentry c te).
Proof.
  intros W. rewrite script_phrase_entries_coll. split.
  - intros [it [Hin Hd]]. apply (lookup_entry_in g t start predict e it d Hin).
    apply in_drain_all; [now apply (lookup_iter_nonempty g t start predict e)|exact Hd].
  - intros (c & te & Hc & H).
    assert (Hk : exists it, In (e, it) (lookup g t start predict)).
    { apply group_in in Hc. destruct Hc as [cs [Hin _]]. exists (sort_head cs). apply lookup_in. eauto. }
    destruct Hk as [it Hin]. exists it. split; [exact Hin|].
    apply in_drain_all; [now apply (lookup_iter_nonempty g t start predict e)|].
    apply (lookup_entry_in g t start predict e it d Hin). eauto.
Qed.

(** ** exactness (exact matches): the phrase entries at end [e] are the table entries whose code is spelled start -> e *)
Theorem script_entries_exact g t start e c txt :
  wf_graph g -> wf_table t -> start < g_ilen g ->
  ((exists d, In (e, d) (script_phrase_entries (lookup g t start false)) /\ d_code d = c /\ d_text d = txt) <->
   (exists w, table_has t c (mkTE txt w) /\ spelled g c start e)).
Proof.
  intros W WT Hs. split.
  - intros [d [Hin [<- <-]]]. apply script_phrase_entries_in in Hin; [|exact W].
    destruct Hin as [ch [te [Hc [Hte ->]]]]. exists (te_w te). cbn [mk_dentry d_code d_text].
    replace (mkTE (te_text te) (te_w te)) with te by now destruct te.
    apply (collector_exact g t start e (c_code ch) te W WT Hs). eauto.
  - intros [w [Hth Hsp]].
    destruct (proj2 (collector_exact g t start e c (mkTE txt w) W WT Hs) (conj Hth Hsp)) as [ch [Hc [<- Hte]]].
    exists (mk_dentry ch (mkTE txt w)). split; [|split; reflexivity].
    apply script_phrase_entries_in; [exact W|]. eauto.
Qed.

Lemma script_entries_all_exact g t start e d :
  wf_graph g -> In (e, d) (script_phrase_entries (lookup g t start false)) -> d_match d = 0.
Proof.
  intros W Hin. apply script_phrase_entries_in in Hin; [|exact W].
  destruct Hin as [ch [te [Hc [Hte ->]]]]. cbn [mk_dentry d_match].
  rewrite (lookup_chunks_exact g t start e ch W Hc). now rewrite Nat.ltb_irrefl.
Qed.

(** the same statement on the candidates ScriptTranslation emits (no word completion) *)
Theorem script_candidates_exact g t e c txt :
  wf_graph g -> wf_table t -> 0 < g_ilen g ->
  (In (mkCand TPhrase 0 e txt c) (script_phrases (lookup g t 0 false)) <->
   (exists w, table_has t c (mkTE txt w) /\ spelled g c 0 e)).
Proof.
  intros W WT Hs. rewrite <- (script_entries_exact g t 0 e c txt W WT Hs). unfold script_phrases. rewrite in_map_iff. split.
  - intros [[e' d] [E Hin]]. unfold phrase_cand in E. cbn [fst snd] in E. injection E as _ -> <- <-. eauto.
  - intros [d [Hin [<- <-]]]. exists (e, d). split; [|exact Hin]. unfold phrase_cand. cbn [fst snd].
    pose proof (script_entries_all_exact g t 0 e d W Hin) as M. unfold d_predictive. rewrite M. reflexivity.
Qed.

(** ** order: end positions descending; inside one end position best head first *)
Definition pe_le (a b : nat * dentry) : Prop := fst b < fst a \/ (fst a = fst b /\ dle (snd a) (snd b)).

Theorem script_phrase_entries_sorted g t start predict :
  wf_graph g -> table_sorted t ->
  StronglySorted pe_le (script_phrase_entries (lookup g t start predict)).
Proof.
  intros W TS. unfold script_phrase_entries. apply flat_map_sorted_desc.
  - rewrite map_rev. apply StronglySorted_rev_lt, lookup_keys_sorted.
  - intros [e it] Hin. apply in_rev in Hin. destruct (lookup_iter_ok g t start predict e it W TS Hin) as [F M].
    eapply StronglySorted_map; [|now apply drain_sorted]. intros a b Hab. right. now split.
  - intros x x' b b' Hlt Hb Hb'. apply in_map_iff in Hb. apply in_map_iff in Hb'.
    destruct Hb as [d [<- _]], Hb' as [d' [<- _]]. now left.
Qed.

Corollary script_longer_first g t start predict :
  wf_graph g -> table_sorted t ->
  StronglySorted (fun a b => k_end b <= k_end a) (script_phrases (lookup g t start predict)).
Proof.
  intros W TS. unfold script_phrases. eapply StronglySorted_map; [|apply script_phrase_entries_sorted; assumption].
  intros a b [H|[H _]]; unfold phrase_cand; cbn [k_end]; lia.
Qed.

Inductive chain (g : graph) (t : table) : nat -> nat -> sentence -> Prop :=
| chain_nil : forall p, chain g t p p []
| chain_cons : forall pos e total d r,
    (exists w, table_has t (d_code d) (mkTE (d_text d) w)) -> spelled g (d_code d) pos e ->
    chain g t e total r -> chain g t pos total ((d, e) :: r).

Lemma dentry_in_spec d l :
  dentry_in d l = true <-> exists d', In d' l /\ d_text d = d_text d' /\ d_code d = d_code d'.
Proof.
  induction l as [|x r IH]; cbn; [split; [discriminate|intros [? [[] _]]]|].
  rewrite orb_true_iff, andb_true_iff, text_eqb_eq, code_eqb_eq, IH. split.
  - intros [[H1 H2]|[d' [H1 H2]]]; [exists x; auto|exists d'; auto].
  - intros [d' [[<-|H1] H2]]; [left; tauto|right; eauto].
Qed.

Lemma script_wgraph_at g t mh pos e d :
  In d (assoc_list e (assoc_list pos (script_wgraph g t mh))) ->
  exists it, In (e, it) (lookup g t pos false) /\ In d (drain_all it).
Proof.
  intros Hd. apply in_assoc_list in Hd. destruct Hd as (ds & He & Hd).
  apply in_assoc_list in He. destruct He as (row & Hp & He).
  unfold script_wgraph in Hp. apply in_map_iff in Hp. destruct Hp as (x & E & _). injection E as <- <-.
  apply in_map_iff in He. destruct He as ([e' it] & E & Hin). injection E as -> <-.
  exists it. split; [exact Hin|]. eapply in_firstn, Hd.
Qed.

Section Sentence.
Variable poet : wgraph -> nat -> option sentence.
(* the only thing assumed of Poet: its answer is a chain of word-graph entries from 0 to the requested length *)
Hypothesis poet_chain : forall wg total s, poet wg total = Some s -> wg_path_ok wg 0 total s = true.

Lemma wg_path_chain g t mh : wf_graph g -> wf_table t -> forall s pos total,
  wg_path_ok (script_wgraph g t mh) pos total s = true -> chain g t pos total s.
Proof.
  intros W WT. induction s as [|[d e] r IH]; intros pos total H; cbn [wg_path_ok] in H.
  - apply Nat.eqb_eq in H. subst. constructor.
  - apply andb_true_iff in H. destruct H as [H1 H2]. apply dentry_in_spec in H1.
    destruct H1 as [d' [Hin [Ht Hc]]]. apply script_wgraph_at in Hin. destruct Hin as [it [Hl Hd]].
    assert (Hs : pos < g_ilen g).
    { destruct (le_lt_dec (g_ilen g) pos) as [Hge|Hlt]; [|exact Hlt]. rewrite lookup_start_out in Hl by exact Hge. destruct Hl. }
    assert (Hpe : In (e, d') (script_phrase_entries (lookup g t pos false))) by (apply script_phrase_entries_coll; eauto).
    destruct (proj1 (script_entries_exact g t pos e (d_code d') (d_text d') W WT Hs)) as [w [Hth Hsp]]; [eauto|].
    rewrite <- Ht, <- Hc in *. constructor; [eauto|exact Hsp|]. now apply IH.
Qed.

(** the sentence ScriptTranslation shows is a concatenation of spelled entries covering the interpreted input *)
Theorem sentence_is_concatenation g t mh s :
  wf_graph g -> wf_table t ->
  poet (script_wgraph g t mh) (g_ilen g) = Some s -> chain g t 0 (g_ilen g) s.
Proof. intros W WT H. apply (wg_path_chain g t mh W WT). now apply poet_chain. Qed.

Definition phrase_ok (g : graph) (t : table) (c : cand) : Prop :=
  k_type c = TPhrase /\ k_start c = 0 /\ exists w, table_has t (k_code c) (mkTE (k_text c) w) /\ gpath g 0 (k_code c) (k_end c).

Definition completion_ok (g : graph) (t : table) (wordcompl : bool) (c : cand) : Prop :=
  k_type c = TCompletion /\ k_start c = 0 /\ wordcompl = true /\ g_ilen g = g_input_len g /\ k_end c = g_ilen g /\
  exists w m, table_has t (k_code c) (mkTE (k_text c) w) /\ 3 <= m < length (k_code c) /\
              gpath g 0 (firstn m (k_code c)) (g_ilen g).

Definition sentence_ok (g : graph) (t : table) (c : cand) : Prop :=
  exists s, chain g t 0 (g_ilen g) s /\ c = sentence_cand s.

Lemma d_predictive_mk ch te :
  chunk_wf ch -> d_predictive (mk_dentry ch te) = (c_match ch <? length (c_code ch)).
Proof.
  intros [H1 H2]. unfold d_predictive, mk_dentry. cbn [d_match d_code].
  destruct (c_match ch <? length (c_code ch)) eqn:E; [|reflexivity].
  destruct (c_match ch =? 0) eqn:E0; [apply Nat.eqb_eq in E0; lia|]. now rewrite E.
Qed.

Lemma script_phrases_sound g t wordcompl c :
  wf_graph g -> wf_table t ->
  In c (script_phrases (lookup g t 0 (wordcompl && (g_ilen g =? g_input_len g)))) ->
  phrase_ok g t c \/ completion_ok g t wordcompl c.
Proof.
  intros W WT Hin. unfold script_phrases in Hin. apply in_map_iff in Hin. destruct Hin as [[e d] [<- Hin]].
  apply script_phrase_entries_in in Hin; [|exact W]. destruct Hin as [ch [te [Hc [Hte ->]]]].
  pose proof (lookup_chunks_sound g t 0 _ e ch W Hc) as CS.
  pose proof (cs_has CS WT te Hte) as Hth. pose proof (cs_wf CS) as Wf. pose proof (cs_path CS) as Hg.
  replace te with (mkTE (te_text te) (te_w te)) in Hth by now destruct te.
  unfold phrase_cand. cbn [fst snd]. rewrite (d_predictive_mk ch te Wf). destruct Wf as [M1 M2].
  destruct (c_match ch <? length (c_code ch)) eqn:E.
  - apply Nat.ltb_lt in E. destruct (cs_predictive CS E) as (P & -> & M3).
    apply andb_true_iff in P. destruct P as [-> P]. apply Nat.eqb_eq in P.
    right. unfold completion_ok. cbn [k_type k_start k_end k_text k_code mk_dentry d_text d_code].
    repeat (split; [reflexivity || exact P|]). exists (te_w te), (c_match ch). split; [exact Hth|]. split; [lia|exact Hg].
  - apply Nat.ltb_ge in E. assert (M : c_match ch = length (c_code ch)) by lia. rewrite M, firstn_all in Hg.
    left. unfold phrase_ok. cbn [k_type k_start k_end k_text k_code mk_dentry d_text d_code].
    repeat (split; [reflexivity|]). exists (te_w te). split; [exact Hth|exact Hg].
Qed.

(** ScriptTranslator::Query = DistinctTranslation over (the sentence, if one is made, then the phrase stream) *)
Lemma script_query_parts wordcompl mh g t :
  exists sent,
    (sent = [] \/ exists s, poet (script_wgraph g t mh) (g_ilen g) = Some s /\ sent = [sentence_cand s]) /\
    script_query poet wordcompl mh g t =
    distinct [] (sent ++ script_phrases (lookup g t 0 (wordcompl && (g_ilen g =? g_input_len g)))).
Proof.
  unfold script_query, script_translation.
  destruct (lookup g t 0 (wordcompl && (g_ilen g =? g_input_len g))) as [|x coll]; [exists []; split; [now left|reflexivity]|].
  destruct ((2 <=? length (g_edges g)) && negb (has_exact_at (rev (x :: coll)) (g_ilen g)));
    [destruct (poet (script_wgraph g t mh) (g_ilen g)) as [s|]|]; eexists; (split; [|reflexivity]); eauto.
Qed.

(* what is used of the sentence maker: its answer on THIS word graph is a chain from 0 *)
Lemma script_no_foreign_candidate_local wordcompl mh g t c :
  wf_graph g -> wf_table t ->
  (forall s, poet (script_wgraph g t mh) (g_ilen g) = Some s -> wg_path_ok (script_wgraph g t mh) 0 (g_ilen g) s = true) ->
  In c (script_query poet wordcompl mh g t) ->
  phrase_ok g t c \/ completion_ok g t wordcompl c \/ sentence_ok g t c.
Proof.
  intros W WT Hpoet Hin. destruct (script_query_parts wordcompl mh g t) as (sent & Hsent & E). rewrite E in Hin.
  apply distinct_incl in Hin. apply in_app_or in Hin. destruct Hin as [Hin|Hin].
  - right. right. destruct Hsent as [->|(s & EP & ->)]; [destruct Hin|]. destruct Hin as [<-|[]].
    exists s. split; [|reflexivity]. apply (wg_path_chain g t mh W WT). now apply Hpoet.
  - apply script_phrases_sound in Hin; tauto.
Qed.

Theorem script_no_foreign_candidate wordcompl mh g t c :
  wf_graph g -> wf_table t ->
  In c (script_query poet wordcompl mh g t) ->
  phrase_ok g t c \/ completion_ok g t wordcompl c \/ sentence_ok g t c.
Proof.
  intros W WT. apply script_no_foreign_candidate_local; [exact W|exact WT|]. intros s. apply poet_chain.
Qed.

Theorem script_contains_every_entry wordcompl mh g t c te e :
  wf_graph g -> wf_table t -> 0 < g_ilen g ->
  table_has t c te -> gpath g 0 c e ->
  exists k, In k (script_query poet wordcompl mh g t) /\ k_text k = te_text te.
Proof.
  intros W WT Hs Hth Hg. destruct (script_query_parts wordcompl mh g t) as (sent & _ & ->).
  destruct (collector_complete g t 0 (wordcompl && (g_ilen g =? g_input_len g)) e c te W WT Hs Hth Hg)
    as [e' [ch [_ [Hc [Hcode Hte]]]]].
  apply (distinct_complete _ (phrase_cand (e', mk_dentry ch te))). apply in_or_app. right.
  unfold script_phrases. apply in_map. apply script_phrase_entries_in; [exact W|]. eauto.
Qed.

End Sentence.

(** * a candidate's range lies on a complete segmentation of the interpreted input *)
Theorem spelled_on_complete_segmentation g c e :
  graph_pruned g -> c <> [] -> gpath g 0 c e -> on_complete_segmentation g e.
Proof.
  intros P N H. split; [now exists c|].
  destruct c as [|x c] using rev_ind; [congruence|]. apply gpath_snoc in H. destruct H as [m [p [_ [He ->]]]].
  exact (P _ _ _ He).
Qed.
