(** C07 - composition with C08 (Dict/Syll.v): a conversion from the graph [build_syllable_graph] produces to the
    abstract graph the lookup model consumes, and the proof that - for every well-formed prism, delimiter set, flag
    combination and input - the converted graph satisfies [wf_graph] and [graph_pruned], the two hypotheses the
    C07 theorems make about the graph.  Paths of the converted graph are chains of C08 edges, so C08_edge_sound
    says what each hop spells. *)
From Coq Require Import List Arith ZArith NArith Bool Lia.
From RimeV Require Dict.Syll Dict.SyllSpec Dict.SyllBase Dict.SyllProofs.
From RimeV Require Import Base.ListX Lookup.Defs Lookup.Model Lookup.Spec Lookup.MapProofs Lookup.QueryProofs
     Lookup.LookupProofs Lookup.ScriptProofs.
Import ListNotations.

Module Sy := RimeV.Dict.Syll.
Module SS := RimeV.Dict.SyllSpec.
Module SB := RimeV.Dict.SyllBase.
Module SP := RimeV.Dict.SyllProofs.

Section GraphSide.
(* C08 carries a credibility as a symbolic sum (base atom, completion penalties, ambiguity penalties); C07 as a
   number.  Nothing below depends on the valuation. *)
Variable cv : Sy.cred -> Z.

Definition conv_props (pr : Sy.props) : props :=
  mkProps (Sy.p_end pr) (Sy.p_type pr) (cv (Sy.p_cred pr)) false.     (* corrector off: is_correction = false *)

Definition conv_graph (g : Sy.graph) : graph :=
  mkGraph (Sy.g_input_length g) (Sy.g_interpreted_length g)
    (map (fun sev : nat * Sy.evmap =>
            (fst sev, map (fun esm : nat * Sy.smap =>
                             (fst esm, map (fun kp : nat * Sy.props => (fst kp, conv_props (snd kp))) (snd esm)))
                          (snd sev))) (Sy.g_edges g))
    (map (fun six : nat * Sy.sindex =>
            (fst six, map (fun kl : nat * list Sy.props => (fst kl, map conv_props (snd kl))) (snd six)))
         (Sy.g_indices g)).

Lemma transpose_sorted (es : Sy.emap) : SB.nm_sorted (Sy.transpose es).
Proof.
  unfold Sy.transpose. apply fold_left_inv; [apply SB.nm_sorted_nil|].
  intros a x _ S. now apply SB.nm_sorted_set.
Qed.

Lemma transpose_inner_sorted (es : Sy.emap) s idx :
  SB.nm_sorted es -> In (s, idx) (Sy.transpose es) -> SB.nm_sorted idx.
Proof.
  intros S Hin. apply (SB.nm_sorted_In_find _ _ _ (transpose_sorted es)) in Hin.
  rewrite SP.transpose_find in Hin by exact S. destruct (Sy.nm_find s es) as [ev|]; [|discriminate].
  cbn in Hin. injection Hin as <-. apply SP.transpose_start_sorted. apply SB.nm_sorted_nil.
Qed.

Section Built.
Variables (P : Sy.prism) (delims : list Sy.sym) (comp strict : bool) (inp : Sy.str) (g0 : Sy.graph).
Hypothesis WF : SS.prism_wf P delims.
Hypothesis HB : Sy.build_syllable_graph P delims comp strict inp = Some g0.

Lemma built_indices : Sy.g_indices g0 = Sy.transpose (Sy.g_edges g0).
Proof.
  destruct (SP.build_inv _ _ _ _ _ _ WF HB) as [[_ ->]|(_ & st & vsb & esb & good & R)]; [reflexivity|].
  rewrite (SP.r_g _ _ _ _ _ _ _ _ _ _ R). reflexivity.
Qed.

Lemma built_indices_sorted :
  SB.nm_sorted (Sy.g_indices g0) /\ forall s idx, In (s, idx) (Sy.g_indices g0) -> SB.nm_sorted idx.
Proof.
  rewrite built_indices. split; [apply transpose_sorted|].
  intros s idx. apply transpose_inner_sorted. exact (proj1 (SP.thm_graph_sorted _ _ _ _ _ _ WF HB)).
Qed.

Lemma has_edge_conv s x p :
  has_edge (conv_graph g0) s x p <-> exists e pr, SS.edge_at (Sy.g_edges g0) s e x pr /\ p = conv_props pr.
Proof.
  destruct built_indices_sorted as [So Si].
  pose proof (SP.thm_transpose_members _ _ _ _ _ _ WF HB s x) as M.
  unfold has_edge. cbn [conv_graph g_indices]. split.
  - intros (index & pl & Hi & Hx & Hp).
    apply in_map_vals in Hi as [idx0 [Hi ->]]. apply in_map_vals in Hx as [l0 [Hx ->]].
    apply in_map_iff in Hp. destruct Hp as [pr [<- Hp]].
    pose proof (SB.nm_sorted_In_find _ _ _ So Hi) as F1.
    pose proof (SB.nm_sorted_In_find _ _ _ (Si _ _ Hi) Hx) as F2.
    unfold SS.index_at in M. rewrite F1, F2 in M. destruct M as [_ M]. apply M in Hp. destruct Hp as [e He]. eauto.
  - intros (e & pr & He & ->). unfold SS.index_at in M.
    destruct (Sy.nm_find s (Sy.g_indices g0)) as [idx0|] eqn:F1; [|exfalso; exact (M e pr He)].
    destruct (Sy.nm_find x idx0) as [l0|] eqn:F2; [|exfalso; exact (M e pr He)].
    destruct M as [_ M]. apply SB.nm_find_In in F1. apply SB.nm_find_In in F2.
    exists (map (fun kl : nat * list Sy.props => (fst kl, map conv_props (snd kl))) idx0), (map conv_props l0).
    split; [apply in_map_vals; eauto|]. split; [apply in_map_vals; eauto|]. apply in_map. apply M. eauto.
Qed.

Lemma edge_facts s e sid pr :
  SS.edge_at (Sy.g_edges g0) s e sid pr ->
  Sy.p_end pr = e /\ s < e /\ (SS.visited (Sy.g_vertices g0) e \/ e = Sy.g_interpreted_length g0).
Proof.
  intros He. destruct (SP.build_inv _ _ _ _ _ _ WF HB) as [[_ ->]|(_ & st & vsb & esb & good & R)].
  - now apply SP.edge_at_empty in He.
  - destruct (SP.edge_sound _ _ _ _ _ WF _ _ _ _ _ R s e sid pr He) as [E Hk]. split; [exact E|]. split.
    + destruct Hk as [(A & _)|(_ & -> & A & -> & _)]; [exact A|exact A].
    + rewrite (SP.run_edges _ _ _ _ _ _ _ _ _ _ R) in He. apply SP.completion_sound in He.
      destruct He as [He|(_ & _ & Hn & _ & -> & _)].
      * left. apply (SP.esb_edge _ _ _ _ _ _ _ _ _ _ R) in He. destruct He as (_ & _ & Ge & _).
        rewrite (SP.run_vertices _ _ _ _ _ _ _ _ _ _ R). exact (SP.good_retained _ _ _ _ _ _ _ _ _ _ R e Ge).
      * right. rewrite (SP.run_interp _ _ _ _ _ _ _ _ _ _ R). now rewrite Hn.
Qed.

Lemma sgpath_conv a b : SS.gpath g0 a b -> a <= b /\ reaches (conv_graph g0) a b.
Proof.
  induction 1 as [a|a b c (sid & pr & He) _ _ [IH1 IH2]].
  - split; [lia|]. exists []. constructor.
  - destruct (edge_facts a b sid pr He) as (E & L & _). split; [lia|].
    destruct IH2 as [code Hc]. exists (sid :: code).
    apply (gp_cons (conv_graph g0) a sid (conv_props pr)); [apply has_edge_conv; eauto|].
    cbn [conv_props p_end]. rewrite E. exact Hc.
Qed.

Lemma edge_end_reaches s e sid pr :
  SS.edge_at (Sy.g_edges g0) s e sid pr ->
  e <= Sy.g_interpreted_length g0 /\ reaches (conv_graph g0) e (Sy.g_interpreted_length g0).
Proof.
  intros He. destruct (edge_facts s e sid pr He) as (_ & _ & [[t Hv]| ->]).
  - destruct (SP.thm_vertex_on_path _ _ _ _ _ _ WF HB e t Hv) as [_ Hp]. now apply sgpath_conv.
  - split; [lia|]. exists []. constructor.
Qed.

Theorem built_graph_wf : wf_graph (conv_graph g0).
Proof.
  destruct built_indices_sorted as [So Si]. constructor.
  - cbn [conv_graph g_indices]. rewrite map_map. cbn [fst]. exact (keys_sorted_nodup _ So).
  - intros s index Hi. cbn [conv_graph g_indices] in Hi. apply in_map_vals in Hi as [idx0 [Hi ->]].
    rewrite map_map. cbn [fst]. exact (keys_sorted_nodup _ (Si _ _ Hi)).
  - intros s x p He. apply has_edge_conv in He. destruct He as (e & pr & He & ->).
    destruct (edge_facts s e x pr He) as (E & L & _). destruct (edge_end_reaches s e x pr He) as [L2 _].
    cbn [conv_props p_end conv_graph g_ilen]. rewrite E. lia.
Qed.

Theorem built_graph_pruned : graph_pruned (conv_graph g0).
Proof.
  intros s x p He. apply has_edge_conv in He. destruct He as (e & pr & He & ->).
  destruct (edge_facts s e x pr He) as (E & _). destruct (edge_end_reaches s e x pr He) as [_ R].
  cbn [conv_props p_end conv_graph g_ilen]. rewrite E. exact R.
Qed.

Inductive epath : nat -> code -> nat -> Prop :=
| ep_nil : forall s, epath s [] s
| ep_cons : forall s e sid pr rest e',
    SS.edge_at (Sy.g_edges g0) s e sid pr -> epath e rest e' -> epath s (sid :: rest) e'.

Lemma gpath_epath s c e : gpath (conv_graph g0) s c e <-> epath s c e.
Proof.
  split.
  - induction 1 as [s|s x p rest e He Hr IH]; [constructor|].
    apply has_edge_conv in He. destruct He as (e1 & pr & He & ->).
    destruct (edge_facts s e1 x pr He) as (E & _). cbn [conv_props p_end] in IH. rewrite E in IH.
    econstructor; eassumption.
  - induction 1 as [s|s e sid pr rest e' He Hr IH]; [constructor|].
    destruct (edge_facts s e sid pr He) as (E & _).
    apply (gp_cons (conv_graph g0) s sid (conv_props pr)); [apply has_edge_conv; eauto|].
    cbn [conv_props p_end]. now rewrite E.
Qed.

(** every tiling of the tilable prefix by normal spellings is a path: a prefix of such a tiling is a code-labelled
    path from 0 (C08_normal_tilings_complete, transported) *)
Lemma normal_tiling_epath a b l :
  Forall (fun x : nat * nat * Sy.desc =>
            exists pr, SS.edge_at (Sy.g_edges g0) (fst (fst x)) (snd (fst x)) (Sy.d_sid (snd x)) pr) l ->
  SS.tiling P delims strict inp a b l ->
  epath a (map (fun x : nat * nat * Sy.desc => Sy.d_sid (snd x)) l) b.
Proof.
  intros F T. induction T as [a|a b c d l Tl Tr IH]; [constructor|].
  inversion F as [|? ? [pr Hpr] F']; subst. cbn [fst snd map] in *.
  econstructor; [exact Hpr|]. now apply IH.
Qed.

Lemma tiling_split a c l1 l2 :
  SS.tiling P delims strict inp a c (l1 ++ l2) ->
  exists b, SS.tiling P delims strict inp a b l1 /\ SS.tiling P delims strict inp b c l2.
Proof.
  revert a. induction l1 as [|x l1 IH]; intros a T; cbn [app] in T.
  - exists a. split; [constructor|exact T].
  - inversion T as [|? b ? d l Tl Tr]; subst. destruct (IH b Tr) as [m [T1 T2]].
    exists m. split; [constructor; assumption|exact T2].
Qed.

(** * end to end over C08: the script translator on the graph BuildSyllableGraph hands over *)

(** the phrase candidates are exactly the table entries whose code labels a chain of retained edges from 0 (for
    codes longer than three syllables: to the farthest end the extra code reaches); their range lies on a complete
    segmentation of the interpreted input *)
Theorem script_candidates_exact_over_built_graph t e c txt :
  wf_table t -> 0 < Sy.g_interpreted_length g0 ->
  (In (mkCand TPhrase 0 e txt c) (script_phrases (lookup (conv_graph g0) t 0 false)) <->
   (exists w, table_has t c (mkTE txt w) /\ spelled (conv_graph g0) c 0 e)) /\
  (In (mkCand TPhrase 0 e txt c) (script_phrases (lookup (conv_graph g0) t 0 false)) ->
   epath 0 c e /\ on_complete_segmentation (conv_graph g0) e).
Proof.
  intros WT Hl. pose proof built_graph_wf as W. pose proof built_graph_pruned as Pr.
  assert (X := script_candidates_exact (conv_graph g0) t e c txt W WT Hl). split; [exact X|].
  intros Hin. apply X in Hin. destruct Hin as [w [Hth Hsp]]. apply spelled_gpath in Hsp.
  split; [now apply gpath_epath|]. apply (spelled_on_complete_segmentation _ c e Pr); [|exact Hsp].
  destruct Hth as [[L _]|[L _]]; destruct c; cbn in L; try lia; discriminate.
Qed.

(** every table entry whose code is the syllable sequence of a prefix of a complete segmentation of the tilable
    prefix by normal spellings is among the candidates (C08_normal_tilings_complete + C07_script_contains_every_entry) *)
Theorem script_contains_entries_on_normal_segmentations
        (poet : wgraph -> nat -> option sentence) wordcompl mh t far l1 l2 te :
  wf_table t -> Sy.forward_farthest P delims strict inp = Some far ->
  SS.tiling P delims strict inp 0 far (l1 ++ l2) ->
  Forall (fun x : nat * nat * Sy.desc => Sy.d_type (snd x) = Sy.kNormalSpelling) (l1 ++ l2) -> l1 <> [] ->
  table_has t (map (fun x : nat * nat * Sy.desc => Sy.d_sid (snd x)) l1) te ->
  exists k, In k (script_query poet wordcompl mh (conv_graph g0) t) /\ k_text k = te_text te.
Proof.
  intros WT Hf T N NE Hth. pose proof built_graph_wf as W.
  pose proof (SP.thm_normal_tilings _ _ _ _ _ _ _ _ WF HB Hf T N) as E.
  destruct (tiling_split 0 far l1 l2 T) as [b [T1 _]].
  assert (E1 : Forall (fun x : nat * nat * Sy.desc =>
                         exists pr, SS.edge_at (Sy.g_edges g0) (fst (fst x)) (snd (fst x)) (Sy.d_sid (snd x)) pr) l1).
  { apply Forall_app in E. destruct E as [E _]. eapply Forall_impl; [|exact E]. intros x [pr [H _]]. eauto. }
  pose proof (normal_tiling_epath 0 b l1 E1 T1) as Hp. apply gpath_epath in Hp.
  assert (Hc : map (fun x : nat * nat * Sy.desc => Sy.d_sid (snd x)) l1 <> []) by (destruct l1; [congruence|discriminate]).
  assert (Hl : 0 < g_ilen (conv_graph g0)).
  { pose proof (gpath_lt _ _ _ _ W Hc Hp). pose proof (gpath_end_le _ _ _ _ W Hc Hp). lia. }
  eapply script_contains_every_entry; eassumption.
Qed.

End Built.
End GraphSide.
