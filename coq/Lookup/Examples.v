(** C07 - non-vacuity: a concrete graph and table that meet the hypotheses of the theorems, and what the
    model computes on them (codes of 1, 2, 4 and 5 syllables, the tail page, two entries under one code). *)
From Coq Require Import List Arith ZArith NArith Bool Lia.
From RimeV Require Import Lookup.Defs Lookup.Model Lookup.Spec Lookup.MapProofs Lookup.QueryProofs Lookup.IterProofs
     Lookup.LookupProofs Lookup.ScriptProofs Lookup.Checks.
Import ListNotations.

(* the input "aaaaa" under the syllabary {a}: a chain of five edges labelled with syllable 0 *)
Definition pr (e : nat) : props := mkProps e 0 0%Z false.
Definition ex_g : graph :=
  mkGraph 5 5
    [(0, [(1, [(0, pr 1)])]); (1, [(2, [(0, pr 2)])]); (2, [(3, [(0, pr 3)])]); (3, [(4, [(0, pr 4)])]); (4, [(5, [(0, pr 5)])])]
    [(0, [(0, [pr 1])]); (1, [(0, [pr 2])]); (2, [(0, [pr 3])]); (3, [(0, [pr 4])]); (4, [(0, [pr 5])])].

(* a : X 5, Y 3    a a : XX 4    a a a a : W 2    a a a a a : Z 7   (tail page under a a a, sorted by weight) *)
Definition tX := mkTE [88%N] 5%Z.
Definition tY := mkTE [89%N] 3%Z.
Definition tXX := mkTE [88%N; 88%N] 4%Z.
Definition tZ := mkTE [90%N] 7%Z.
Definition tW := mkTE [87%N] 2%Z.
Definition ex_t : table :=
  [mkNode [0] [tX; tY] true []; mkNode [0; 0] [tXX] true []; mkNode [0; 0; 0] [] true [mkLE [0; 0] tZ; mkLE [0] tW]].

Lemma ex_has_edge s x p : has_edge ex_g s x p <-> x = 0 /\ s < 5 /\ p = pr (S s).
Proof.
  unfold has_edge. split.
  - intros [index [pl [Hi [Hx Hp]]]]. cbn in Hi.
    repeat (destruct Hi as [Hi|Hi]; [injection Hi as <- <-; destruct Hx as [Hx|[]]; injection Hx as <- <-;
                                     destruct Hp as [<-|[]]; repeat split; lia|]). destruct Hi.
  - intros [-> [Hs ->]]. exists [(0, [pr (S s)])], [pr (S s)].
    split; [|split; now left]. cbn.
    destruct s as [|[|[|[|[|s]]]]]; [now left|right; now left|right; right; now left|right; right; right; now left|
                                     right; right; right; right; now left|lia].
Qed.

Lemma ex_g_wf : wf_graph ex_g.
Proof.
  constructor.
  - cbn. repeat (constructor; [cbn; intuition lia|]). constructor.
  - intros s index Hi. cbn in Hi.
    repeat (destruct Hi as [Hi|Hi]; [injection Hi as <- <-; cbn; repeat constructor; intros []|]). destruct Hi.
  - intros s x p He. apply ex_has_edge in He. destruct He as [-> [Hs ->]]. cbn. lia.
Qed.

Lemma ex_g_pruned : graph_pruned ex_g.
Proof.
  intros s x p He. apply ex_has_edge in He. destruct He as [-> [Hs ->]]. cbn [p_end pr g_ilen ex_g].
  assert (G : forall k e, e + k = 5 -> gpath ex_g e (repeat 0 k) 5).
  { induction k as [|k IH]; intros e E; cbn.
    - assert (e = 5) by lia. subst. constructor.
    - apply (gp_cons ex_g e 0 (pr (S e))); [apply ex_has_edge; repeat split; lia|]. apply IH. cbn. lia. }
  exists (repeat 0 (5 - S s)). apply G. lia.
Qed.

Lemma ex_node_cases c n : find_node ex_t c = Some n -> c = [0] \/ c = [0; 0] \/ c = [0; 0; 0].
Proof.
  intros H. apply find_node_spec in H. destruct H as [Hin E]. subst c. cbn in Hin.
  destruct Hin as [E|[E|[E|[]]]]; subst n; cbn; auto.
Qed.

Lemma ex_t_wf : wf_table ex_t.
Proof.
  assert (C : forall c, (node_ents ex_t c <> [] \/ node_tail ex_t c <> [] ) -> c = [0] \/ c = [0; 0] \/ c = [0; 0; 0]).
  { intros c H. unfold node_ents, node_tail in H. destruct (find_node ex_t c) as [n|] eqn:E; [eapply ex_node_cases; exact E|].
    destruct H as [H|H]; congruence. }
  constructor.
  - intros c c' H [r [Nr E]] Nc. apply C in H. destruct c' as [|a c']; [congruence|]. destruct r as [|b r]; [congruence|].
    destruct H as [-> | [-> | ->]].
    + destruct c'; discriminate.
    + destruct c' as [|a2 c']; [|destruct c'; discriminate]. injection E as <- _. reflexivity.
    + destruct c' as [|a2 c']; [injection E as <- _; reflexivity|].
      destruct c' as [|a3 c']; [injection E as <- <- _; reflexivity|]. destruct c'; discriminate.
  - intros c H. destruct (C c (or_intror H)) as [-> | [-> | ->]]; cbn in *; congruence.
  - intros c H. destruct (C c (or_intror H)) as [-> | [-> | ->]]; cbn in *; congruence.
  - intros c le H. assert (N : node_tail ex_t c <> []) by (intros E; rewrite E in H; destruct H).
    destruct (C c (or_intror N)) as [-> | [-> | ->]]; cbn in H; try contradiction.
    destruct H as [<-|[<-|[]]]; cbn; discriminate.
Qed.

Lemma ex_t_sorted : table_sorted ex_t.
Proof. now apply table_sorted_b_ok. Qed.

(** what Table::Query returns from position 0 (end position, index code) *)
Example ex_query :
  map (fun ea => (fst ea, match snd ea with AccShort ic _ _ => ic | AccLong ic _ _ => ic end)) (query ex_g ex_t 0)
  = [(1, [0]); (2, [0; 0]); (3, [0; 0; 0])].
Proof. reflexivity. Qed.

(** the phrase candidates, longest first; X before Y (weights 5, 3) *)
Example ex_script_phrases :
  map (fun c => (k_end c, k_text c, k_code c)) (script_phrases (lookup ex_g ex_t 0 false))
  = [(5, [90%N], [0; 0; 0; 0; 0]); (4, [87%N], [0; 0; 0; 0]); (2, [88%N; 88%N], [0; 0]); (1, [88%N], [0]); (1, [89%N], [0])].
Proof. reflexivity. Qed.

(** on the input "aaaa" (interpreted length 4) with word completion: Z (5 syllables) is offered as a completion *)
Definition ex_g4 : graph :=
  mkGraph 4 4
    [(0, [(1, [(0, pr 1)])]); (1, [(2, [(0, pr 2)])]); (2, [(3, [(0, pr 3)])]); (3, [(4, [(0, pr 4)])])]
    [(0, [(0, [pr 1])]); (1, [(0, [pr 2])]); (2, [(0, [pr 3])]); (3, [(0, [pr 4])])].

Example ex_script_completion :
  map (fun c => (k_type c, k_end c, k_text c)) (script_phrases (lookup ex_g4 ex_t 0 true))
  = [(TPhrase, 4, [87%N]); (TCompletion, 4, [90%N]); (TPhrase, 2, [88%N; 88%N]); (TPhrase, 1, [88%N]); (TPhrase, 1, [89%N])].
Proof. reflexivity. Qed.

Theorem example_meets_hypotheses :
  wf_graph ex_g /\ graph_pruned ex_g /\ wf_table ex_t /\ table_sorted ex_t /\ 0 < g_ilen ex_g /\
  table_has ex_t [0; 0; 0; 0; 0] tZ /\ spelled ex_g [0; 0; 0; 0; 0] 0 5 /\
  In (mkCand TPhrase 0 5 [90%N] [0; 0; 0; 0; 0]) (script_phrases (lookup ex_g ex_t 0 false)).
Proof.
  split; [exact ex_g_wf|]. split; [exact ex_g_pruned|]. split; [exact ex_t_wf|]. split; [exact ex_t_sorted|].
  split; [cbn; lia|].
  assert (In (mkCand TPhrase 0 5 [90%N] [0; 0; 0; 0; 0]) (script_phrases (lookup ex_g ex_t 0 false))) as Hin
      by (vm_compute; now left).
  pose proof (proj1 (script_candidates_exact ex_g ex_t 5 [0;0;0;0;0] [90%N] ex_g_wf ex_t_wf ltac:(cbn; lia)) Hin) as [w [Hth Hsp]].
  split; [right; split; [cbn; lia|]; cbn; now left|]. split; [exact Hsp|exact Hin].
Qed.
