(** C07 - weight order.  Inside one end position and exactness class the phrase stream is in non-increasing weight +
    credibility order.  "Entries with the same code appear in non-increasing weight order" is false of the
    undeduplicated stream (two paths to one code with different credibilities) and true of the candidate list
    DistinctTranslation leaves. *)
From Coq Require Import List Arith ZArith NArith Bool Lia Sorted.
From RimeV Require Import Lookup.Defs Lookup.Model Lookup.Spec Lookup.MapProofs Lookup.QueryProofs Lookup.IterProofs
     Lookup.LookupProofs Lookup.ScriptProofs Lookup.Checks.
Import ListNotations.

Lemma sorted_before {A} (R : A -> A -> Prop) l1 a l2 b l3 :
  StronglySorted R (l1 ++ a :: l2 ++ b :: l3) -> R a b.
Proof.
  intros S. apply (sorted_app_inv R (l1 ++ [a]) (l2 ++ b :: l3)); [now rewrite <- app_assoc| |]; apply in_or_app; right; now left.
Qed.

Lemma script_entries_remlen g t start predict e d :
  wf_graph g -> In (e, d) (script_phrase_entries (lookup g t start predict)) -> d_remlen d = 0.
Proof.
  intros W Hin. apply script_phrase_entries_in in Hin; [|exact W]. destruct Hin as [ch [te [Hc [_ ->]]]].
  exact (cs_remlen (lookup_chunks_sound g t start predict e ch W Hc)).
Qed.

Theorem script_same_end_weight_order g t start predict l1 a l2 b l3 :
  wf_graph g -> table_sorted t ->
  script_phrase_entries (lookup g t start predict) = l1 ++ a :: l2 ++ b :: l3 ->
  fst a = fst b -> (d_match (snd a) =? 0) = (d_match (snd b) =? 0) ->
  (d_w (snd b) <= d_w (snd a))%Z.
Proof.
  intros W TS E Hend Hclass.
  pose proof (script_phrase_entries_sorted g t start predict W TS) as S. rewrite E in S.
  apply sorted_before in S. destruct S as [S|[_ S]]; [lia|].
  assert (R : forall x, In x (l1 ++ a :: l2 ++ b :: l3) -> d_remlen (snd x) = 0).
  { intros [e d]. rewrite <- E. apply script_entries_remlen, W. }
  assert (Ra : d_remlen (snd a) = 0) by apply R, in_elt.
  assert (Rb : d_remlen (snd b) = 0) by (apply R; rewrite app_comm_cons, app_assoc; apply in_elt).
  apply dle_same_class; [exact S|exact Hclass|congruence].
Qed.

(** * DistinctTranslation on the entry stream *)
Fixpoint distinct_pe (seen : list text) (l : list (nat * dentry)) : list (nat * dentry) :=
  match l with
  | [] => []
  | x :: r => if text_mem (d_text (snd x)) seen then distinct_pe seen r
              else x :: distinct_pe (d_text (snd x) :: seen) r
  end.

Lemma distinct_map seen l : distinct seen (map phrase_cand l) = map phrase_cand (distinct_pe seen l).
Proof.
  revert seen. induction l as [|x r IH]; intros seen; [reflexivity|]. cbn [map distinct distinct_pe].
  unfold phrase_cand at 1 2. cbn [k_text]. destruct (text_mem (d_text (snd x)) seen); [apply IH|].
  cbn [map]. f_equal. apply IH.
Qed.

Lemma distinct_pe_not_seen seen l x : In x (distinct_pe seen l) -> text_mem (d_text (snd x)) seen = false.
Proof.
  revert seen. induction l as [|u l IH]; intros seen Hx; [destruct Hx|]. cbn [distinct_pe] in Hx.
  destruct (text_mem (d_text (snd u)) seen) eqn:Mu; [now apply IH|].
  destruct Hx as [<-|Hx]; [exact Mu|]. apply IH in Hx. cbn [text_mem] in Hx. apply orb_false_iff in Hx. tauto.
Qed.

(** in the deduplicated image of a sorted stream, an element [a] that stands before [b] is related to every element
    of the stream that has [b]'s text: [b] is the first of its text, so none of them stands before [a] *)
Lemma distinct_pe_order (R : nat * dentry -> nat * dentry -> Prop) seen S l1 a l2 b l3 b' :
  StronglySorted R S -> distinct_pe seen S = l1 ++ a :: l2 ++ b :: l3 ->
  In b' S -> d_text (snd b') = d_text (snd b) -> R a b'.
Proof.
  intros Sd. revert seen l1. induction Sd as [|z r Sd IH F]; intros seen l1 E Hb' Et; [destruct Hb'|].
  assert (Hb : forall s, In b (distinct_pe s r) -> text_mem (d_text (snd b)) s = false) by (intros s; apply distinct_pe_not_seen).
  assert (Hin : forall q, In b (q ++ b :: l3)) by (intros q; apply in_or_app; right; now left).
  cbn [distinct_pe] in E. destruct (text_mem (d_text (snd z)) seen) eqn:M.
  - destruct Hb' as [<-|Hb']; [|now apply (IH seen l1)].
    rewrite Et, Hb in M; [discriminate|]. rewrite E, app_comm_cons, app_assoc. apply Hin.
  - assert (N : text_mem (d_text (snd b)) (d_text (snd z) :: seen) = false).
    { apply Hb. destruct l1 as [|p l1]; injection E as _ ->; [|rewrite app_comm_cons, app_assoc]; apply Hin. }
    assert (Hr : In b' r).
    { destruct Hb' as [<-|Hb']; [exfalso|exact Hb']. cbn [text_mem] in N.
      rewrite <- Et, (proj2 (text_eqb_eq _ _) eq_refl) in N. discriminate. }
    destruct l1 as [|p l1]; injection E as <- E; [|exact (IH _ l1 E Hr Et)].
    rewrite Forall_forall in F. now apply F.
Qed.

(** * every chunk of one code offers the same entries: an entry found in a chunk [cb] of the code (at whatever end
    position) is also in a chunk at [ca]'s end position with [ca]'s credibility, match size and remaining length *)
Lemma chunk_sibling g t predict e e2 ca cb tb :
  wf_graph g -> wf_table t -> 0 < g_ilen g ->
  In (e, ca) (lookup_chunks g t 0 predict) -> In (e2, cb) (lookup_chunks g t 0 predict) ->
  c_code cb = c_code ca -> In tb (c_ents cb) ->
  exists cb', In (e, cb') (lookup_chunks g t 0 predict) /\ c_code cb' = c_code ca /\ c_cred cb' = c_cred ca /\
              c_match cb' = c_match ca /\ c_remlen cb' = c_remlen ca /\ In tb (c_ents cb').
Proof.
  intros W WT Hs Ha Hb Ec Htb.
  (* tb is a table entry of ca's code; where it sits is decided by the shape of ca alone *)
  pose proof (cs_has (lookup_chunks_sound g t 0 predict e2 cb W Hb) WT tb Htb) as Hth. rewrite Ec in Hth.
  pose proof Ha as Ha0. apply lookup_chunks_spec in Ha; [|exact W|exact Hs].
  destruct Ha as [ic pos cred x p Wp L He NE|ic e0 cred le d e Wp L Hi Hle EM]; cbn [c_code] in Hth.
  - (* an index code: the entries of its node *)
    apply table_has_short in Hth; [|rewrite app_length; cbn; lia].
    eexists. split; [exact Ha0|]. cbn. auto.
  - (* a longer code: tb's long entry stands on the same tail page under the same extra code *)
    apply table_has_long in Hth; [|exact L|exact (wf_tail_extra t WT ic le Hle)].
    exists (mkChunk (ic ++ le_extra le) [tb] 0 (length ic + d) cred). split; [|cbn; auto 6].
    apply lookup_chunks_spec; [exact W|exact Hs|].
    exact (chunk_long g t 0 predict ic e0 cred (mkLE (le_extra le) tb) d e Wp L Hi Hth EM).
Qed.

(** the FULL wording of the property - "entries with the same code appear in non-increasing weight order" - for the
    candidate list: no restriction to one end position or one exactness class.  A heavier entry of the code also sits
    in a chunk with [a]'s end position, credibility and class ([chunk_sibling]), i.e. in front of [a]; being the first
    of its text, [b] cannot come after it. *)
Theorem script_distinct_same_code_weight_order_full g t predict seen l1 a l2 b l3 ca ta cb tb :
  wf_graph g -> wf_table t -> table_sorted t -> 0 < g_ilen g ->
  distinct_pe seen (script_phrase_entries (lookup g t 0 predict)) = l1 ++ a :: l2 ++ b :: l3 ->
  In (fst a, ca) (lookup_chunks g t 0 predict) -> In ta (c_ents ca) -> snd a = mk_dentry ca ta ->
  In (fst b, cb) (lookup_chunks g t 0 predict) -> In tb (c_ents cb) -> snd b = mk_dentry cb tb ->
  c_code ca = c_code cb ->
  (te_w tb <= te_w ta)%Z.
Proof.
  intros W WT TS Hs E Hca Hta Ea Hcb Htb Eb Ecode.
  destruct (Z_le_gt_dec (te_w tb) (te_w ta)) as [L|G]; [exact L|exfalso].
  pose proof (script_phrase_entries_sorted g t 0 predict W TS) as Sorted.
  (* b's entry also sits in a chunk with a's end position and credibility: that copy b' would outrank a *)
  destruct (chunk_sibling g t predict (fst a) (fst b) ca cb tb W WT Hs Hca Hcb (eq_sym Ecode) Htb)
    as (cb' & Hcb' & Ec' & Ecr' & Em' & Er' & Htb').
  set (b' := (fst a, mk_dentry cb' tb)).
  assert (Hb' : In b' (script_phrase_entries (lookup g t 0 predict))) by (apply script_phrase_entries_in; eauto).
  (* in the sorted stream b' stands behind a: it has the text of b, which is the first of its text *)
  destruct (distinct_pe_order pe_le seen _ l1 a l2 b l3 b' Sorted E Hb') as [Hlt|[_ Hdle]];
    [unfold b'; cbn [snd]; now rewrite Eb|cbn in Hlt; lia|].
  (* same end position: best head first compares weight + credibility *)
  cbn [snd b'] in Hdle. rewrite Ea in Hdle.
  assert (OKa : chunk_ok ca) by (eapply lookup_chunks_ok; eassumption).
  assert (OKb : chunk_ok cb') by (eapply lookup_chunks_ok; eassumption).
  unfold dle in Hdle. rewrite (dkey_mk ca ta (proj2 (proj2 OKa))), (dkey_mk cb' tb (proj2 (proj2 OKb))) in Hdle.
  unfold kle, klt, ekey, is_exact in Hdle. rewrite Ec', Ecr', Em', Er' in Hdle.
  destruct (c_match ca =? length (c_code ca)); lia.
Qed.

Corollary script_distinct_same_code_weight_order g t predict seen l1 a l2 b l3 ca ta cb tb :
  wf_graph g -> wf_table t -> table_sorted t -> 0 < g_ilen g ->
  distinct_pe seen (script_phrase_entries (lookup g t 0 predict)) = l1 ++ a :: l2 ++ b :: l3 ->
  fst a = fst b ->
  In (fst a, ca) (lookup_chunks g t 0 predict) -> In ta (c_ents ca) -> snd a = mk_dentry ca ta ->
  In (fst b, cb) (lookup_chunks g t 0 predict) -> In tb (c_ents cb) -> snd b = mk_dentry cb tb ->
  c_code ca = c_code cb -> (c_match ca <? length (c_code ca)) = (c_match cb <? length (c_code cb)) ->
  (te_w tb <= te_w ta)%Z.
Proof. intros W WT TS Hs E _ Hca Hta Ea Hcb Htb Eb Ecode _. eapply script_distinct_same_code_weight_order_full; eassumption. Qed.

(** * the undeduplicated stream: the statement is false (two paths to one code with different credibilities) *)
Definition wp (e : nat) (c : Z) : props := mkProps e 0 c false.
Definition w_g : graph :=
  mkGraph 3 3
    [(0, [(1, [(0, wp 1 0)]); (2, [(0, wp 2 (-10))])]); (1, [(3, [(1, wp 3 0)])]); (2, [(3, [(1, wp 3 0)])])]
    [(0, [(0, [wp 2 (-10); wp 1 0])]); (1, [(1, [wp 3 0])]); (2, [(1, [wp 3 0])])].
Definition w_A := mkTE [65%N] 5%Z.
Definition w_B := mkTE [66%N] 3%Z.
Definition w_t : table := [mkNode [0] [] true []; mkNode [0; 1] [w_A; w_B] false []].

Lemma w_g_wf : wf_graph w_g.
Proof.
  constructor.
  - cbn. repeat (constructor; [cbn; intuition lia|]). constructor.
  - intros s index Hi. cbn in Hi.
    repeat (destruct Hi as [Hi|Hi]; [injection Hi as <- <-; cbn; repeat constructor; intros []|]). destruct Hi.
  - intros s x p (index & pl & Hi & Hx & Hp). cbn in Hi.
    repeat (destruct Hi as [Hi|Hi]; [injection Hi as <- <-; destruct Hx as [Hx|[]]; injection Hx as <- <-;
                                     cbn in Hp; intuition (subst; cbn; lia)|]). destruct Hi.
Qed.

Lemma w_t_sorted : table_sorted w_t.
Proof. now apply table_sorted_b_ok. Qed.

Example w_raw_stream :
  map (fun ed => (fst ed, d_text (snd ed), d_w (snd ed))) (script_phrase_entries (lookup w_g w_t 0 false))
  = [(3, [65%N], 5%Z); (3, [66%N], 3%Z); (3, [65%N], (-5)%Z); (3, [66%N], (-7)%Z)].
Proof. reflexivity. Qed.

Definition raw_stream_weight_order : Prop := forall g t start predict l1 a l2 b l3 (wa wb : Z),
  wf_graph g -> table_sorted t ->
  script_phrase_entries (lookup g t start predict) = l1 ++ a :: l2 ++ b :: l3 ->
  fst a = fst b -> d_code (snd a) = d_code (snd b) ->
  table_has t (d_code (snd a)) (mkTE (d_text (snd a)) wa) -> table_has t (d_code (snd b)) (mkTE (d_text (snd b)) wb) ->
  (wb <= wa)%Z.

Theorem raw_stream_weight_order_refuted : ~ raw_stream_weight_order.
Proof.
  intros H.
  set (S := script_phrase_entries (lookup w_g w_t 0 false)).
  assert (E : exists a b x y, S = [x] ++ a :: [] ++ b :: [y] /\ fst a = fst b /\ d_code (snd a) = [0; 1] /\
                              d_code (snd b) = [0; 1] /\ d_text (snd a) = [66%N] /\ d_text (snd b) = [65%N]).
  { vm_compute. do 4 eexists. split; [reflexivity|]. repeat split. }
  destruct E as (a & b & x & y & ES & E1 & E2 & E3 & E4 & E5).
  specialize (H w_g w_t 0 false [x] a [] b [y] 3%Z 5%Z w_g_wf w_t_sorted ES E1 ltac:(congruence)).
  rewrite E2, E3, E4, E5 in H.
  assert (5 <= 3)%Z; [|lia]. apply H; left; (split; [cbn; lia|]); cbn; auto.
Qed.

(** the same instance after DistinctTranslation: A (5), B (3) *)
Example w_distinct_stream :
  map (fun ed => (d_text (snd ed), d_w (snd ed))) (distinct_pe [] (script_phrase_entries (lookup w_g w_t 0 false)))
  = [([65%N], 5%Z); ([66%N], 3%Z)].
Proof. reflexivity. Qed.

(** * ScriptTranslator::Query = (the sentence, if any) followed by the deduplicated phrase stream *)
Theorem script_query_shape (poet : wgraph -> nat -> option sentence) wordcompl mh g t :
  let predict := wordcompl && (g_ilen g =? g_input_len g) in
  exists sent seen, (sent = [] \/ exists s, sent = [sentence_cand s]) /\
    script_query poet wordcompl mh g t =
    sent ++ map phrase_cand (distinct_pe seen (script_phrase_entries (lookup g t 0 predict))).
Proof.
  intros predict. destruct (script_query_parts poet wordcompl mh g t) as (sent & Hsent & ->). fold predict.
  unfold script_phrases. destruct Hsent as [->|(s & _ & ->)].
  - exists [], []. split; [now left|]. apply distinct_map.
  - exists [sentence_cand s], [k_text (sentence_cand s)]. split; [eauto|]. cbn [app distinct text_mem]. f_equal. apply distinct_map.
Qed.
