(** C07 - composition with C09 (Dict/PrismModel.v): the prism input of the table translator.

    The lookup model takes, for one query string, the prism's keys in Prism::ExpandSearch order with their spellings.
    [prism_at p q] builds that input from C09's built prism [p]; the lemmas below show that what the model reads from
    it is what C09's ExpandSearch / GetValue / QuerySpelling return (C09_expand_exact, C09_expand_members,
    C09_exact_match): the model's [expand_search] with any limit, the match lengths, and [exact_key]. *)
From Coq Require Import List Arith ZArith NArith Bool Lia.
From Coq.Strings Require Import Byte.
From RimeV Require Base.Bytes Dict.Algebra Dict.PrismModel Dict.PrismProofs.
From RimeV Require Import Lookup.Defs Lookup.Model Lookup.ScriptProofs Lookup.TableProofs Lookup.ComposeTable.
Import ListNotations.

Module PM := RimeV.Dict.PrismModel.
Module PP := RimeV.Dict.PrismProofs.
Module Al := RimeV.Dict.Algebra.

Section PrismSide.
Variable fcred : Type.
Variable fcast : Z -> fcred.

Definition conv_desc (d : PM.desc fcred) : syll * nat := (PM.d_syll fcred d, PM.d_type fcred d).

Definition spellings_of (p : PM.prism fcred) (v : nat) : list (syll * nat) :=
  map conv_desc (PM.query_spelling fcred fcast p v).

Definition conv_match (p : PM.prism fcred) (m : nat * nat) : text * list (syll * nat) :=
  (conv_text (nth (fst m) (PM.p_keys fcred p) []), spellings_of p (fst m)).

Definition prism_at (p : PM.prism fcred) (q : Base.Bytes.bytes) : prism :=
  map (conv_match p) (PM.expand_search fcred p q 0).

Lemma conv_text_app a b : conv_text (a ++ b) = conv_text a ++ conv_text b.
Proof. apply map_app. Qed.
Lemma conv_text_length a : length (conv_text a) = length a.
Proof. apply map_length. Qed.

Section WithPrism.
Variable p : PM.prism fcred.
Hypothesis WF : PP.wf_prism fcred p.
Hypothesis ND : NoDup (PM.p_keys fcred p).

Lemma match_key q v n :
  In (v, n) (PM.expand_search fcred p q 0) ->
  exists w, nth v (PM.p_keys fcred p) [] = q ++ w /\ n = length (q ++ w).
Proof.
  intros H. apply (PP.expand_members fcred p q v n WF ND) in H. destruct H as [w [Hn ->]].
  exists w. split; [|reflexivity]. now apply nth_error_nth.
Qed.

Lemma prism_at_match q key sps :
  In (key, sps) (prism_at p q) ->
  exists v w, key = conv_text (q ++ w) /\ nth_error (PM.p_keys fcred p) v = Some (q ++ w) /\
              PM.get_value fcred p (q ++ w) = Some v /\ sps = spellings_of p v.
Proof.
  unfold prism_at. intros H. apply in_map_iff in H. destruct H as [[v n] [E Hm]]. unfold conv_match in E. cbn [fst] in E. injection E as <- <-.
  apply (PP.expand_members fcred p q v n WF ND) in Hm. destruct Hm as [w [Hn _]]. exists v, w.
  assert (Ek : nth v (PM.p_keys fcred p) [] = q ++ w) by (now apply nth_error_nth).
  rewrite Ek, PP.get_value_index, (PP.index_of_NoDup _ _ _ ND Hn). auto.
Qed.

(** ExpandSearch with a limit is the unlimited result cut at the limit (C09_expand_exact) *)
Lemma expand_limit q L :
  PM.expand_search fcred p q L =
  if L =? 0 then PM.expand_search fcred p q 0 else firstn L (PM.expand_search fcred p q 0).
Proof.
  unfold PM.expand_search. rewrite !(PP.expand_exact fcred p q _ WF). cbn [fst Nat.eqb]. reflexivity.
Qed.

(** the model's ExpandSearch on [prism_at] = C09's ExpandSearch, for every limit *)
Theorem expand_search_prism_at q L :
  expand_search (prism_at p q) (conv_text q) L = map (conv_match p) (PM.expand_search fcred p q L).
Proof.
  unfold expand_search. rewrite expand_limit.
  assert (Fl : filter (fun ks : text * list (syll * nat) => is_prefix (conv_text q) (fst ks)) (prism_at p q) = prism_at p q).
  { unfold prism_at. generalize (match_key q). generalize (PM.expand_search fcred p q 0). intros l Hl.
    induction l as [|[v n] l IH]; [reflexivity|]. cbn [map filter].
    destruct (Hl v n (or_introl eq_refl)) as [w [Hk _]]. unfold conv_match at 1. cbn [fst]. rewrite Hk, conv_text_app.
    assert (Ep : is_prefix (conv_text q) (conv_text q ++ conv_text w) = true) by (apply is_prefix_spec; eauto).
    rewrite Ep.
    f_equal. apply IH. intros v' n' H'. apply Hl. now right. }
  rewrite Fl. unfold prism_at. destruct (L =? 0); [reflexivity|]. now rewrite firstn_map.
Qed.

Lemma match_length q m : In m (PM.expand_search fcred p q 0) -> length (fst (conv_match p m)) = snd m.
Proof.
  destruct m as [v n]. intros H. destruct (match_key q v n H) as [w [Hk ->]].
  unfold conv_match. cbn [fst snd]. now rewrite Hk, conv_text_length.
Qed.

Lemma exact_key_none l k : Forall (fun ks : text * list (syll * nat) => length (fst ks) <> length k) l -> exact_key l k = None.
Proof.
  induction 1 as [|ks l H _ IH]; [reflexivity|]. cbn [exact_key].
  destruct (text_eqb (fst ks) k) eqn:E; [apply text_eqb_eq in E; congruence|exact IH].
Qed.

(** the model's GetValue on [prism_at] = C09's GetValue + QuerySpelling *)
Theorem exact_key_prism_at q :
  exact_key (prism_at p q) (conv_text q) = option_map (spellings_of p) (PM.get_value fcred p q).
Proof.
  rewrite PP.get_value_index. unfold prism_at, PM.expand_search. rewrite (PP.expand_exact fcred p q 0 WF).
  cbn [fst Nat.eqb]. unfold PP.expand_spec. rewrite map_app.
  set (tailpart := flat_map _ (seq 1 _)).
  assert (T : Forall (fun ks : text * list (syll * nat) => length (fst ks) <> length (conv_text q)) (map (conv_match p) tailpart)).
  { rewrite Forall_forall. intros ks Hks. apply in_map_iff in Hks. destruct Hks as [[v n] [<- Hm]].
    unfold tailpart in Hm. apply in_flat_map in Hm. destruct Hm as [d [Hd Hm]]. apply in_seq in Hd.
    apply in_flat_map in Hm. destruct Hm as [w [Hw Hm]].
    destruct (PM.index_of (q ++ w) (PM.p_keys fcred p)) as [v'|] eqn:Ei; [|destruct Hm]. destruct Hm as [Hm|[]].
    injection Hm as E1 E2. subst v n. apply PP.index_of_nth in Ei. apply (nth_error_nth _ _ []) in Ei.
    unfold conv_match. cbn [fst].
    rewrite !conv_text_length.
    assert (El : length (nth v' (PM.p_keys fcred p) []) = length q + length w)
      by (rewrite <- app_length; exact (f_equal (@length _) Ei)).
    apply PP.words_length in Hw. intros Heq. rewrite Heq in El. lia. }
  destruct (PM.index_of q (PM.p_keys fcred p)) as [v|] eqn:Ei.
  - cbn [map app exact_key option_map]. apply PP.index_of_nth in Ei. apply (nth_error_nth _ _ []) in Ei.
    assert (Ek : nth v (PM.p_keys fcred p) [] = q) by exact Ei.
    unfold conv_match at 1. cbn [fst snd]. rewrite Ek.
    replace (text_eqb (conv_text q) (conv_text q)) with true by (symmetry; now apply text_eqb_eq). reflexivity.
  - cbn [map app option_map]. now apply exact_key_none.
Qed.

End WithPrism.
End PrismSide.
