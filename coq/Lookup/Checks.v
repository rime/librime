(** C07 - boolean tests for sortedness: to establish [table_sorted] of a concrete table, and to refute
    [StronglySorted] of a concrete list, by evaluation. *)
From Coq Require Import List ZArith Bool Sorted.
From RimeV Require Import Lookup.Defs Lookup.Spec.
Import ListNotations.

Fixpoint sorted_b {A} (leb : A -> A -> bool) (l : list A) : bool :=
  match l with
  | [] => true
  | a :: r => forallb (leb a) r && sorted_b leb r
  end.

Lemma sorted_b_ok {A} (R : A -> A -> Prop) (leb : A -> A -> bool) (l : list A) :
  (forall a b, leb a b = true -> R a b) -> sorted_b leb l = true -> StronglySorted R l.
Proof.
  intros H. induction l as [|a l IH]; cbn [sorted_b]; [constructor|]. rewrite andb_true_iff, forallb_forall.
  intros [F S]. constructor; [now apply IH|]. rewrite Forall_forall. intros b Hb. now apply H, F.
Qed.

Lemma sorted_b_complete {A} (R : A -> A -> Prop) (leb : A -> A -> bool) (l : list A) :
  (forall a b, R a b -> leb a b = true) -> StronglySorted R l -> sorted_b leb l = true.
Proof.
  intros H. induction 1 as [|a l S IH F]; [reflexivity|]. cbn [sorted_b]. rewrite IH, andb_true_r.
  apply forallb_forall. rewrite Forall_forall in F. intros b Hb. now apply H, F.
Qed.

Definition table_sorted_b (t : table) : bool :=
  forallb (fun n => sorted_b (fun a b => (te_w b <=? te_w a)%Z) (n_ents n)) t.

Lemma table_sorted_b_ok t : table_sorted_b t = true -> table_sorted t.
Proof.
  intros H c. unfold node_ents. destruct (find_node t c) as [n|] eqn:E; [|constructor].
  assert (Hn : In n t).
  { induction t as [|m t IH]; [discriminate|]. cbn in E, H. apply andb_true_iff in H.
    destruct (code_eqb (n_code m) c); [injection E as <-; now left|right; now apply IH]. }
  unfold table_sorted_b in H. rewrite forallb_forall in H.
  apply (sorted_b_ok _ _ _ (fun a b => proj1 (Z.leb_le (te_w b) (te_w a)))), H, Hn.
Qed.
