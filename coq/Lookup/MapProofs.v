(** C07 - lemmas on the key-ordered maps ([map_push], [group]) that model std::map<int, vector<V>>. *)
From Coq Require Import List Arith Bool Lia Sorted.
From RimeV Require Import Base.ListX Lookup.Defs.
Import ListNotations.

Definition keys_sorted {A} (m : list (nat * A)) : Prop := StronglySorted lt (map fst m).

Lemma assoc_nat_none_lt {A} (k : nat) (m : list (nat * A)) :
  Forall (fun k' => k < k') (map fst m) -> assoc_nat k m = None.
Proof.
  induction m as [|[k' v] m IH]; intros H; [reflexivity|].
  cbn in H. inversion H; subst. cbn [assoc_nat].
  destruct (k =? k') eqn:E; [apply Nat.eqb_eq in E; lia|]. now apply IH.
Qed.

Lemma assoc_nat_in {A} (k : nat) (v : A) (m : list (nat * A)) :
  assoc_nat k m = Some v -> In (k, v) m.
Proof.
  induction m as [|[k' v'] m IH]; cbn [assoc_nat]; [discriminate|].
  destruct (k =? k') eqn:E.
  - apply Nat.eqb_eq in E. intros H. injection H as ->. subst. now left.
  - intros H. right. now apply IH.
Qed.

Lemma in_assoc_nat_nodup {A} (k : nat) (v : A) (m : list (nat * A)) :
  NoDup (map fst m) -> In (k, v) m -> assoc_nat k m = Some v.
Proof.
  induction m as [|[k' v'] m IH]; intros S H; [destruct H|].
  cbn in S. inversion S as [|? ? N S']; subst. cbn [assoc_nat].
  destruct H as [H|H].
  - injection H as E1 E2. subst. now rewrite Nat.eqb_refl.
  - destruct (k =? k') eqn:E.
    + apply Nat.eqb_eq in E. subst. exfalso. apply N. now apply (in_map fst _ _ H).
    + now apply IH.
Qed.

Lemma assoc_list_in {A} (k : nat) (v : list A) (m : list (nat * list A)) :
  NoDup (map fst m) -> In (k, v) m -> assoc_list k m = v.
Proof. intros N H. unfold assoc_list. now rewrite (in_assoc_nat_nodup k v m N H). Qed.

Lemma in_assoc_list {A} (k : nat) (x : A) (m : list (nat * list A)) :
  In x (assoc_list k m) -> exists v, In (k, v) m /\ In x v.
Proof.
  unfold assoc_list. destruct (assoc_nat k m) as [v|] eqn:E; [|intros []]. exists v. auto using assoc_nat_in.
Qed.

Lemma assoc_nat_none_notin {A} k (m : list (nat * A)) : assoc_nat k m = None -> ~ In k (map fst m).
Proof.
  induction m as [|[k' v] m IH]; cbn [assoc_nat map fst]; [tauto|].
  destruct (k =? k') eqn:E; [discriminate|]. apply Nat.eqb_neq in E. intros H [C|C]; [congruence|]. now apply IH.
Qed.

Lemma assoc_map_fun {A B} (F : nat -> B) (l : list (nat * A)) s :
  In s (map fst l) -> assoc_nat s (map (fun x : nat * A => (fst x, F (fst x))) l) = Some (F s).
Proof.
  induction l as [|[k v] l IH]; [intros []|]. cbn [map fst assoc_nat]. destruct (s =? k) eqn:E.
  - apply Nat.eqb_eq in E. now subst.
  - intros [H|H]; [apply Nat.eqb_neq in E; congruence|now apply IH].
Qed.

Lemma assoc_nat_single {A} k (v : A) q l : assoc_nat q [(k, v)] = Some l -> q = k /\ l = v.
Proof. cbn [assoc_nat]. destruct (q =? k) eqn:E; [|discriminate]. apply Nat.eqb_eq in E. now intros [= <-]. Qed.

Lemma in_map_vals {A B} (f : A -> B) (l : list (nat * A)) k y :
  In (k, y) (map (fun kv => (fst kv, f (snd kv))) l) <-> exists v, In (k, v) l /\ y = f v.
Proof.
  rewrite in_map_iff. split; [intros [[k' v] [E H]]; injection E as -> <-; eauto|intros [v [H ->]]; exists (k, v); auto].
Qed.

Lemma keys_sorted_nodup {A} (m : list (nat * A)) : keys_sorted m -> NoDup (map fst m).
Proof. apply StronglySorted_NoDup, Nat.lt_irrefl. Qed.

Lemma in_assoc_nat_sorted {A} (k : nat) (v : A) (m : list (nat * A)) :
  keys_sorted m -> In (k, v) m -> assoc_nat k m = Some v.
Proof. intros S. apply in_assoc_nat_nodup. now apply keys_sorted_nodup. Qed.

Section Push.
Context {A : Type}.

Lemma map_push_keys (k : nat) (v : A) (m : list (nat * list A)) :
  forall k', In k' (map fst (map_push k v m)) <-> k' = k \/ In k' (map fst m).
Proof.
  induction m as [|[k0 vs] m IH]; intros k'; cbn [map_push].
  - cbn. intuition.
  - destruct (k <? k0) eqn:E1; [cbn; intuition|].
    destruct (k =? k0) eqn:E2.
    + apply Nat.eqb_eq in E2. subst. cbn. intuition.
    + cbn [map fst In]. rewrite IH. intuition.
Qed.

Lemma map_push_sorted (k : nat) (v : A) (m : list (nat * list A)) :
  keys_sorted m -> keys_sorted (map_push k v m).
Proof.
  unfold keys_sorted. induction m as [|[k0 vs] m IH]; intros S; cbn [map_push]; [repeat constructor|].
  cbn in S. inversion S as [|? ? S' F]; subst.
  destruct (Nat.ltb_spec k k0); [|destruct (Nat.eqb_spec k k0)]; cbn.
  - constructor; [exact S|]. constructor; [assumption|]. eapply Forall_impl; [|exact F]. cbn. intros; lia.
  - constructor; assumption.
  - constructor; [now apply IH|]. rewrite Forall_forall. intros k' Hk'. apply map_push_keys in Hk'.
    destruct Hk' as [->|Hk']; [lia|]. rewrite Forall_forall in F. now apply F.
Qed.

Lemma map_push_assoc (k : nat) (v : A) (m : list (nat * list A)) (k' : nat) :
  keys_sorted m ->
  assoc_list k' (map_push k v m) = if k' =? k then assoc_list k' m ++ [v] else assoc_list k' m.
Proof.
  unfold keys_sorted, assoc_list. induction m as [|[k0 vs] m IH]; intros S; cbn [map_push].
  - cbn [assoc_nat]. destruct (k' =? k); reflexivity.
  - cbn in S. inversion S as [|? ? S' F]; subst.
    destruct (Nat.ltb_spec k k0); [|destruct (Nat.eqb_spec k k0)]; cbn [assoc_nat].
    + destruct (Nat.eqb_spec k' k) as [E|]; [rewrite E|reflexivity].
      destruct (Nat.eqb_spec k k0); [lia|]. rewrite assoc_nat_none_lt; [reflexivity|].
      eapply Forall_impl; [|exact F]. cbn; intros; lia.
    + subst k0. destruct (k' =? k); reflexivity.
    + destruct (Nat.eqb_spec k' k0) as [E|]; [|now apply IH]. rewrite E. destruct (Nat.eqb_spec k0 k); [lia|reflexivity].
Qed.

(** [group] pushes the items one after the other: every fact about it is an induction from the right *)
Lemma group_snoc (items : list (nat * A)) (kv : nat * A) :
  group (items ++ [kv]) = map_push (fst kv) (snd kv) (group items).
Proof. unfold group. now rewrite fold_left_app. Qed.

Lemma group_sorted (items : list (nat * A)) : keys_sorted (group items).
Proof.
  induction items as [|kv items IH] using rev_ind; [constructor|]. rewrite group_snoc. now apply map_push_sorted.
Qed.

Lemma group_keys (items : list (nat * A)) (k : nat) :
  In k (map fst (group items)) <-> In k (map fst items).
Proof.
  induction items as [|kv items IH] using rev_ind; [reflexivity|].
  rewrite group_snoc, map_push_keys, IH, map_app, in_app_iff. cbn. intuition.
Qed.

Definition values_at (k : nat) (items : list (nat * A)) : list A := map snd (filter (fun kv => fst kv =? k) items).

Lemma in_values_at (k : nat) (v : A) (items : list (nat * A)) : In v (values_at k items) <-> In (k, v) items.
Proof.
  unfold values_at. rewrite in_map_iff. split.
  - intros [[k' v'] [E H]]. apply filter_In in H. destruct H as [H Ek]. cbn in E, Ek. apply Nat.eqb_eq in Ek. now subst.
  - intros H. exists (k, v). split; [reflexivity|]. apply filter_In. split; [exact H|apply Nat.eqb_refl].
Qed.

Lemma group_assoc (items : list (nat * A)) (k : nat) : assoc_list k (group items) = values_at k items.
Proof.
  unfold values_at. induction items as [|[k0 v] items IH] using rev_ind; [reflexivity|].
  rewrite group_snoc, map_push_assoc by apply group_sorted. rewrite IH, filter_app, map_app. cbn [fst snd filter].
  rewrite (Nat.eqb_sym k0 k). destruct (k =? k0); [reflexivity|symmetry; apply app_nil_r].
Qed.

Lemma group_in_assoc (items : list (nat * A)) (k : nat) (vs : list A) :
  In (k, vs) (group items) -> vs = map snd (filter (fun kv => fst kv =? k) items) /\ vs <> [].
Proof.
  intros Hin. fold (values_at k items).
  pose proof (group_assoc items k) as G. unfold assoc_list in G.
  rewrite (in_assoc_nat_sorted k vs _ (group_sorted items) Hin) in G. split; [exact G|].
  assert (Hk : In k (map fst items)) by (apply group_keys; apply (in_map fst _ _ Hin)).
  apply in_map_iff in Hk. destruct Hk as [[k' v] [E Hv]]. cbn in E. subst k'.
  apply in_values_at in Hv. rewrite <- G in Hv. intros ->. destruct Hv.
Qed.

Lemma group_nonempty (items : list (nat * A)) : Forall (fun kv => snd kv <> []) (group items).
Proof. rewrite Forall_forall. intros [k vs] Hin. now apply group_in_assoc in Hin. Qed.

Lemma group_in (items : list (nat * A)) (k : nat) (v : A) :
  In (k, v) items <-> exists vs, In (k, vs) (group items) /\ In v vs.
Proof.
  split.
  - intros H.
    assert (Hk : In k (map fst (group items))) by (apply group_keys; apply (in_map fst _ _ H)).
    apply in_map_iff in Hk. destruct Hk as [[k' vs] [Hk Hin]]. cbn in Hk. subst k'.
    exists vs. split; [exact Hin|]. apply group_in_assoc in Hin. destruct Hin as [-> _]. now apply in_values_at.
  - intros [vs [Hin Hv]]. apply group_in_assoc in Hin. destruct Hin as [-> _]. now apply in_values_at in Hv.
Qed.

End Push.
