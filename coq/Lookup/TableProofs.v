(** C07 - TableTranslation / LazyTableTranslation: exact matches in weight order, completions only from keys that
    extend the input and only when completion is enabled. *)
From Coq Require Import List Arith ZArith NArith Bool Lia Sorted Permutation.
From RimeV Require Import Lookup.Defs Lookup.Model Lookup.Spec Lookup.MapProofs Lookup.IterProofs Lookup.ScriptProofs
     Lookup.Checks.
Import ListNotations.

Lemma words_chunks_spec syls t code_length mlen sps c :
  In c (words_chunks syls t code_length mlen sps) <->
  exists sid, In (sid, 0) sps /\ node_ents t [sid] <> [] /\
    c = mkChunk [sid] (node_ents t [sid])
          (length (if code_length <? mlen
                   then (if code_length <? length (syl_str syls sid) then skipn code_length (syl_str syls sid) else [])
                   else [])) 1 0%Z.
Proof.
  unfold words_chunks. rewrite in_flat_map. split.
  - intros [[sid ty] [Hin H]]. cbn [fst snd] in H. destruct (0 <? ty) eqn:E; [destruct H|].
    apply Nat.ltb_ge in E. assert (ty = 0) by lia. subst ty.
    destruct (node_ents t [sid]) as [|e l] eqn:EN; [destruct H|]. destruct H as [<-|[]].
    exists sid. split; [exact Hin|]. rewrite EN. split; [discriminate|reflexivity].
  - intros [sid [Hin [NE ->]]]. exists (sid, 0). split; [exact Hin|]. cbn [fst snd Nat.ltb Nat.leb].
    destruct (node_ents t [sid]) as [|e l] eqn:EN; [contradiction|]. now left.
Qed.

Lemma exact_key_in pr key sps : exact_key pr key = Some sps -> In (key, sps) pr.
Proof.
  induction pr as [|[k v] pr IH]; cbn [exact_key fst snd]; [discriminate|].
  destruct (text_eqb k key) eqn:E.
  - apply text_eqb_eq in E. subst k. intros H. injection H as ->. now left.
  - intros H. right. now apply IH.
Qed.

Lemma is_prefix_spec p s : is_prefix p s = true <-> exists r, s = p ++ r.
Proof.
  revert s. induction p as [|x p IH]; intros s; cbn.
  - split; [intros _; now exists s|reflexivity].
  - destruct s as [|y s]; [split; [discriminate|intros [r H]; discriminate]|].
    rewrite andb_true_iff, N.eqb_eq, IH. split.
    + intros [-> [r ->]]. now exists r.
    + intros [r H]. injection H as -> ->. split; [reflexivity|now exists r].
Qed.

Lemma lookup_words_in pr syls t inp predictive limit c :
  In c (snd (lookup_words pr syls t inp predictive limit)) ->
  exists key sps, In (key, sps) pr /\ (if predictive then is_prefix inp key = true else key = inp) /\
                  In c (words_chunks syls t (length inp) (if predictive then length key else 0) sps).
Proof.
  unfold lookup_words, expand_search. destruct predictive; cbn [snd].
  - rewrite in_flat_map. intros [[key sps] [Hk H]]. exists key, sps.
    assert (Hk' : In (key, sps) (filter (fun ks : text * list (syll * nat) => is_prefix inp (fst ks)) pr))
      by (destruct (limit =? 0); [exact Hk|exact (in_firstn _ _ _ Hk)]).
    apply filter_In in Hk'. destruct Hk' as [Hpr Hpre]. auto.
  - destruct (exact_key pr inp) as [sps|] eqn:E; [|intros []]. intros H. exists inp, sps. auto using exact_key_in.
Qed.

Lemma lookup_words_nonempty pr syls t inp predictive limit :
  Forall nonempty (snd (lookup_words pr syls t inp predictive limit)).
Proof.
  rewrite Forall_forall. intros c Hc. apply lookup_words_in in Hc. destruct Hc as (key & sps & _ & _ & Hc).
  apply words_chunks_spec in Hc. destruct Hc as [sid [_ [NE ->]]]. exact NE.
Qed.

Lemma lookup_words_ok pr syls t inp predictive limit :
  table_sorted t -> Forall chunk_ok (snd (lookup_words pr syls t inp predictive limit)).
Proof.
  intros TS. rewrite Forall_forall. intros c Hc. apply lookup_words_in in Hc. destruct Hc as (key & sps & _ & _ & Hc).
  apply words_chunks_spec in Hc. destruct Hc as [sid [_ [NE ->]]].
  split; [exact NE|]. split; [apply TS|]. unfold chunk_wf. cbn. lia.
Qed.

Lemma lookup_words_entry pr syls t inp predictive limit c te :
  In c (snd (lookup_words pr syls t inp predictive limit)) -> In te (c_ents c) ->
  let d := mk_dentry c te in
  d_match d = 0 /\ (predictive = false -> d_remlen d = 0) /\
  exists key sps sid, (if predictive then is_prefix inp key = true else key = inp) /\ In (key, sps) pr /\
                      In (sid, 0) sps /\ d_code d = [sid] /\ In (mkTE (d_text d) (d_w d)) (node_ents t [sid]).
Proof.
  intros Hc Hte. apply lookup_words_in in Hc. destruct Hc as (key & sps & Hk & Hp & Hc).
  apply words_chunks_spec in Hc. destruct Hc as [sid [Hs [_ ->]]]. cbn in Hte |- *.
  split; [reflexivity|]. split; [intros ->; reflexivity|].
  exists key, sps, sid. rewrite Z.add_0_r. repeat split; auto. now destruct te.
Qed.

(** * the plain TableTranslation (completion disabled) *)
Definition plain_chunks pr syls t code := snd (lookup_words pr syls t code false 0).

Lemma in_drain_maybe_sort presort cs d :
  Forall nonempty cs -> (In d (drain_all (maybe_sort presort cs)) <-> In d (all_entries cs)).
Proof.
  intros N. destruct presort; cbn [maybe_sort]; [|now apply in_drain_all].
  split; apply Permutation_in; [|symmetry]; now apply drain_all_sort_head_perm.
Qed.

Lemma sorted_dle_weights l :
  StronglySorted dle l -> Forall (fun d => d_match d = 0 /\ d_remlen d = 0) l ->
  StronglySorted (fun a b => (d_w b <= d_w a)%Z) l.
Proof.
  induction l as [|a l IH]; intros S C; [constructor|].
  inversion S as [|? ? S' F]; subst. inversion C as [|? ? [Ca1 Ca2] C']; subst.
  constructor; [now apply IH|]. rewrite Forall_forall in *. intros b Hb. destruct (C' b Hb) as [Cb1 Cb2].
  apply dle_same_class; [now apply F|now rewrite Ca1, Cb1|now rewrite Ca2, Cb2].
Qed.

(** after the repair: entries whose code equals the input, all of them, in non-increasing weight order *)
Theorem table_exact_weight_order pr syls t code :
  table_sorted t ->
  StronglySorted (fun a b => (d_w b <= d_w a)%Z) (table_entries true false pr syls t code) /\
  Permutation (table_entries true false pr syls t code) (all_entries (plain_chunks pr syls t code)).
Proof.
  intros TS. unfold table_entries, maybe_sort. fold (plain_chunks pr syls t code).
  pose proof (lookup_words_nonempty pr syls t code false 0) as NE. fold (plain_chunks pr syls t code) in NE.
  split.
  - apply sorted_dle_weights; [apply drain_all_sorted, lookup_words_ok, TS|].
    rewrite Forall_forall. intros d Hd. apply (in_drain_maybe_sort true) in Hd; [|exact NE].
    apply in_all_entries in Hd. destruct Hd as (c & te & Hc & Hte & ->).
    destruct (lookup_words_entry pr syls t code false 0 c te Hc Hte) as (M & R & _). auto.
  - now apply drain_all_sort_head_perm.
Qed.

(** with completion disabled nothing but entries of the key that equals the input is shown *)
Theorem table_no_completion_when_disabled presort pr syls t code d :
  In d (table_entries presort false pr syls t code) ->
  d_remlen d = 0 /\ exists sps sid, In (code, sps) pr /\ In (sid, 0) sps /\ d_code d = [sid] /\
                               In (mkTE (d_text d) (d_w d)) (node_ents t [sid]).
Proof.
  unfold table_entries. intros Hd. apply in_drain_maybe_sort in Hd; [|apply lookup_words_nonempty].
  apply in_all_entries in Hd. destruct Hd as (c & te & Hc & Hte & ->).
  destruct (lookup_words_entry pr syls t code false 0 c te Hc Hte) as (_ & R & key & sps & sid & -> & H).
  split; [now apply R|]. now exists sps, sid.
Qed.

(** * the lazy translation (completion enabled): whatever is known of the limit and the count ([J]), as long as every
    fetch yields parts of chunks of [S], only entries of chunks of [S] are shown *)
Section LazyParts.
Variables (presort : bool) (pr : prism) (syls : list (nat * text)) (t : table) (inp : text).
Variables (S : list chunk) (J : nat -> nat -> Prop).

Definition parts_state (st : lazy_state) : Prop := Forall (part_of S) (fst (fst st)) /\ J (snd (fst st)) (snd st).

Hypothesis fetch_parts : forall limit cnt, J limit cnt -> parts_state (fetch_more presort pr syls t inp ([], limit, cnt)).

Lemma lazy_drain_parts fuel st d :
  parts_state st -> In d (lazy_drain presort pr syls t inp fuel st) ->
  exists c te, In c S /\ In te (c_ents c) /\ d = mk_dentry c te.
Proof.
  revert st. induction fuel as [|f IH]; intros [[it limit] cnt] [F HJ] Hd; [destruct Hd|]. cbn [fst snd] in F, HJ.
  cbn [lazy_drain] in Hd. destruct (iter_peek it) as [d0|] eqn:EP; [|destruct Hd].
  destruct Hd as [<-|Hd]; [now apply (peek_part_of S it)|].
  pose proof (iter_next_Forall _ it (part_of_tail_closed S) F) as F1.
  destruct (iter_next it) as [|c1 r1]; [exact (IH _ (fetch_parts limit cnt HJ) Hd)|exact (IH (_, _, _) (conj F1 HJ) Hd)].
Qed.
End LazyParts.

Lemma skip_parts S presort cs n : incl cs S -> Forall (part_of S) (maybe_sort presort (skip cs n)).
Proof.
  intros I. assert (F : Forall (part_of S) cs) by (rewrite Forall_forall; intros c Hc; apply part_of_member, I, Hc).
  destruct presort; cbn [maybe_sort]; [apply sort_head_Forall|]; apply skip_Forall; auto using part_of_tail_closed.
Qed.

Lemma lookup_words_limit_incl pr syls t inp limit :
  incl (snd (lookup_words pr syls t inp true limit)) (snd (lookup_words pr syls t inp true 0)).
Proof.
  unfold lookup_words, expand_search. cbn [snd Nat.eqb]. intros c Hc. apply in_flat_map in Hc. destruct Hc as [ks [Hk Hc]].
  apply in_flat_map. exists ks. split; [|exact Hc]. destruct (limit =? 0); [exact Hk|exact (in_firstn _ _ _ Hk)].
Qed.

Lemma fetch_more_parts presort pr syls t inp limit cnt :
  parts_state (snd (lookup_words pr syls t inp true 0)) (fun _ _ => True)
              (fetch_more presort pr syls t inp ([], limit, cnt)).
Proof.
  unfold parts_state, fetch_more. destruct (limit =? 0); [split; [constructor|exact I]|].
  destruct (cnt <? total _); (split; [cbn [fst]|exact I]); [|constructor]. apply skip_parts, lookup_words_limit_incl.
Qed.

(** soundness of the fetch-more protocol, whatever the number of fetches: every entry shown stems from a key that
    extends the input and is an entry of a syllable that key spells *)
Theorem table_completion_candidates_sound presort pr syls t code d :
  In d (table_entries presort true pr syls t code) ->
  exists key sps sid, is_prefix code key = true /\ In (key, sps) pr /\ In (sid, 0) sps /\ d_code d = [sid] /\
                      In (mkTE (d_text d) (d_w d)) (node_ents t [sid]).
Proof.
  unfold table_entries. intros Hd.
  apply (lazy_drain_parts presort pr syls t code _ _ (fun limit cnt _ => fetch_more_parts presort pr syls t code limit cnt))
    in Hd; [|apply fetch_more_parts].
  destruct Hd as (c & te & Hc & Hte & ->).
  destruct (lookup_words_entry pr syls t code true 0 c te Hc Hte) as (_ & _ & key & sps & sid & H). now exists key, sps, sid.
Qed.

(** what [dle] means here (all chunks are exact matches of one syllable): entries without remaining code first, by
    non-increasing weight; then entries with remaining code *)
Lemma dle_table a b :
  dle a b -> d_match a = 0 -> d_match b = 0 ->
  d_remlen a <= d_remlen b /\ (d_remlen a = d_remlen b -> (d_w b <= d_w a)%Z).
Proof. unfold dle, kle, klt, dkey. intros H Ea Eb. rewrite Ea, Eb in H. cbn [Nat.eqb] in H. lia. Qed.

(** * before the repair (presort = false): the first candidate need not be the best *)
(* key "b" spells the syllables 0 and 1 (two syllables share a spelling); syllable 0 holds weights 2,1 and syllable 1 weight 100 *)
Definition ex_prism : prism := [([98%N], [(0, 0); (1, 0)])].
Definition ex_table : table :=
  [mkNode [0] [mkTE [81%N] 2%Z; mkTE [87%N] 1%Z] false []; mkNode [1] [mkTE [88%N] 100%Z] false []].
Definition ex_syls : list (nat * text) := [(0, [97%N]); (1, [98%N])].

Theorem table_exact_weight_order_unsorted_refuted :
  exists pr syls t code, table_sorted t /\
    ~ StronglySorted (fun a b => (d_w b <= d_w a)%Z) (table_entries false false pr syls t code).
Proof.
  exists ex_prism, ex_syls, ex_table, [98%N]. split; [now apply table_sorted_b_ok|].
  intros S. apply (sorted_b_complete _ _ _ (fun a b => proj2 (Z.leb_le (d_w b) (d_w a)))) in S. discriminate S.
Qed.

(* the same instance after the repair: 100, 2, 1 *)
Example table_exact_weight_order_example :
  map d_w (table_entries true false ex_prism ex_syls ex_table [98%N]) = [100%Z; 2%Z; 1%Z].
Proof. reflexivity. Qed.

Lemma prefix_phrases_desc coll : StronglySorted (fun a b => k_end b <= k_end a) (prefix_phrases coll).
Proof.
  unfold prefix_phrases. apply flat_map_sorted_desc.
  - rewrite map_rev. apply StronglySorted_rev_lt, group_sorted.
  - intros [e it] _. cbn [fst snd]. induction (drain_all it) as [|d l IHl]; cbn; constructor; [exact IHl|].
    rewrite Forall_forall. intros y Hy. apply in_map_iff in Hy. destruct Hy as [d' [<- _]]. cbn. lia.
  - intros x x' b b' Hlt Hb Hb'. apply in_map_iff in Hb. apply in_map_iff in Hb'.
    destruct Hb as [d [<- _]], Hb' as [d' [<- _]]. cbn [k_end]. lia.
Qed.

(** the model predicts the known finding: with words for "b", "ba", "baa" only, the input "baab" yields the
    sentence baa+b and then the prefix phrases of "baa" [0,3), "ba" [0,2) and "b" [0,1), although neither "ab"
    nor "aab" can be segmented (no key is a prefix of them) *)
Definition f1_prism : prism := [([98%N], [(0, 0)]); ([98%N; 97%N], [(1, 0)]); ([98%N; 97%N; 97%N], [(2, 0)])].
Definition f1_table : table :=
  [mkNode [0] [mkTE [66%N] 1%Z] false []; mkNode [1] [mkTE [67%N] 1%Z] false []; mkNode [2] [mkTE [68%N] 1%Z] false []].
Definition f1_syls : list (nat * text) := [(0, [98%N]); (1, [98%N; 97%N]); (2, [98%N; 97%N; 97%N])].
Definition f1_input : text := [98%N; 97%N; 97%N; 98%N].
Definition f1_sentence : sentence :=
  [(mkDE [68%N] [2] 1%Z 0 0, 3); (mkDE [66%N] [0] 1%Z 0 0, 4)].

Example table_prefix_phrases_off_segmentation :
  map (fun c => (k_end c, k_text c))
      (table_query (fun _ _ => Some f1_sentence) false true 1 f1_prism f1_syls f1_table [39%N] f1_input)
  = [(4, [68%N; 66%N]); (3, [68%N]); (2, [67%N]); (1, [66%N])] /\
  wg_path_ok (table_wgraph 1 f1_prism f1_syls f1_table [39%N] f1_input) 0 4 f1_sentence = true /\
  common_prefix f1_prism (skipn 1 f1_input) = [] /\ common_prefix f1_prism (skipn 2 f1_input) = [].
Proof. repeat split; reflexivity. Qed.
