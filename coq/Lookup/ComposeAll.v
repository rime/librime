(** C07 - the bridges put together: from the rows of the source dictionary (C06), the prism (C08's finite-map prism for
    the syllable graph, C09's built prism for the table translator) and the input to the candidate list. *)
From Coq Require Import List Arith ZArith NArith Bool Lia.
From Coq.Strings Require Import Byte.
From RimeV Require Dict.AlgebraProofs.
From RimeV Require Import Base.ListX Lookup.Defs Lookup.Model Lookup.LookupProofs Lookup.IterProofs Lookup.TableProofs
     Lookup.Compose Lookup.ComposeTable Lookup.ComposePrism.
Import ListNotations.

Module AP := RimeV.Dict.AlgebraProofs.

(** script translator: the phrase candidates are exactly the rows of the source files whose code - its syllables
    numbered by rank in the collected syllabary - labels a chain of retained edges of BuildSyllableGraph's graph from
    0 (codes longer than three syllables: to the farthest end the extra code reaches) *)
Theorem script_candidates_source_rows
        F (cast : Vo.dec -> F) (wz : F -> Z) sort_original files cv P delims comp strict inp g0 :
  SS.prism_wf P delims -> Sy.build_syllable_graph P delims comp strict inp = Some g0 ->
  0 < Sy.g_interpreted_length g0 ->
  let col := Vo.collect_files files in
  let t := conv_head F wz (Ix.build_head cast (length (Vo.co_syll col)) (Vo.compile_vocab sort_original col)) in
  let g := conv_graph cv g0 in
  forall e code txt,
  In (mkCand TPhrase 0 e txt code) (script_phrases (lookup g t 0 false)) <->
  (code <> [] /\ exists tx cs ws, In (Vo.LRow tx cs ws) (TP.source_rows files) /\ cs <> [] /\
                                 txt = conv_text tx /\ code = map (Vo.id_of (Vo.co_syll col)) (Vo.split_skip x20 cs)) /\
  spelled g code 0 e.
Proof.
  intros WF HB Hl col t g e code txt.
  destruct (script_candidates_exact_over_built_graph cv P delims comp strict inp g0 WF HB t e code txt
              (compiled_index_wf F cast wz sort_original files) Hl) as [X _]. fold g in X.
  rewrite X. split.
  - intros [w [Hth Hsp]]. split; [|exact Hsp]. apply (table_has_rows F cast wz sort_original files code txt). eauto.
  - intros [Hrow Hsp]. apply (table_has_rows F cast wz sort_original files code txt) in Hrow.
    destruct Hrow as [w Hth]. eauto.
Qed.

Section TableEndToEnd.
Variables (F : Type) (cast : Vo.dec -> F) (wz : F -> Z).
Variables (fcred : Type) (fcast : Z -> fcred).
Variables (sort_original : bool) (files : list (Vo.colspec * list Base.Bytes.bytes)).
Variables (calcs : list Al.calc) (sc : Al.script).

Let col := Vo.collect_files files.
Let syls := Vo.co_syll col.                                     (* the collected syllabary *)
Let t := conv_head F wz (Ix.build_head cast (length syls) (Vo.compile_vocab sort_original col)).
Let p := PM.compile fcred fcast syls calcs.                     (* dict_compiler.cc: syllabary -> algebra -> prism *)

Hypothesis syls_nonempty : forall s, In s syls -> s <> [].
Hypothesis syls_nodup : NoDup syls.                             (* Syllabary = std::set<string> *)
Hypothesis HC : Al.compile_script syls calcs = Some sc.

Lemma p_wf : PP.wf_prism fcred p.
Proof. apply PP.build_wf. Qed.

Lemma p_keys_nodup : NoDup (PM.p_keys fcred p).
Proof.
  unfold p, PM.compile. rewrite HC. cbn [PM.build PM.p_keys].
  destruct (AP.compile_script_some _ _ _ HC) as (-> & _ & _). apply AP.ssorted_NoDup. apply AP.script_always_sorted.
Qed.

(** a word entry of the source: a row whose code is the single syllable of id [sid] *)
Definition word_row (sid : nat) (tx : Base.Bytes.bytes) : Prop :=
  exists cs ws, In (Vo.LRow tx cs ws) (TP.source_rows files) /\ cs <> [] /\
                map (Vo.id_of syls) (Vo.split_skip x20 cs) = [sid].

(** the input spells the syllable [sid] with a normal spelling: the script the algebra produces has it *)
Definition spells_normal (code : Base.Bytes.bytes) (sid : nat) : Prop :=
  exists l x, Al.map_find code sc = Some l /\ In x l /\ Al.ptype (Al.sprops x) = 0 /\ nth_error syls sid = Some (Al.sstr x).

Lemma word_rows (sid : nat) txt : (exists w, In (mkTE txt w) (node_ents t [sid])) <-> exists tx, txt = conv_text tx /\ word_row sid tx.
Proof.
  pose proof (table_has_rows F cast wz sort_original files [sid] txt) as T. cbn zeta in T. split.
  - intros [w H]. destruct (proj1 T) as [_ (tx & cs & ws & Hrow & Ncs & -> & Ec)]; [exists w; left; split; [cbn; lia|exact H]|].
    exists tx. split; [reflexivity|]. exists cs, ws. auto.
  - intros (tx & -> & cs & ws & Hrow & Ncs & Ec).
    destruct (proj2 T) as [w [[_ H]|[L _]]]; [split; [discriminate|]; exists tx, cs, ws; auto|eauto|cbn in L; lia].
Qed.

Lemma key_of_match code sps :
  In (conv_text code, sps) (prism_at fcred fcast p code) ->
  exists v, PM.get_value fcred p code = Some v /\ sps = spellings_of fcred fcast p v.
Proof.
  intros H. destruct (prism_at_match fcred fcast p p_wf p_keys_nodup code _ _ H) as (v & w & Et & _ & Hv & ->).
  apply (f_equal (@length _)) in Et. rewrite !conv_text_length, app_length in Et.
  assert (w = []) by (destruct w; [reflexivity|cbn in Et; lia]). subst w. rewrite app_nil_r in Hv. eauto.
Qed.

(** completion off: every candidate is a word row of a syllable the input spells normally ... *)
Theorem table_plain_sound smap code d :
  In d (table_entries true false (prism_at fcred fcast p code) smap t (conv_text code)) ->
  exists sid tx, d_code d = [sid] /\ d_text d = conv_text tx /\ d_remlen d = 0 /\
                 spells_normal code sid /\ word_row sid tx.
Proof.
  intros H. apply table_no_completion_when_disabled in H. destruct H as (R & sps & sid & Hk & Hs & Hc & Hn).
  destruct (key_of_match code sps Hk) as [v [Hv ->]].
  destruct (PP.prism_roundtrip_compiled fcred fcast syls calcs sc syls_nonempty HC) as [R1 R2]. fold p in R1, R2.
  destruct (Al.map_find code sc) as [l|] eqn:Ef; [|rewrite (R2 code Ef) in Hv; discriminate].
  destruct (R1 code l Ef) as (i & Hi & _ & F2). rewrite Hv in Hi. injection Hi as <-.
  unfold spellings_of in Hs. apply in_map_iff in Hs. destruct Hs as [d0 [E0 Hd0]]. unfold conv_desc in E0. injection E0 as Es Et.
  destruct (Forall2_in_l _ _ _ d0 F2 Hd0) as [x [Hx (M1 & M2 & _)]].
  destruct (proj1 (word_rows sid (d_text d)) (ex_intro _ (d_w d) Hn)) as (tx & Etx & Hw).
  exists sid, tx. split; [exact Hc|]. split; [exact Etx|]. split; [exact R|]. split; [|exact Hw].
  exists l, x. split; [exact Ef|]. split; [exact Hx|]. split; [congruence|]. now rewrite <- Es.
Qed.

(** ... and every such word row is among the candidates *)
Theorem table_plain_complete smap code sid tx :
  spells_normal code sid -> word_row sid tx ->
  exists d, In d (table_entries true false (prism_at fcred fcast p code) smap t (conv_text code)) /\
            d_code d = [sid] /\ d_text d = conv_text tx.
Proof.
  intros (l & x & Ef & Hx & Ht & Hn) Hw.
  destruct (PP.prism_roundtrip_compiled fcred fcast syls calcs sc syls_nonempty HC) as [R1 _]. fold p in R1.
  destruct (R1 code l Ef) as (i & Hi & _ & F2).
  destruct (Forall2_in_r _ _ _ x F2 Hx) as [d0 [Hd0 (M1 & M2 & _)]].
  assert (Esid : PM.d_syll fcred d0 = sid).
  { rewrite <- Hn in M1. apply (proj1 (NoDup_nth_error syls) syls_nodup); [|exact M1]. apply nth_error_Some. congruence. }
  destruct (proj2 (word_rows sid (conv_text tx)) (ex_intro _ tx (conj eq_refl Hw))) as [w Hin].
  assert (NEn : node_ents t [sid] <> []) by (intros E; rewrite E in Hin; destruct Hin).
  (* the chunk of [sid] is among the chunks LookupWords adds *)
  set (pr := prism_at fcred fcast p code).
  assert (Ex : exact_key pr (conv_text code) = Some (spellings_of fcred fcast p i)).
  { unfold pr. rewrite (exact_key_prism_at fcred fcast p p_wf code), Hi. reflexivity. }
  assert (Hs : In (sid, 0) (spellings_of fcred fcast p i)).
  { unfold spellings_of. apply in_map_iff. exists d0. split; [|exact Hd0]. unfold conv_desc. now rewrite Esid, M2, Ht. }
  set (ch := mkChunk [sid] (node_ents t [sid]) 0 1 0%Z).
  assert (Hch : In ch (plain_chunks pr smap t (conv_text code))).
  { unfold plain_chunks, lookup_words. rewrite Ex. cbn [snd]. apply words_chunks_spec. exists sid. split; [exact Hs|].
    split; [exact NEn|]. unfold ch. reflexivity. }
  exists (mk_dentry ch (mkTE (conv_text tx) w)). split; [|split; reflexivity].
  unfold table_entries. fold (plain_chunks pr smap t (conv_text code)).
  apply in_drain_maybe_sort; [apply lookup_words_nonempty|]. apply in_all_entries. exists ch, (mkTE (conv_text tx) w). auto.
Qed.

(** completion on: every candidate is a word of a syllable spelled by a key that extends the input *)
Theorem table_completion_sound_e2e smap code d :
  In d (table_entries true true (prism_at fcred fcast p code) smap t (conv_text code)) ->
  exists sid tx key, d_code d = [sid] /\ d_text d = conv_text tx /\ word_row sid tx /\
                     In key (PM.p_keys fcred p) /\ (exists w, key = code ++ w) /\
                     exists v, PM.get_value fcred p key = Some v /\ In (sid, 0) (spellings_of fcred fcast p v).
Proof.
  intros H. apply table_completion_candidates_sound in H. destruct H as (key & sps & sid & Hp & Hk & Hs & Hc & Hn).
  destruct (prism_at_match fcred fcast p p_wf p_keys_nodup code _ _ Hk) as (v & w & _ & Hnk & Hv & ->).
  destruct (proj1 (word_rows sid (d_text d)) (ex_intro _ (d_w d) Hn)) as (tx & Etx & Hw).
  exists sid, tx, (code ++ w). split; [exact Hc|]. split; [exact Etx|]. split; [exact Hw|].
  split; [eapply nth_error_In; exact Hnk|]. eauto.
Qed.

End TableEndToEnd.
