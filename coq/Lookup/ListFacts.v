(** Facts about [StronglySorted] that are not in the standard library. *)
From Coq Require Import List Arith Lia Sorted.
From RimeV Require Export Base.ListX.
Import ListNotations.

Lemma StronglySorted_app_r {A} (R : A -> A -> Prop) l1 l2 : StronglySorted R (l1 ++ l2) -> StronglySorted R l2.
Proof. induction l1 as [|x l1 IH]; [auto|]. intros S. apply IH. now inversion S. Qed.

Lemma sorted_app_inv {A} (R : A -> A -> Prop) l1 l2 a b :
  StronglySorted R (l1 ++ l2) -> In a l1 -> In b l2 -> R a b.
Proof.
  intros S Ha Hb. induction l1 as [|x l1 IH]; [destruct Ha|]. cbn in S. inversion S as [|? ? S' F]; subst.
  destruct Ha as [<-|Ha]; [|now apply IH]. rewrite Forall_forall in F. apply F. apply in_or_app. now right.
Qed.

Lemma StronglySorted_rev_lt (l : list nat) : StronglySorted lt l -> StronglySorted gt (rev l).
Proof.
  intros S. induction S as [|a l S IH F]; [constructor|]. cbn.
  apply StronglySorted_app; [exact IH|repeat constructor|].
  intros x y Hx [<-|[]]. apply in_rev in Hx. rewrite Forall_forall in F. specialize (F x Hx). lia.
Qed.

Lemma flat_map_sorted_desc {A B} (R : B -> B -> Prop) (f : nat * A -> list B) (L : list (nat * A)) :
  StronglySorted gt (map fst L) ->
  (forall x, In x L -> StronglySorted R (f x)) ->
  (forall x x' b b', fst x' < fst x -> In b (f x) -> In b' (f x') -> R b b') ->
  StronglySorted R (flat_map f L).
Proof.
  intros S H1 H2. induction L as [|x L IH]; [constructor|]. cbn [flat_map map] in *.
  inversion S as [|? ? S' F]; subst. apply StronglySorted_app.
  - apply H1. now left.
  - apply IH; [exact S'|]. intros x' Hx'. apply H1. now right.
  - intros b b' Hb Hb'. apply in_flat_map in Hb'. destruct Hb' as [x' [Hx' Hb']].
    apply (H2 x x'); [|exact Hb|exact Hb']. rewrite Forall_forall in F. apply F. now apply in_map.
Qed.
