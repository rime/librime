(** C07 - match_extra_code and lookup_table: what ends up in the DictEntryCollector, exactly. *)
From Coq Require Import List Arith ZArith NArith Bool Lia Permutation.
From RimeV Require Import Lookup.Defs Lookup.Model Lookup.Spec Lookup.MapProofs Lookup.QueryProofs Lookup.IterProofs.
Import ListNotations.

(** * the "keep the farthest match" fold of match_extra_code *)
Definition best_step (sub : props -> cmatch) (best : cmatch) (p : props) : cmatch :=
  let m := sub p in if fst (fst m) then (if snd best <? snd m then m else best) else best.

Lemma fold_best_cases sub pl b r :
  fold_left (best_step sub) pl b = r -> r = b \/ exists p, In p pl /\ fst (fst (sub p)) = true /\ r = sub p.
Proof.
  revert b. induction pl as [|q pl IH]; intros b H; [now left|]. cbn [fold_left] in H.
  destruct (IH _ H) as [->|(p & Hp & Hs)]; [|right; exists p; split; [now right|exact Hs]].
  unfold best_step. destruct (fst (fst (sub q))) eqn:Eq; [|now left].
  destruct (snd b <? snd (sub q)); [|now left]. right. exists q. split; [now left|auto].
Qed.

Lemma fold_best_ge sub pl b :
  snd b <= snd (fold_left (best_step sub) pl b) /\
  forall p, In p pl -> fst (fst (sub p)) = true -> snd (sub p) <= snd (fold_left (best_step sub) pl b).
Proof.
  revert b. induction pl as [|q pl IH]; intros b; [cbn; split; [lia|intros ? []]|]. cbn [fold_left].
  destruct (IH (best_step sub b q)) as [H1 H2].
  assert (Hb : snd b <= snd (best_step sub b q) /\ (fst (fst (sub q)) = true -> snd (sub q) <= snd (best_step sub b q))).
  { unfold best_step. destruct (fst (fst (sub q))); [|split; [lia|discriminate]].
    destruct (snd b <? snd (sub q)) eqn:E; [apply Nat.ltb_lt in E|apply Nat.ltb_ge in E]; split; intros; lia. }
  destruct Hb as [Hb1 Hb2]. split; [lia|]. intros p [<-|Hp] Hs; [specialize (Hb2 Hs); lia|now apply H2].
Qed.

Lemma match_extra_cons g predict s rest depth pos :
  match_extra g predict (s :: rest) depth pos =
  if g_ilen g <=? pos then (if predict then (true, depth, g_ilen g) else k_failed)
  else fold_left (best_step (fun p => match_extra g predict rest (S depth) (p_end p)))
                 (assoc_list s (assoc_list pos (g_indices g))) k_failed.
Proof.
  cbn [match_extra]. destruct (g_ilen g <=? pos); [reflexivity|]. unfold assoc_list, spelling_index.
  destruct (assoc_nat pos _) as [index|]; [|reflexivity]. now destruct (assoc_nat s index).
Qed.

(** soundness: a successful match spells a prefix of the extra code (all of it, unless it is a prediction that
    reached the end of the interpreted input) *)
Lemma match_extra_sound g predict rest : wf_graph g -> forall depth pos d e,
  (predict = true -> pos <= g_ilen g) -> match_extra g predict rest depth pos = (true, d, e) ->
  exists k, d = depth + k /\ k <= length rest /\ gpath g pos (firstn k rest) e /\
            (k = length rest \/ (predict = true /\ e = g_ilen g)).
Proof.
  intros W. induction rest as [|s rest IH]; intros depth pos d e Hpos H.
  - cbn in H. injection H as <- <-. exists 0. split; [lia|]. split; [cbn; lia|]. split; [constructor|now left].
  - rewrite match_extra_cons in H. destruct (g_ilen g <=? pos) eqn:E.
    + apply Nat.leb_le in E. destruct predict; [|discriminate]. injection H as <- <-.
      exists 0. cbn [firstn]. assert (pos = g_ilen g) by (specialize (Hpos eq_refl); lia). subst pos.
      split; [lia|]. split; [cbn; lia|]. split; [constructor|now right].
    + apply fold_best_cases in H. destruct H as [H|(p & He & _ & H)]; [discriminate|].
      apply has_edge_assoc in He; [|exact W]. pose proof (wf_forward g W _ _ _ He) as Hf.
      symmetry in H. apply IH in H; [|lia]. destruct H as [k [-> [Hk [Hg Hor]]]].
      exists (S k). cbn [firstn length]. split; [lia|]. split; [lia|]. split.
      * econstructor; eassumption.
      * destruct Hor as [->|Hor]; [now left|now right].
Qed.

(** completeness: whenever the extra code labels a path, the match succeeds and ends at least that far *)
Lemma match_extra_complete g predict rest : wf_graph g -> forall depth pos e,
  gpath g pos rest e ->
  fst (fst (match_extra g predict rest depth pos)) = true /\ e <= snd (match_extra g predict rest depth pos).
Proof.
  intros W. induction rest as [|s rest IH]; intros depth pos e H.
  - inversion H; subst. cbn. split; [reflexivity|lia].
  - inversion H as [|? ? p ? ? He Hr]; subst.
    pose proof (wf_forward g W _ _ _ He) as Hf. apply has_edge_assoc in He; [|exact W].
    rewrite match_extra_cons. destruct (Nat.leb_spec (g_ilen g) pos); [lia|].
    set (sub := fun p0 => match_extra g predict rest (S depth) (p_end p0)). set (pl := assoc_list s _) in *.
    destruct (IH (S depth) (p_end p) e Hr) as [S1 S2]. pose proof (gpath_le g _ _ _ W Hr) as Hle.
    destruct (fold_best_ge sub pl k_failed) as [_ G]. specialize (G p He S1).
    split; [|unfold sub in *; lia].
    (* the fold did not keep its initial value: that one ends at 0, before [p_end p] *)
    destruct (fold_best_cases sub pl k_failed _ eq_refl) as [Hc|(p' & _ & Hs' & Hc)]; rewrite Hc in *; [|exact Hs'].
    cbn in G. unfold sub in *. lia.
Qed.

Definition farthest (g : graph) (s : nat) (c : code) (e : nat) : Prop :=
  gpath g s c e /\ forall e', gpath g s c e' -> e' <= e.

(** without prediction the two together: the match succeeds exactly when the extra code labels a path, consumes all of
    it and ends at the farthest position such a path reaches *)
Lemma match_extra_exact g rest depth pos d e :
  wf_graph g ->
  (match_extra g false rest depth pos = (true, d, e) <-> d = depth + length rest /\ farthest g pos rest e).
Proof.
  intros W. split.
  - intros EM. pose proof EM as EM0. apply match_extra_sound in EM; [|exact W|discriminate].
    destruct EM as [k [-> [_ [Hg [->|[Hf _]]]]]]; [|discriminate]. rewrite firstn_all in Hg.
    split; [reflexivity|]. split; [exact Hg|]. intros e' Hg'.
    destruct (match_extra_complete g false rest W depth pos e' Hg') as [_ Hmax]. now rewrite EM0 in Hmax.
  - intros [-> [Hg Hmax]]. destruct (match_extra_complete g false rest W depth pos e Hg) as [S1 S2].
    destruct (match_extra g false rest depth pos) as [[ok d] e'] eqn:EM. cbn [fst snd] in S1, S2. subst ok.
    apply match_extra_sound in EM; [|exact W|discriminate].
    destruct EM as [k [-> [_ [Hg' [->|[Hf _]]]]]]; [|discriminate]. rewrite firstn_all in Hg'.
    specialize (Hmax e' Hg'). do 2 f_equal. lia.
Qed.

Definition spelled (g : graph) (c : code) (s e : nat) : Prop :=
  (length c <= 3 /\ gpath g s c e) \/
  (3 < length c /\ exists e3, gpath g s (firstn 3 c) e3 /\ farthest g e3 (skipn 3 c) e).

Lemma long_code (ic ex : code) :
  length ic = 3 -> ex <> [] -> 3 < length (ic ++ ex) /\ firstn 3 (ic ++ ex) = ic /\ skipn 3 (ic ++ ex) = ex.
Proof.
  intros L N. rewrite app_length, firstn_app, skipn_app, <- L, Nat.sub_diag, firstn_all, skipn_all, app_nil_r.
  repeat split. destruct ex; [congruence|cbn; lia].
Qed.

Lemma table_has_short t c te : 1 <= length c <= 3 -> (table_has t c te <-> In te (node_ents t c)).
Proof. unfold table_has. intuition lia. Qed.

Lemma table_has_long t ic ex te :
  length ic = 3 -> ex <> [] -> (table_has t (ic ++ ex) te <-> In (mkLE ex te) (node_tail t ic)).
Proof. intros L N. unfold table_has. destruct (long_code ic ex L N) as (H & -> & ->). intuition lia. Qed.

Lemma table_has_inv t c te :
  wf_table t -> table_has t c te ->
  (1 <= length c <= 3 /\ In te (node_ents t c)) \/
  (exists ic ex, c = ic ++ ex /\ length ic = 3 /\ ex <> [] /\ In (mkLE ex te) (node_tail t ic)).
Proof.
  intros WT [H|[L H]]; [now left|right]. exists (firstn 3 c), (skipn 3 c).
  split; [symmetry; apply firstn_skipn|]. split; [rewrite firstn_length; lia|].
  split; [exact (wf_tail_extra t WT _ _ H)|exact H].
Qed.

Lemma spelled_short g c s e : length c <= 3 -> (spelled g c s e <-> gpath g s c e).
Proof. unfold spelled. intuition lia. Qed.

Lemma spelled_long g ic ex s e :
  length ic = 3 -> ex <> [] -> (spelled g (ic ++ ex) s e <-> exists e3, gpath g s ic e3 /\ farthest g e3 ex e).
Proof. intros L N. unfold spelled. destruct (long_code ic ex L N) as (H & -> & ->). intuition lia. Qed.

Lemma spelled_gpath g c s e : spelled g c s e -> gpath g s c e.
Proof.
  intros [[_ H]|[_ [e3 [H1 [H2 _]]]]]; [exact H|].
  rewrite <- (firstn_skipn 3 c). apply gpath_app. eauto.
Qed.

Lemma lookup_chunks_in g t start predict e c :
  In (e, c) (lookup_chunks g t start predict) <->
  exists e0 a, In (e0, a) (query g t start) /\ In (e, c) (chunks_of_item g predict (e0, a)).
Proof.
  unfold lookup_chunks. rewrite in_flat_map. split.
  - intros [[e0 accs] [Hin H]]. cbn [fst snd] in H. apply in_flat_map in H. destruct H as [a [Ha H]].
    exists e0, a. split; [|exact H]. apply group_in. eauto.
  - intros [e0 [a [Hq H]]]. apply group_in in Hq. destruct Hq as [accs [Hin Ha]].
    exists (e0, accs). split; [exact Hin|]. cbn [fst snd]. apply in_flat_map. eauto.
Qed.

Lemma lookup_chunks_start g t start predict e c : In (e, c) (lookup_chunks g t start predict) -> start < g_ilen g.
Proof.
  intros H. destruct (le_lt_dec (g_ilen g) start) as [Hs|Hs]; [|exact Hs].
  unfold lookup_chunks in H. rewrite query_out_of_range in H by exact Hs. destruct H.
Qed.

(** one chunk per short accessor Table::Query returns, one per entry of a returned tail page whose extra code matches *)
Inductive chunk_at (g : graph) (t : table) (start : nat) (predict : bool) : nat -> chunk -> Prop :=
| chunk_short ic pos cred x p :
    wpath g t start ic pos cred -> length ic < 3 -> has_edge g pos x p -> node_ents t (ic ++ [x]) <> [] ->
    chunk_at g t start predict (p_end p) (mkChunk (ic ++ [x]) (node_ents t (ic ++ [x])) 0 (length (ic ++ [x])) cred)
| chunk_long ic e0 cred le d e :
    wpath g t start ic e0 cred -> length ic = 3 -> (exists index, In (e0, index) (g_indices g)) ->
    In le (node_tail t ic) -> match_extra g predict (le_extra le) 0 e0 = (true, d, e) ->
    chunk_at g t start predict e (mkChunk (ic ++ le_extra le) [le_ent le] 0 (length ic + d) cred).

Lemma lookup_chunks_spec g t start predict e ch :
  wf_graph g -> start < g_ilen g ->
  (In (e, ch) (lookup_chunks g t start predict) <-> chunk_at g t start predict e ch).
Proof.
  intros W Hs. rewrite lookup_chunks_in. split.
  - intros [e0 [a [Hq Hc]]]. apply query_sound_complete in Hq; [|exact W|exact Hs].
    destruct Hq as [(ic & pos & cred & x & p & Wp & L & He & -> & -> & NE)|(ic & cred & Wp & L & Hi & -> & NE)].
    + destruct Hc as [Hc|[]]. injection Hc as <- <-. now apply chunk_short with pos.
    + cbn [chunks_of_item snd fst] in Hc. apply in_flat_map in Hc. destruct Hc as [le [Hle Hc]].
      destruct (match_extra g predict (le_extra le) 0 e0) as [[[] d] e'] eqn:EM; [|destruct Hc].
      destruct Hc as [Hc|[]]. injection Hc as <- <-. now apply chunk_long with e0.
  - intros [ic pos cred x p Wp L He NE|ic e0 cred le d e' Wp L Hi Hle EM].
    + exists (p_end p), (AccShort (ic ++ [x]) (node_ents t (ic ++ [x])) cred). split; [|now left].
      apply query_sound_complete; [exact W|exact Hs|]. left. exists ic, pos, cred, x, p. auto 10.
    + exists e0, (AccLong ic (node_tail t ic) cred). split.
      * apply query_sound_complete; [exact W|exact Hs|]. right. exists ic, cred. repeat split; auto.
        intros E. rewrite E in Hle. destruct Hle.
      * cbn [chunks_of_item snd fst]. apply in_flat_map. exists le. split; [exact Hle|]. rewrite EM. now left.
Qed.

Set Implicit Arguments.
Record chunk_sound (g : graph) (t : table) (start : nat) (predict : bool) (e : nat) (ch : chunk) : Prop := {
  cs_remlen : c_remlen ch = 0;
  cs_nonempty : nonempty ch;
  cs_wf : chunk_wf ch;
  cs_path : gpath g start (firstn (c_match ch) (c_code ch)) e;
  cs_predictive : c_match ch < length (c_code ch) -> predict = true /\ e = g_ilen g /\ 3 <= c_match ch;
  cs_sorted : table_sorted t -> weights_sorted (c_ents ch);
  cs_has : wf_table t -> forall te, In te (c_ents ch) -> table_has t (c_code ch) te
}.
Unset Implicit Arguments.

Theorem lookup_chunks_sound g t start predict e ch :
  wf_graph g -> In (e, ch) (lookup_chunks g t start predict) -> chunk_sound g t start predict e ch.
Proof.
  intros W Hin. pose proof (lookup_chunks_start _ _ _ _ _ _ Hin) as Hs. apply lookup_chunks_spec in Hin; [|exact W|exact Hs].
  destruct Hin as [ic pos cred x p Wp L He NE|ic e0 cred le d e Wp L Hi Hle EM].
  - constructor; cbn [c_code c_ents c_match c_remlen].
    + reflexivity.
    + exact NE.
    + unfold chunk_wf. cbn. rewrite app_length. cbn. lia.
    + rewrite firstn_all. apply gpath_snoc. exists pos, p. eauto using wpath_gpath.
    + lia.
    + intros TS. apply TS.
    + intros _ te Hte. apply table_has_short; [rewrite app_length; cbn; lia|exact Hte].
  - apply match_extra_sound in EM; [|exact W|intros _; pose proof (wpath_pos_lt g t start ic e0 cred Hs Wp); lia].
    destruct EM as [k [-> [Hk [Hg Hor]]]]. constructor; cbn [c_code c_ents c_match c_remlen].
    + reflexivity.
    + unfold nonempty. cbn. discriminate.
    + unfold chunk_wf. cbn. rewrite app_length. lia.
    + rewrite firstn_app. replace (length ic + (0 + k) - length ic) with k by lia.
      rewrite firstn_all2 by lia. apply gpath_app. exists e0. eauto using wpath_gpath.
    + rewrite app_length. intros Hlt. destruct Hor as [->|[-> ->]]; [lia|]. repeat split; lia.
    + intros _. repeat constructor.
    + intros WT te [<-|[]]. apply table_has_long; [exact L|exact (wf_tail_extra t WT ic le Hle)|]. now destruct le.
Qed.

Lemma lookup_chunks_ok g t start predict e c :
  wf_graph g -> table_sorted t -> In (e, c) (lookup_chunks g t start predict) -> chunk_ok c.
Proof.
  intros W TS H. apply lookup_chunks_sound in H; [|exact W].
  split; [apply (cs_nonempty H)|]. split; [now apply (cs_sorted H)|apply (cs_wf H)].
Qed.

Lemma lookup_chunks_exact g t start e ch :
  wf_graph g -> In (e, ch) (lookup_chunks g t start false) -> c_match ch = length (c_code ch).
Proof.
  intros W H. apply lookup_chunks_sound in H; [|exact W].
  pose proof (cs_wf H) as [_ M]. pose proof (cs_predictive H) as P.
  destruct (Nat.eq_dec (c_match ch) (length (c_code ch))) as [E|N]; [exact E|]. destruct P as [P _]; [lia|discriminate].
Qed.

Lemma lookup_in g t start predict e it :
  In (e, it) (lookup g t start predict) <->
  exists cs, In (e, cs) (group (lookup_chunks g t start predict)) /\ it = sort_head cs.
Proof.
  unfold lookup. rewrite in_map_iff. split.
  - intros [[e' cs] [E H]]. cbn in E. injection E as -> <-. eauto.
  - intros [cs [H ->]]. exists (e, cs). auto.
Qed.

Lemma lookup_keys_sorted g t start predict : keys_sorted (lookup g t start predict).
Proof.
  unfold lookup, keys_sorted. rewrite map_map. cbn [fst].
  change (map (fun x : nat * list chunk => fst x) ?l) with (map fst l). apply group_sorted.
Qed.

Lemma lookup_start_out g t start predict : g_ilen g <= start -> lookup g t start predict = [].
Proof.
  intros H. unfold lookup, lookup_chunks. rewrite query_out_of_range by exact H. reflexivity.
Qed.

Lemma lookup_iter_chunks g t start predict e it :
  In (e, it) (lookup g t start predict) ->
  head_min it /\ forall c, In c it <-> In (e, c) (lookup_chunks g t start predict).
Proof.
  intros H. apply lookup_in in H. destruct H as [cs [Hin ->]]. split; [apply sort_head_min|]. intros c.
  apply group_in_assoc in Hin. destruct Hin as [-> _]. rewrite <- in_values_at.
  split; apply Permutation_in; [symmetry|]; apply sort_head_perm.
Qed.

Lemma lookup_entry_in g t start predict e it d :
  In (e, it) (lookup g t start predict) ->
  (In d (all_entries it) <-> exists c te, In (e, c) (lookup_chunks g t start predict) /\ In te (c_ents c) /\ d = mk_dentry c te).
Proof.
  intros H. apply lookup_iter_chunks in H. destruct H as [_ H]. rewrite in_all_entries.
  split; intros (c & te & Hc & Hte); exists c, te; (split; [apply H; exact Hc|exact Hte]).
Qed.

Lemma lookup_iter_nonempty g t start predict e it :
  wf_graph g -> In (e, it) (lookup g t start predict) -> Forall nonempty it.
Proof.
  intros W H. apply lookup_iter_chunks in H. destruct H as [_ H]. rewrite Forall_forall. intros c Hc.
  apply H in Hc. exact (cs_nonempty (lookup_chunks_sound g t start predict e c W Hc)).
Qed.

Lemma lookup_iter_ok g t start predict e it :
  wf_graph g -> table_sorted t ->
  In (e, it) (lookup g t start predict) -> Forall chunk_ok it /\ head_min it.
Proof.
  intros W TS H. apply lookup_iter_chunks in H. destruct H as [M H]. split; [|exact M]. rewrite Forall_forall. intros c Hc.
  apply H in Hc. now apply (lookup_chunks_ok g t start predict e c).
Qed.

Lemma lookup_chunks_short g t start predict c e te :
  wf_graph g -> wf_table t -> start < g_ilen g -> 1 <= length c <= 3 -> In te (node_ents t c) -> gpath g start c e ->
  exists ch, In (e, ch) (lookup_chunks g t start predict) /\ c_code ch = c /\ In te (c_ents ch).
Proof.
  intros W WT Hs L Hte Hg. assert (NE : node_ents t c <> []) by (intros E; rewrite E in Hte; destruct Hte).
  destruct (proj2 (query_short_codes g t start c e W WT Hs L NE) Hg) as [cred Hq].
  exists (mkChunk c (node_ents t c) 0 (length c) cred). split; [|split; [reflexivity|exact Hte]].
  apply lookup_chunks_in. exists e, (AccShort c (node_ents t c) cred). split; [exact Hq|now left].
Qed.

Lemma lookup_chunks_long g t start predict ic le e3 e' :
  wf_graph g -> wf_table t -> start < g_ilen g ->
  In le (node_tail t ic) -> gpath g start ic e3 -> gpath g e3 (le_extra le) e' ->
  exists d e ch, e' <= e /\ match_extra g predict (le_extra le) 0 e3 = (true, d, e) /\
    In (e, ch) (lookup_chunks g t start predict) /\ c_code ch = ic ++ le_extra le /\ In (le_ent le) (c_ents ch).
Proof.
  intros W WT Hs Hle Hg3 Hgx.
  assert (NE : node_tail t ic <> []) by (intros E; rewrite E in Hle; destruct Hle).
  pose proof (wf_tail_extra t WT ic le Hle) as NX.
  assert (Hl3 : e3 < g_ilen g).
  { pose proof (gpath_lt g _ _ _ W NX Hgx). pose proof (gpath_end_le g _ _ _ W NX Hgx). lia. }
  assert (Hidx : exists index, In (e3, index) (g_indices g)).
  { inversion Hgx as [|? ? p ? ? [index [pl [Hi _]]] _]; subst; [congruence|eauto]. }
  destruct (proj2 (query_tail_pages g t start ic e3 W WT Hs NE) (conj Hg3 (conj Hl3 Hidx))) as [cred Hq].
  destruct (match_extra_complete g predict (le_extra le) W 0 e3 e' Hgx) as [S1 S2].
  destruct (match_extra g predict (le_extra le) 0 e3) as [[ok d] e] eqn:EM. cbn [fst snd] in S1, S2. subst ok.
  exists d, e, (mkChunk (ic ++ le_extra le) [le_ent le] 0 (length ic + d) cred).
  split; [exact S2|]. split; [reflexivity|]. split; [|split; [reflexivity|now left]].
  apply lookup_chunks_in. exists e3, (AccLong ic (node_tail t ic) cred). split; [exact Hq|].
  cbn [chunks_of_item snd fst]. apply in_flat_map. exists le. split; [exact Hle|]. rewrite EM. now left.
Qed.

(** exact matches (predict_word = false): the collector, entry by entry.  [spelled g c s e]: the code labels a path
    s -> e; for codes longer than three syllables the lookup registers the entry at the FARTHEST end its extra code
    reaches from the end of the three-syllable index code *)
Theorem collector_exact g t start e c te :
  wf_graph g -> wf_table t -> start < g_ilen g ->
  ((exists ch, In (e, ch) (lookup_chunks g t start false) /\ c_code ch = c /\ In te (c_ents ch)) <->
   table_has t c te /\ spelled g c start e).
Proof.
  intros W WT Hs. split.
  - intros [ch [Hin [<- Hte]]]. split; [exact (cs_has (lookup_chunks_sound _ _ _ _ _ _ W Hin) WT te Hte)|].
    apply lookup_chunks_spec in Hin; [|exact W|exact Hs].
    destruct Hin as [ic pos cred x p Wp L He NE|ic e0 cred le d e Wp L Hi Hle EM]; cbn [c_code].
    + apply spelled_short; [rewrite app_length; cbn; lia|]. apply gpath_snoc. exists pos, p. eauto using wpath_gpath.
    + apply match_extra_exact in EM; [|exact W]. destruct EM as [_ Hf].
      apply spelled_long; [exact L|exact (wf_tail_extra t WT ic le Hle)|]. exists e0. eauto using wpath_gpath.
  - intros [Hth Hsp]. destruct (table_has_inv t c te WT Hth) as [[L Hte]|(ic & ex & -> & L & NX & Hte)].
    + apply spelled_short in Hsp; [|lia]. exact (lookup_chunks_short g t start false c e te W WT Hs L Hte Hsp).
    + apply spelled_long in Hsp; [|exact L|exact NX]. destruct Hsp as (e3 & Hg3 & Hgx & Hmax).
      destruct (lookup_chunks_long g t start false ic (mkLE ex te) e3 e W WT Hs Hte Hg3 Hgx) as (d & e1 & ch & Hle & EM & H).
      apply match_extra_exact in EM; [|exact W]. destruct EM as [_ [Hg1 _]].
      assert (e1 = e) by (specialize (Hmax _ Hg1); cbn [le_extra] in *; lia). subst e1. exists ch. exact H.
Qed.

(** with or without prediction, every table entry whose code labels a path is offered, at that end or a later one *)
Lemma collector_complete g t start predict e c te :
  wf_graph g -> wf_table t -> start < g_ilen g ->
  table_has t c te -> gpath g start c e ->
  exists e' ch, e <= e' /\ In (e', ch) (lookup_chunks g t start predict) /\ c_code ch = c /\ In te (c_ents ch).
Proof.
  intros W WT Hs Hth Hg. destruct (table_has_inv t c te WT Hth) as [[L Hte]|(ic & ex & -> & L & NX & Hte)].
  - destruct (lookup_chunks_short g t start predict c e te W WT Hs L Hte Hg) as (ch & H). exists e, ch. split; [apply le_n|exact H].
  - apply gpath_app in Hg. destruct Hg as [e3 [Hg3 Hgx]].
    destruct (lookup_chunks_long g t start predict ic (mkLE ex te) e3 e W WT Hs Hte Hg3 Hgx) as (d & e1 & ch & Hle & _ & H).
    exists e1, ch. split; [exact Hle|exact H].
Qed.
