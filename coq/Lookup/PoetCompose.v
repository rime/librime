(** C07 - the modelled Poet on the word graphs the two translators build: the oracle hypothesis of the C07 theorems
    ([wg_path_ok wg 0 total s] for every answer of the sentence maker) is DISCHARGED for the script translator's graph
    (no edge without entries when max_homophones >= 1; with max_homophones = 0 every edge is empty and the dynamic
    programme makes no sentence, BeamSearch starts at 0 on every graph) and for the table translator's graph (every
    start position is a vertex reached over an edge with entries). *)
From Coq Require Import List Arith ZArith NArith Bool Lia Sorted Permutation.
From RimeV Require Import Base.ListX Lookup.Defs Lookup.Model Lookup.Spec Lookup.MapProofs Lookup.IterProofs
     Lookup.LookupProofs Lookup.ScriptProofs Lookup.TableProofs Lookup.Poet Lookup.PoetProofs.
Import ListNotations.
Local Open Scope nat_scope.

Definition script_ends (g : graph) (t : table) (mh s : nat) : list (nat * list dentry) :=
  map (fun ei : nat * list chunk => (fst ei, firstn mh (drain_all (snd ei)))) (lookup g t s false).

Lemma script_wgraph_in g t mh s ends : In (s, ends) (script_wgraph g t mh) -> ends = script_ends g t mh s /\ In s (map fst (g_edges g)).
Proof.
  unfold script_wgraph. intros H. apply in_map_iff in H. destruct H as [[k v] [E H]]. cbn [fst] in E. injection E as -> <-.
  split; [reflexivity|]. now apply (in_map fst) in H.
Qed.

Lemma script_wgraph_det g t mh : wg_det (script_wgraph g t mh).
Proof.
  intros s ends e ents Hs He. destruct (script_wgraph_in g t mh s ends Hs) as [-> Hk]. unfold assoc_list at 2.
  change (script_wgraph g t mh)
    with (map (fun x : nat * list (nat * list (syll * props)) => (fst x, script_ends g t mh (fst x))) (g_edges g)).
  rewrite (assoc_map_fun (script_ends g t mh) (g_edges g) s Hk).
  unfold assoc_list. rewrite (in_assoc_nat_sorted e ents (script_ends g t mh s)); [reflexivity| |exact He].
  unfold keys_sorted, script_ends. rewrite map_map. cbn [fst].
  change (map (fun x : nat * list chunk => fst x) ?l) with (map fst l). apply lookup_keys_sorted.
Qed.

Lemma lookup_drain_nonempty g t start predict e it :
  wf_graph g -> In (e, it) (lookup g t start predict) -> drain_all it <> [].
Proof.
  intros W H. pose proof (lookup_iter_nonempty g t start predict e it W H) as F.
  destruct it as [|c r].
  - apply lookup_in in H. destruct H as [cs [Hin E]]. pose proof (group_nonempty (lookup_chunks g t start predict)) as G.
    rewrite Forall_forall in G. exfalso. apply (G _ Hin). cbn [snd]. apply Permutation_nil. rewrite E. symmetry. apply sort_head_perm.
  - inversion F as [|? ? Nc _]. unfold nonempty in Nc. destruct (c_ents c) as [|te tl] eqn:E; [congruence|].
    exact (iter_peek_drain _ _ (iter_peek_some c r te tl E)).
Qed.

Lemma script_wgraph_no_empty g t mh : wf_graph g -> 0 < mh -> wg_no_empty (script_wgraph g t mh).
Proof.
  intros W Hm s ends e ents Hs He. destruct (script_wgraph_in g t mh s ends Hs) as [-> _].
  apply in_map_iff in He. destruct He as [[e' it] [[= -> <-] Hin]].
  pose proof (lookup_drain_nonempty g t s false e it W Hin) as N.
  destruct (drain_all it) as [|d l]; [congruence|]. destruct mh; [lia|]. discriminate.
Qed.

Lemma script_wgraph_all_empty g t s ends e ents : In (s, ends) (script_wgraph g t 0) -> In (e, ents) ends -> ents = [].
Proof.
  intros Hs He. destruct (script_wgraph_in g t 0 s ends Hs) as [-> _].
  apply in_map_iff in He. now destruct He as [[e' it] [[= _ <-] _]].
Qed.

Theorem script_poet_path_ok gr pen cmp preceding g t mh s :
  wf_graph g ->
  make_sentence gr pen cmp preceding (script_wgraph g t mh) (g_ilen g) = Some s ->
  wg_path_ok (script_wgraph g t mh) 0 (g_ilen g) s = true.
Proof.
  intros W H. destruct mh as [|mh].
  - unfold make_sentence in H. destruct gr as [q|].
    + apply (wchain_path_ok _ (g_ilen g) (script_wgraph_det g t 0)). now apply (beam_sentence_chain (Some q) pen cmp preceding).
    + exfalso. destruct (dp_sentence_chain None pen cmp preceding _ _ s H) as [N [o [Wc _]]].
      destruct s as [|[d e] r]; [congruence|]. destruct Wc as [[ends [ents [H1 [H2 H3]]]] _].
      rewrite (script_wgraph_all_empty g t o ends e ents H1 H2) in H3. destruct H3.
  - apply (make_sentence_path_ok_no_empty gr pen cmp preceding); [apply script_wgraph_det| |exact H].
    apply script_wgraph_no_empty; [exact W|lia].
Qed.

(** the sentence ScriptTranslation shows is a concatenation of spelled entries covering the interpreted input *)
Theorem script_poet_sentence_is_concatenation gr pen cmp preceding g t mh s :
  wf_graph g -> wf_table t ->
  make_sentence gr pen cmp preceding (script_wgraph g t mh) (g_ilen g) = Some s -> chain g t 0 (g_ilen g) s.
Proof. intros W WT H. apply (wg_path_chain g t mh W WT). now apply (script_poet_path_ok gr pen cmp preceding). Qed.

Theorem script_poet_no_foreign_candidate gr pen cmp preceding wordcompl mh g t c :
  wf_graph g -> wf_table t ->
  In c (script_query (make_sentence gr pen cmp preceding) wordcompl mh g t) ->
  phrase_ok g t c \/ completion_ok g t wordcompl c \/ sentence_ok g t c.
Proof.
  intros W WT. apply script_no_foreign_candidate_local; [exact W|exact WT|].
  intros s. now apply script_poet_path_ok.
Qed.

(** * the table translator's word graph (TableTranslator::MakeSentence) *)

(** the two updates of the edges of one start position: [graph[start][end]] creates the list, [collect_entries]
    appends to it *)
Definition ss_ensure (k : nat) (ss : list (nat * list dentry)) : list (nat * list dentry) :=
  match assoc_nat k ss with Some _ => ss | None => ss ++ [(k, [])] end.

Definition ss_append (k : nat) (extra : list dentry) (ss : list (nat * list dentry)) : list (nat * list dentry) :=
  map (fun eh : nat * list dentry => if fst eh =? k then (fst eh, snd eh ++ extra) else eh) ss.

Definition filled (v : nat) (eh : nat * list dentry) : Prop := fst eh = v /\ snd eh <> [].

Lemma ss_ensure_in k ss : In k (map fst (ss_ensure k ss)).
Proof.
  unfold ss_ensure. destruct (assoc_nat k ss) as [v|] eqn:A.
  - apply assoc_nat_in in A. now apply (in_map fst) in A.
  - rewrite map_app. apply in_or_app. right. now left.
Qed.

Lemma ss_ensure_ok (P : nat * list dentry -> Prop) k ss :
  P (k, []) -> NoDup (map fst ss) -> Forall P ss -> NoDup (map fst (ss_ensure k ss)) /\ Forall P (ss_ensure k ss).
Proof.
  intros Pk N F. unfold ss_ensure. destruct (assoc_nat k ss) eqn:A; [auto|]. split.
  - rewrite map_app. apply (Permutation_NoDup (Permutation_cons_append _ k)). constructor; [now apply assoc_nat_none_notin|exact N].
  - apply Forall_app. auto.
Qed.

Lemma ss_ensure_filled k ss v : Exists (filled v) ss -> Exists (filled v) (ss_ensure k ss).
Proof. intros H. unfold ss_ensure. destruct (assoc_nat k ss); [exact H|]. apply Exists_app. now left. Qed.

Lemma ss_append_keys k extra ss : map fst (ss_append k extra ss) = map fst ss.
Proof. unfold ss_append. rewrite map_map. apply map_ext. intros [e ents]. cbn. now destruct (e =? k). Qed.

Lemma ss_append_filled k extra ss v : Exists (filled v) ss -> Exists (filled v) (ss_append k extra ss).
Proof.
  intros H. apply Exists_exists in H. destruct H as [[e ents] [Hin [E N]]]. apply Exists_exists.
  eexists. split; [apply in_map; exact Hin|]. cbn [fst snd] in *. destruct (e =? k); [|now split].
  split; [exact E|]. intros C. apply app_eq_nil in C. tauto.
Qed.

Lemma ss_append_new k extra ss : In k (map fst ss) -> extra <> [] -> Exists (filled k) (ss_append k extra ss).
Proof.
  intros H N. apply in_map_iff in H. destruct H as [[e ents] [E Hin]]. cbn in E. subst e. apply Exists_exists.
  eexists. split; [apply in_map; exact Hin|]. cbn [fst snd]. rewrite Nat.eqb_refl. split; [reflexivity|].
  intros C. apply app_eq_nil in C. tauto.
Qed.

Section TableGraph.
Variable mhg : nat.
Variable pr : prism.
Variable syls : list (nat * text).
Variable t : table.
Variable delims : text.
Variable inp : text.

(** the body of [for (const auto& m : reverse(matches))] of Model.ms_at, named *)
Definition ms_f (start_pos : nat) (active : text)
           (acc : list nat * list (nat * list dentry) * list (nat * list chunk)) (ks : text * list (syll * nat))
  : list nat * list (nat * list dentry) * list (nat * list chunk) :=
  let '(verts, same_start, coll) := acc in
  let mlen := length (fst ks) in
  let consumed := consume_delims delims (skipn mlen active) mlen in
  let end_pos := start_pos + consumed in
  let homographs := assoc_list end_pos same_start in
  if mhg <=? length homographs then (verts, ss_ensure end_pos same_start, coll)
  else
    let it := snd (lookup_words pr syls t (firstn mlen active) false 0) in
    match iter_peek it with
    | None => (verts, ss_ensure end_pos same_start, coll)
    | Some _ =>
        (end_pos :: verts,
         ss_append end_pos (firstn (mhg - length homographs) (drain_all it)) (ss_ensure end_pos same_start),
         if start_pos =? 0 then coll_put consumed it coll else coll)
    end.

Lemma ms_at_eq (st : ms_state) start_pos :
  ms_at mhg pr syls t delims inp st start_pos =
  let '(verts, wg, coll) := st in
  if negb (existsb (Nat.eqb start_pos) verts) then st
  else
    let r := fold_left (ms_f start_pos (skipn start_pos inp)) (rev (common_prefix pr (skipn start_pos inp))) (verts, [], coll) in
    let '(verts', same_start, coll') := r in
    (verts', wg ++ [(start_pos, same_start)], coll').
Proof. reflexivity. Qed.

(** a word of the dictionary spelled at [pos] by a prism key (normal spelling), trailing delimiters consumed *)
Definition tword (pos e : nat) (d : dentry) : Prop :=
  exists key sps sid, In (key, sps) pr /\ key <> [] /\ is_prefix key (skipn pos inp) = true /\
    e = pos + consume_delims delims (skipn (length key) (skipn pos inp)) (length key) /\
    In (sid, 0) sps /\ d_code d = [sid] /\ In (mkTE (d_text d) (d_w d)) (node_ents t [sid]).

Lemma consume_delims_ge rest : forall pos, pos <= consume_delims delims rest pos.
Proof.
  induction rest as [|x rest IH]; intros pos; cbn [consume_delims]; [lia|].
  destruct (existsb (N.eqb x) delims); [|lia]. specialize (IH (S pos)). lia.
Qed.

Lemma is_prefix_firstn p s : is_prefix p s = true -> firstn (length p) s = p.
Proof.
  intros H. apply is_prefix_spec in H. destruct H as [r ->].
  rewrite firstn_app, Nat.sub_diag, firstn_all. cbn. apply app_nil_r.
Qed.

Lemma exact_words_tword pos key d :
  key <> [] -> is_prefix key (skipn pos inp) = true ->
  In d (drain_all (snd (lookup_words pr syls t key false 0))) ->
  tword pos (pos + consume_delims delims (skipn (length key) (skipn pos inp)) (length key)) d.
Proof.
  intros Nk Hpre Hd. destruct (table_no_completion_when_disabled false pr syls t key d Hd) as [_ (sps & sid & H1 & H2)].
  exists key, sps, sid. auto.
Qed.

Definition edge_ok (s : nat) (eh : nat * list dentry) : Prop := s < fst eh /\ Forall (tword s (fst eh)) (snd eh).
Definition edges_ok (s : nat) (ss : list (nat * list dentry)) : Prop := NoDup (map fst ss) /\ Forall (edge_ok s) ss.

Definition inner_ok (start_pos : nat) (verts0 : list nat)
           (acc : list nat * list (nat * list dentry) * list (nat * list chunk)) : Prop :=
  let '(verts, ss, coll) := acc in
  edges_ok start_pos ss /\ forall v, In v verts -> In v verts0 \/ Exists (filled v) ss.

Lemma ss_append_ok s k extra ss : Forall (tword s k) extra -> edges_ok s ss -> edges_ok s (ss_append k extra ss).
Proof.
  intros T [N F]. split; [now rewrite ss_append_keys|].
  unfold ss_append. apply Forall_map. eapply Forall_impl; [|exact F]. intros [e ents] [L Te]. cbn [fst snd] in *.
  destruct (e =? k) eqn:E; [|now split]. apply Nat.eqb_eq in E. subst e. split; [exact L|]. apply Forall_app. auto.
Qed.

Lemma inner_ok_ensure s verts0 verts ss coll coll' k :
  s < k -> inner_ok s verts0 (verts, ss, coll) -> inner_ok s verts0 (verts, ss_ensure k ss, coll').
Proof.
  intros L [[N F] V]. split.
  - apply ss_ensure_ok; [split; [exact L|constructor]|exact N|exact F].
  - intros v Hv. destruct (V v Hv) as [H|H]; [now left|right; now apply ss_ensure_filled].
Qed.

Lemma inner_ok_append s verts0 verts ss coll coll' k extra :
  In k (map fst ss) -> extra <> [] -> Forall (tword s k) extra ->
  inner_ok s verts0 (verts, ss, coll) -> inner_ok s verts0 (k :: verts, ss_append k extra ss, coll').
Proof.
  intros Hk NE T [E V]. split; [now apply ss_append_ok|].
  intros v [<-|Hv]; [right; now apply ss_append_new|]. destruct (V v Hv) as [H|H]; [now left|right; now apply ss_append_filled].
Qed.

Lemma ms_f_ok start_pos verts0 acc ks :
  In ks (common_prefix pr (skipn start_pos inp)) ->
  inner_ok start_pos verts0 acc -> inner_ok start_pos verts0 (ms_f start_pos (skipn start_pos inp) acc ks).
Proof.
  intros Hks. destruct acc as [[verts ss] coll]. intros IO.
  unfold common_prefix in Hks. apply filter_In in Hks. destruct Hks as [Hpr Hk]. apply andb_true_iff in Hk.
  destruct Hk as [Hlen Hpre]. apply negb_true_iff, Nat.eqb_neq in Hlen.
  unfold ms_f. set (active := skipn start_pos inp) in *. set (mlen := length (fst ks)) in *.
  set (consumed := consume_delims delims (skipn mlen active) mlen). set (end_pos := start_pos + consumed).
  assert (Hc : mlen <= consumed) by apply consume_delims_ge.
  assert (IO' : forall coll', inner_ok start_pos verts0 (verts, ss_ensure end_pos ss, coll'))
    by (intros coll'; apply (inner_ok_ensure _ _ _ _ coll); [lia|exact IO]).
  destruct (mhg <=? length (assoc_list end_pos ss)) eqn:G; [apply IO'|]. apply Nat.leb_gt in G.
  set (it := snd (lookup_words pr syls t (firstn mlen active) false 0)).
  destruct (iter_peek it) as [d0|] eqn:P; [|apply IO'].
  apply (inner_ok_append _ _ _ _ coll); [apply ss_ensure_in| | |apply IO'].
  - pose proof (iter_peek_drain it d0 P) as ND. destruct (drain_all it); [congruence|].
    destruct (mhg - length (assoc_list end_pos ss)) eqn:E; [lia|discriminate].
  - apply Forall_forall. intros d Hd. unfold it, mlen in Hd. apply in_firstn in Hd.
    rewrite (is_prefix_firstn _ _ Hpre) in Hd. apply exact_words_tword; [|exact Hpre|exact Hd].
    intros E. apply Hlen. unfold mlen. now rewrite E.
Qed.

(** [gkey] without its exclusion of the single edge 0 -> total: a vertex may be the end of that edge; a start
    position is below the input length, so for the keys of the graph the two agree ([table_wgraph_grounded]) *)
Definition gk (wg : wgraph) (q : nat) : Prop :=
  q = 0 \/ exists s ss ents, In (s, ss) wg /\ In (q, ents) ss /\ ents <> [].

Lemma gk_mono wg wg' q : incl wg wg' -> gk wg q -> gk wg' q.
Proof. intros Hi [->|[s [ss [ents [H1 H2]]]]]; [now left|right; exists s, ss, ents; split; [now apply Hi|exact H2]]. Qed.

Definition wg_ok (k : nat) (wg : wgraph) : Prop :=
  StronglySorted lt (map fst wg) /\ (forall key, In key (map fst wg) -> key < k) /\
  Forall (fun sv => edges_ok (fst sv) (snd sv)) wg /\
  (forall pre q ss post, wg = pre ++ (q, ss) :: post -> gk pre q).

Definition outer_ok (k : nat) (st : ms_state) : Prop :=
  let '(verts, wg, coll) := st in wg_ok k wg /\ forall v, In v verts -> gk wg v.

Lemma wg_ok_weaken k wg : wg_ok k wg -> wg_ok (S k) wg.
Proof. intros (S & K & E & G). split; [exact S|]. split; [intros key H; specialize (K key H); lia|]. auto. Qed.

Lemma wg_ok_snoc k wg ss : wg_ok k wg -> edges_ok k ss -> gk wg k -> wg_ok (S k) (wg ++ [(k, ss)]).
Proof.
  intros (S & K & E & G) E' Gk. split; [|split; [|split]].
  - rewrite map_app. apply StronglySorted_app; [exact S|repeat constructor|]. intros a b Ha [<-|[]]. now apply K.
  - intros key H. rewrite map_app in H. apply in_app_or in H. destruct H as [H|[<-|[]]]; [specialize (K key H); lia|cbn [fst]; lia].
  - apply Forall_app. split; [exact E|]. constructor; [exact E'|constructor].
  - intros pre q ss0 post H. symmetry in H. apply snoc_split in H.
    destruct H as [[-> [= -> _]]|[post' H]]; [exact Gk|now apply (G pre q ss0 post')].
Qed.

Lemma ms_at_ok k st : outer_ok k st -> outer_ok (S k) (ms_at mhg pr syls t delims inp st k).
Proof.
  rewrite ms_at_eq. destruct st as [[verts wg] coll]. intros [W V].
  destruct (negb (existsb (Nat.eqb k) verts)) eqn:X; [split; [now apply wg_ok_weaken|exact V]|].
  apply negb_false_iff, existsb_exists in X. destruct X as [k' [Hk' Ek]]. apply Nat.eqb_eq in Ek. subst k'.
  pose proof (fold_left_inv (inner_ok k verts) (ms_f k (skipn k inp)) (rev (common_prefix pr (skipn k inp))) (verts, [], coll)) as IO.
  destruct (fold_left (ms_f k (skipn k inp)) (rev (common_prefix pr (skipn k inp))) (verts, [], coll)) as [[verts' ss] coll'].
  destruct IO as [E' V'].
  { split; [split; constructor|auto]. }
  { intros a x Hx. apply ms_f_ok. now apply in_rev. }
  split; [apply wg_ok_snoc; [exact W|exact E'|now apply V]|].
  intros v Hv. destruct (V' v Hv) as [H|H].
  - apply (gk_mono wg); [intros x Hx; apply in_or_app; now left|now apply V].
  - apply Exists_exists in H. destruct H as [[e ents] [Hin [<- Ne]]].
    right. exists k, ss, ents. split; [apply in_or_app; right; now left|auto].
Qed.

Lemma ms_fold_ok : forall n a st, outer_ok a st -> outer_ok (a + n) (fold_left (ms_at mhg pr syls t delims inp) (seq a n) st).
Proof.
  induction n as [|n IH]; intros a st H; cbn [seq fold_left]; [now rewrite Nat.add_0_r|].
  replace (a + S n) with (S a + n) by lia. apply IH. now apply ms_at_ok.
Qed.

Lemma table_wgraph_ok : wg_ok (length inp) (table_wgraph mhg pr syls t delims inp).
Proof.
  assert (H : outer_ok (length inp) (table_ms mhg pr syls t delims inp)).
  { apply (ms_fold_ok (length inp) 0). split; [|intros v [<-|[]]; now left].
    split; [constructor|]. split; [intros ? []|]. split; [constructor|]. intros pre q ss post H. destruct pre; discriminate. }
  unfold table_wgraph. destruct (table_ms mhg pr syls t delims inp) as [[verts wg] coll]. exact (proj1 H).
Qed.

Lemma table_wgraph_edges s ss :
  In (s, ss) (table_wgraph mhg pr syls t delims inp) ->
  NoDup (map fst ss) /\ forall e ents, In (e, ents) ss -> s < e /\ forall d, In d ents -> tword s e d.
Proof.
  intros H. destruct table_wgraph_ok as (_ & _ & E & _). rewrite Forall_forall in E. destruct (E _ H) as [N F].
  split; [exact N|]. intros e ents He. rewrite Forall_forall in F. destruct (F _ He) as [L T]. split; [exact L|].
  now apply Forall_forall.
Qed.

Theorem table_wgraph_map : wg_map (table_wgraph mhg pr syls t delims inp).
Proof.
  split; [apply keys_sorted_nodup, table_wgraph_ok|]. intros s ss Hin. apply (table_wgraph_edges s ss Hin).
Qed.

Theorem table_wgraph_sorted_forward :
  wg_sorted (table_wgraph mhg pr syls t delims inp) /\ wg_forward (table_wgraph mhg pr syls t delims inp).
Proof. split; [apply table_wgraph_ok|]. intros s ss e ents H1 H2. now apply (proj2 (table_wgraph_edges s ss H1) e ents). Qed.

Theorem table_wgraph_grounded : grounded (table_wgraph mhg pr syls t delims inp) (length inp).
Proof.
  destruct table_wgraph_ok as (_ & K & _ & G). intros pre q ss post Hw.
  destruct (G pre q ss post Hw) as [->|(s & ss' & ents & H1 & H2 & H3)]; [now left|]. right. exists s, ss', ents.
  split; [exact H1|]. split; [exact H2|]. split; [exact H3|]. intros [_ C].
  assert (q < length inp); [|lia]. apply K. rewrite Hw, map_app. apply in_or_app. right. now left.
Qed.

Theorem table_wgraph_words s e d :
  wedge (table_wgraph mhg pr syls t delims inp) s e d -> tword s e d.
Proof. intros (ss & ents & H1 & H2 & H3). now apply (proj2 (table_wgraph_edges s ss H1) e ents). Qed.

Theorem table_poet_path_ok gr pen cmp preceding s :
  make_sentence gr pen cmp preceding (table_wgraph mhg pr syls t delims inp) (length inp) = Some s ->
  wg_path_ok (table_wgraph mhg pr syls t delims inp) 0 (length inp) s = true.
Proof.
  apply make_sentence_path_ok_grounded; [apply wg_map_det, table_wgraph_map|apply table_wgraph_grounded].
Qed.

Inductive tchain : nat -> nat -> sentence -> Prop :=
| tc_nil : forall p, tchain p p []
| tc_cons : forall pos e fin d r, tword pos e d -> tchain e fin r -> tchain pos fin ((d, e) :: r).

Lemma wchain_tchain total : forall p pos fin,
  wchain (table_wgraph mhg pr syls t delims inp) total pos fin p -> tchain pos fin p.
Proof.
  induction p as [|[d e] p IH]; intros pos fin H; cbn [wchain] in H; [subst; constructor|].
  destruct H as [H1 [_ H3]]. constructor; [now apply table_wgraph_words|now apply IH].
Qed.

(** the sentence the table translator shows is a concatenation of dictionary words, each spelled (normal spelling) by
    a prism key at its position, covering the whole input *)
Theorem table_poet_sentence_is_concatenation gr pen cmp preceding s :
  make_sentence gr pen cmp preceding (table_wgraph mhg pr syls t delims inp) (length inp) = Some s ->
  tchain 0 (length inp) s.
Proof.
  intros H. apply (wchain_tchain (length inp)). now apply (make_sentence_chain_grounded gr pen cmp preceding _ _ s table_wgraph_grounded).
Qed.

(** SentenceTranslation's first candidate *)
Theorem table_poet_sentence_candidate gr pen cmp preceding l :
  table_sentence (make_sentence gr pen cmp preceding) mhg pr syls t delims inp = Some l ->
  exists s, l = sentence_cand s :: prefix_phrases (snd (table_ms mhg pr syls t delims inp)) /\ tchain 0 (length inp) s /\
            wg_path_ok (table_wgraph mhg pr syls t delims inp) 0 (length inp) s = true.
Proof.
  unfold table_sentence. destruct (make_sentence gr pen cmp preceding _ _) as [s|] eqn:E; [|discriminate].
  intros H. injection H as <-. exists s. split; [reflexivity|]. split.
  - now apply (table_poet_sentence_is_concatenation gr pen cmp preceding).
  - now apply (table_poet_path_ok gr pen cmp preceding).
Qed.

End TableGraph.
