(** C17 – theorems about [UserDbMerger] and [UserDbImporter] over arbitrary
    dictionaries (induction over the entry lists). *)
From Coq Require Import List NArith ZArith Bool Lia.
From RimeV Require Import Base.Bytes Base.ListX Udb.Value Udb.ValueProofs Udb.Merge.
Import ListNotations.

Definition keys (m : amap) : list bytes := map fst m.

Lemma find_none_iff k m : find k m = None <-> ~ In k (keys m).
Proof.
  induction m as [|[k' v] m IH]; cbn [find keys map In fst]; [tauto|].
  destruct (bytes_eqb_spec k k') as [->|N]; [intuition discriminate|].
  rewrite IH. unfold keys. intuition congruence.
Qed.

Lemma find_some_in k v m : find k m = Some v -> In (k, v) m.
Proof.
  induction m as [|[k' v'] m IH]; cbn [find]; [discriminate|].
  destruct (bytes_eqb_spec k k') as [->|N]; intro H; [injection H as ->; now left | right; now apply IH].
Qed.

Lemma find_some_iff k m : find k m <> None <-> In k (keys m).
Proof.
  destruct (find k m) as [v|] eqn:F.
  - split; [intros _ | discriminate]. apply find_some_in in F. now apply (in_map fst) in F.
  - apply find_none_iff in F. tauto.
Qed.

Lemma in_find_nodup k v m : NoDup (keys m) -> In (k, v) m -> find k m = Some v.
Proof.
  induction m as [|[k' v'] m IH]; intros ND H; [contradiction|].
  cbn [keys map] in ND. inversion ND as [|? ? Hn ND']; subst. cbn [find].
  destruct H as [H|H]; [injection H as -> ->; now rewrite bytes_eqb_refl|].
  destruct (bytes_eqb_spec k k') as [->|N]; [|now apply IH].
  exfalso. apply Hn. now apply (in_map fst) in H.
Qed.

Lemma keys_replace k v m : keys (replace k v m) = keys m.
Proof.
  induction m as [|[k' v'] m IH]; [reflexivity|]. cbn [replace].
  destruct (bytes_eqb k k'); cbn [keys map]; [reflexivity|]. f_equal. exact IH.
Qed.

Lemma find_replace_same k v m : find k m <> None -> find k (replace k v m) = Some v.
Proof.
  induction m as [|[k' v'] m IH]; cbn [find replace]; [congruence|].
  destruct (bytes_eqb k k') eqn:E; cbn [find]; rewrite E; [reflexivity | exact IH].
Qed.

Lemma find_replace_other k k' v m : k' <> k -> find k' (replace k v m) = find k' m.
Proof.
  intro N. induction m as [|[k1 v1] m IH]; [reflexivity|]. cbn [replace].
  destruct (bytes_eqb_spec k k1) as [<-|_]; cbn [find]; [|now rewrite IH].
  now destruct (bytes_eqb_spec k' k).
Qed.

Lemma find_insert_same k v m : find k m = None -> find k (insert k v m) = Some v.
Proof.
  induction m as [|[k1 v1] m IH]; cbn [find insert]; intro H.
  - now rewrite bytes_eqb_refl.
  - destruct (bytes_eqb k k1) eqn:E; [discriminate|].
    destruct (bytes_ltb k k1); cbn [find]; [now rewrite bytes_eqb_refl | rewrite E; now apply IH].
Qed.

Lemma find_insert_other k k' v m : k' <> k -> find k' (insert k v m) = find k' m.
Proof.
  intro N. apply bytes_eqb_neq in N.
  induction m as [|[k1 v1] m IH]; cbn [insert find]; [now rewrite N|].
  destruct (bytes_ltb k k1); cbn [find]; [now rewrite N | now rewrite IH].
Qed.

Lemma nodup_insert k v m : ~ In k (keys m) -> NoDup (keys m) -> NoDup (keys (insert k v m)).
Proof.
  induction m as [|[k1 v1] m IH]; cbn [insert keys map fst]; intros Hn ND.
  - constructor; [intros []|constructor].
  - destruct (bytes_ltb k k1); cbn [keys map fst]; [now constructor|].
    inversion ND as [|? ? Hn1 ND1]; subst. constructor.
    + intro C. apply find_some_iff in C. rewrite find_insert_other in C by (intros ->; apply Hn; now left).
      now apply Hn1, find_some_iff.
    + apply IH; [intro C; apply Hn; now right | exact ND1].
Qed.

Lemma mem_true_iff k m : mem k m = true <-> find k m <> None.
Proof. unfold mem. destruct (find k m); split; congruence. Qed.

Lemma upd_cases k v m :
  (find k m <> None /\ upd k v m = replace k v m) \/ (find k m = None /\ upd k v m = insert k v m).
Proof. unfold upd, mem. destruct (find k m); [left | right]; split; congruence. Qed.

Lemma find_upd_same k v m : find k (upd k v m) = Some v.
Proof. destruct (upd_cases k v m) as [[H ->]|[H ->]]; [now apply find_replace_same | now apply find_insert_same]. Qed.

Lemma find_upd_other k k' v m : k' <> k -> find k' (upd k v m) = find k' m.
Proof.
  intro N. destruct (upd_cases k v m) as [[_ ->]|[_ ->]]; [now apply find_replace_other | now apply find_insert_other].
Qed.

Lemma nodup_upd k v m : NoDup (keys m) -> NoDup (keys (upd k v m)).
Proof.
  intro ND. destruct (upd_cases k v m) as [[_ ->]|[H ->]]; [now rewrite keys_replace|].
  apply nodup_insert; [now apply find_none_iff | exact ND].
Qed.

Lemma keys_upd_present k v m : find k m <> None -> keys (upd k v m) = keys m.
Proof. intro H. destruct (upd_cases k v m) as [[_ ->]|[H' _]]; [apply keys_replace | contradiction]. Qed.

Lemma in_keys_upd k' k v m : In k' (keys (upd k v m)) <-> k' = k \/ In k' (keys m).
Proof.
  rewrite <- !find_some_iff. destruct (bytes_eqb_spec k' k) as [->|N].
  - rewrite find_upd_same. intuition discriminate.
  - rewrite find_upd_other by exact N. tauto.
Qed.

Lemma nodup_filter_keys (f : bytes * bytes -> bool) m : NoDup (keys m) -> NoDup (keys (filter f m)).
Proof.
  induction m as [|kv m IH]; intro ND; [constructor|].
  cbn [keys map] in ND. inversion ND as [|? ? Hn ND']; subst. cbn [filter].
  destruct (f kv); [|now apply IH]. cbn [keys map]. constructor; [|now apply IH].
  intro C. apply Hn. unfold keys in *. apply in_map_iff in C. destruct C as (x & Hx & Hin).
  apply filter_In in Hin. apply in_map_iff. exists x. tauto.
Qed.

Lemma find_filter (f : bytes * bytes -> bool) k m : NoDup (keys m) ->
  find k (filter f m) = match find k m with Some v => if f (k, v) then Some v else None | None => None end.
Proof.
  induction m as [|[k1 v1] m IH]; intro ND; [reflexivity|].
  cbn [keys map] in ND. inversion ND as [|? ? Hn ND']; subst. cbn [filter find].
  destruct (bytes_eqb k k1) eqn:E.
  - apply bytes_eqb_eq in E. subst k1. destruct (f (k, v1)); cbn [find]; [now rewrite bytes_eqb_refl|].
    apply find_none_iff in Hn. now rewrite (IH ND'), Hn.
  - destruct (f (k1, v1)); cbn [find]; rewrite ?E; exact (IH ND').
Qed.

Lemma find_map_values (h : bytes -> bytes) k m :
  find k (map (fun kv => (fst kv, h (snd kv))) m) = option_map h (find k m).
Proof.
  induction m as [|[k1 v1] m IH]; [reflexivity|]. cbn [map find fst snd].
  destruct (bytes_eqb k k1); [reflexivity | exact IH].
Qed.

Lemma nodup_query_all m : NoDup (keys m) -> NoDup (keys (query_all m)).
Proof. apply nodup_filter_keys. Qed.

(** [DbSink], [UserDbMerger] and [UserDbImporter] all pump records into a map one [upd] at a
    time, the stored value being computed from the record and from what the map holds under
    its key. *)

Definition upd_fold (f : option bytes -> bytes -> bytes) (l m : amap) : amap :=
  fold_left (fun m kv => upd (fst kv) (f (find (fst kv) m) (snd kv)) m) l m.

Lemma upd_fold_cons f k v l m : upd_fold f ((k, v) :: l) m = upd_fold f l (upd k (f (find k m) v) m).
Proof. reflexivity. Qed.

Lemma upd_fold_ind (R : amap -> Prop) f l :
  (forall m k v, In (k, v) l -> R m -> R (upd k (f (find k m) v) m)) -> forall m, R m -> R (upd_fold f l m).
Proof.
  intros Hs m Hm. unfold upd_fold. apply fold_left_inv; [exact Hm|]. intros m' [k v] Hin. now apply Hs.
Qed.

Lemma find_upd_fold_other f l m k : ~ In k (keys l) -> find k (upd_fold f l m) = find k m.
Proof.
  intro H. apply (upd_fold_ind (fun m' => find k m' = find k m)); [|reflexivity].
  intros m' k1 v Hin E. rewrite find_upd_other; [exact E|]. intros ->. apply H. now apply (in_map fst) in Hin.
Qed.

Lemma find_upd_fold f l : forall m k, NoDup (keys l) ->
  find k (upd_fold f l m) = match find k l with Some v => Some (f (find k m) v) | None => find k m end.
Proof.
  induction l as [|[k1 v1] l IH]; intros m k ND; [reflexivity|].
  cbn [keys map] in ND. inversion ND as [|? ? Hn ND']; subst.
  rewrite upd_fold_cons. cbn [find]. destruct (bytes_eqb_spec k k1) as [->|N].
  - rewrite find_upd_fold_other by exact Hn. apply find_upd_same.
  - now rewrite (IH _ _ ND'), (find_upd_other _ _ _ _ N).
Qed.

Lemma in_keys_upd_fold f l : forall m k, In k (keys (upd_fold f l m)) <-> In k (keys m) \/ In k (keys l).
Proof.
  induction l as [|[k1 v1] l IH]; intros m k; [cbn; tauto|].
  rewrite upd_fold_cons, IH, in_keys_upd. cbn [keys map In fst]. intuition congruence.
Qed.

Lemma nodup_upd_fold f l m : NoDup (keys m) -> NoDup (keys (upd_fold f l m)).
Proof. apply (upd_fold_ind (fun m => NoDup (keys m))). intros m' k v _. apply nodup_upd. Qed.

Section MergeProofs.
  Variable O : dee_ops.
  Hypothesis dee_ok : dee_print_ok O.

  Definition puts (g : Z) (m : merger) (l : amap) : merger :=
    fold_left (fun m kv => fst (m_put O g m (fst kv) (snd kv))) l m.
  Definition metas (m : merger) (l : amap) : merger :=
    fold_left (fun m kv => m_meta_put m (fst kv) (snd kv)) l m.

  (** the tick a snapshot's metadata carries into the merger (0 when there is none) *)
  Definition tick_step (t : N) (kv : bytes * bytes) : N :=
    if bytes_eqb (fst kv) mk_tick then match stoul (snd kv) with Some t' => t' | None => t end else t.
  Definition snapshot_tick (src : db) : N := fold_left tick_step (meta src) 0%N.

  Lemma puts_cons g m k v l : puts g m ((k, v) :: l) = puts g (fst (m_put O g m k v)) l.
  Proof. reflexivity. Qed.
  Lemma metas_cons m k v l : metas m ((k, v) :: l) = metas (m_meta_put m k v) l.
  Proof. reflexivity. Qed.

  Lemma merge_run_unfold inits g uid src dst :
    merge_run O inits g uid src dst = m_close g uid (puts g (metas (mk_merger inits dst) (meta src)) (query_all (data src))).
  Proof. reflexivity. Qed.


  Definition with_their (m : merger) (t : N) : merger :=
    {| m_db := m_db m; our_tick := our_tick m; their_tick := t; max_tick := N.max (our_tick m) t;
       merged_entries := merged_entries m; m_uninit := m_uninit m |}.

  Lemma with_their_same m : max_tick m = N.max (our_tick m) (their_tick m) -> with_their m (their_tick m) = m.
  Proof. destruct m as [d o t x e u]. unfold with_their. cbn [m_db our_tick their_tick max_tick merged_entries m_uninit]. now intros ->. Qed.

  Lemma metas_spec l : forall m, max_tick m = N.max (our_tick m) (their_tick m) ->
    metas m l = with_their m (fold_left tick_step l (their_tick m)).
  Proof.
    induction l as [|[k v] l IH]; intros m H; [symmetry; now apply with_their_same|].
    rewrite metas_cons. cbn [fold_left].
    assert (E : m_meta_put m k v = with_their m (tick_step (their_tick m) (k, v))).
    { unfold m_meta_put, tick_step. cbn [fst snd].
      destruct (bytes_eqb k mk_tick); [destruct (stoul v)|]; reflexivity || (symmetry; now apply with_their_same). }
    rewrite E. now rewrite IH.
  Qed.

  Lemma get_tick_count_range d : (get_tick_count d <= ULONG_MAX)%N.
  Proof.
    unfold get_tick_count. destruct (find mk_tick (meta d)) as [t|]; [|unfold ULONG_MAX; lia].
    destruct (stoul t) eqn:E; [now apply stoul_range in E | unfold ULONG_MAX; lia].
  Qed.

  Lemma tick_fold_range l : forall t, (t <= ULONG_MAX)%N -> (fold_left tick_step l t <= ULONG_MAX)%N.
  Proof.
    induction l as [|[k v] l IH]; intros t H; [exact H|]. cbn [fold_left]. apply IH.
    unfold tick_step. cbn [fst snd]. destruct (bytes_eqb k mk_tick); [|exact H].
    destruct (stoul v) eqn:E; [now apply stoul_range in E | exact H].
  Qed.

  Lemma snapshot_tick_range src : (snapshot_tick src <= ULONG_MAX)%N.
  Proof. apply tick_fold_range. unfold ULONG_MAX. lia. Qed.

  Lemma max_tick_range dst src : (N.max (get_tick_count dst) (snapshot_tick src) <= ULONG_MAX)%N.
  Proof. pose proof (get_tick_count_range dst). pose proof (snapshot_tick_range src). lia. Qed.

  Lemma after_metas inits src dst :
    metas (mk_merger inits dst) (meta src) = with_their (mk_merger inits dst) (snapshot_tick src).
  Proof. apply metas_spec. cbn. lia. Qed.


  (** what [Put] stores under a key holding [ours] when the snapshot brings [theirs] *)
  Definition merge_rule (our their mx : N) (ours : option bytes) (theirs : bytes) : bytes :=
    pack O (merge_value O our their mx ours theirs).

  Lemma puts_spec g l : forall m,
    data (m_db (puts g m l)) = upd_fold (merge_rule (our_tick m) (their_tick m) (max_tick m)) l (data (m_db m)) /\
    meta (m_db (puts g m l)) = meta (m_db m) /\ our_tick (puts g m l) = our_tick m /\
    their_tick (puts g m l) = their_tick m /\ max_tick (puts g m l) = max_tick m.
  Proof.
    induction l as [|[k v] l IH]; intro m; [cbn; tauto|]. rewrite puts_cons. exact (IH (fst (m_put O g m k v))).
  Qed.

  Lemma puts_merged g l : forall m, l <> [] ->
    merged_entries (puts g m l) = Some (rd g (merged_entries m) + Z.of_nat (length l))%Z.
  Proof.
    induction l as [|[k1 v1] l IH]; intros m H; [contradiction|].
    rewrite puts_cons.
    destruct l as [|kv l'].
    - cbn. f_equal.
    - rewrite IH by discriminate. cbn [m_put fst merged_entries rd]. f_equal. cbn [length]. lia.
  Qed.

  Lemma close_data g uid m : data (m_db (m_close g uid m)) = data (m_db m).
  Proof. unfold m_close. destruct (_ =? _)%Z; reflexivity. Qed.

  Definition merged_value (src dst : db) : option bytes -> bytes -> bytes :=
    merge_rule (get_tick_count dst) (snapshot_tick src) (N.max (get_tick_count dst) (snapshot_tick src)).

  Theorem merge_data inits g uid src dst :
    data (merge_db O inits g uid src dst) = upd_fold (merged_value src dst) (query_all (data src)) (data dst).
  Proof.
    unfold merge_db. rewrite merge_run_unfold, close_data, after_metas. apply puts_spec.
  Qed.

  Lemma merge_meta inits g uid src dst :
    let r := merge_db O inits g uid src dst in
    meta r = meta dst \/
    meta r = upd mk_user_id uid (upd mk_tick (print_N (N.max (get_tick_count dst) (snapshot_tick src))) (meta dst)).
  Proof.
    cbn zeta. unfold merge_db. rewrite merge_run_unfold, after_metas. set (m := with_their _ _).
    destruct (puts_spec g (query_all (data src)) m) as (_ & Pm & _ & _ & Px).
    unfold m_close. destruct (_ =? _)%Z; cbn [m_db meta meta_update]; rewrite Pm, ?Px; [left | right]; reflexivity.
  Qed.

  (** ** merge: keys are kept, none is invented *)

  Theorem merge_keys inits g uid src dst k :
    In k (keys (data (merge_db O inits g uid src dst))) <-> In k (keys (data dst)) \/ In k (keys (query_all (data src))).
  Proof. rewrite merge_data. apply in_keys_upd_fold. Qed.

  Theorem merge_untouched inits g uid src dst k :
    ~ In k (keys (query_all (data src))) ->
    find k (data (merge_db O inits g uid src dst)) = find k (data dst).
  Proof. rewrite merge_data. apply find_upd_fold_other. Qed.

  Theorem merge_find inits g uid src dst k : NoDup (keys (data src)) ->
    find k (data (merge_db O inits g uid src dst)) =
    match find k (query_all (data src)) with
    | Some v => Some (merged_value src dst (find k (data dst)) v)
    | None => find k (data dst)
    end.
  Proof. intro ND. rewrite merge_data. now apply find_upd_fold, nodup_query_all. Qed.

  (** ** merge: the value of a merged entry *)

  Definition our_commits (dst : db) (k : bytes) : Z :=
    match find k (data dst) with Some s => commits (unpack O s) | None => 0%Z end.

  (** of what [Fetch] returned: [our_commits dst k] is [commits_of (find k (data dst))] *)
  Definition commits_of (ours : option bytes) : Z :=
    match ours with Some s => commits (unpack O s) | None => 0%Z end.

  (** the sign rule of [Put]: theirs wins only when strictly larger in magnitude *)
  Definition merged_commits (co cv : Z) : Z := if (Z.abs co <? Z.abs cv)%Z then cv else co.

  Lemma merged_commits_abs co cv : Z.abs (merged_commits co cv) = Z.max (Z.abs co) (Z.abs cv).
  Proof. unfold merged_commits. destruct (Z.abs co <? Z.abs cv)%Z eqn:E; [apply Z.ltb_lt in E | apply Z.ltb_ge in E]; lia. Qed.

  Lemma merged_commits_zero c : merged_commits 0 c = c.
  Proof. unfold merged_commits. cbn [Z.abs]. destruct (0 <? Z.abs c)%Z eqn:E; [reflexivity|]. apply Z.ltb_ge in E. lia. Qed.

  Lemma merged_commits_idem co cv : merged_commits (merged_commits co cv) cv = merged_commits co cv.
  Proof.
    unfold merged_commits. destruct (Z.abs co <? Z.abs cv)%Z eqn:E; [now rewrite Z.ltb_irrefl | now rewrite E].
  Qed.

  Lemma decay_obs (c : bool) (v : value O) d :
    commits (if c then set_dee O v d else v) = commits v /\ tick (if c then set_dee O v d else v) = tick v.
  Proof. now destruct c. Qed.

  (** what [Put] takes our value to be: the stored one, or a fresh one *)
  Definition held (ours : option bytes) : value O := match ours with Some s => unpack O s | None => value0 O end.

  Lemma held_ok ours : value_ok O (held ours).
  Proof. destruct ours; [apply unpack_value_ok | apply value0_ok]. Qed.

  Lemma commits_of_held ours : commits_of ours = commits (held ours).
  Proof. now destruct ours. Qed.

  Lemma merge_value_obs our their mx ours v : (mx <= ULONG_MAX)%N ->
    let r := merge_value O our their mx ours v in
    commits r = merged_commits (commits_of ours) (commits (unpack O v))
    /\ tick r = mx /\ value_ok O r.
  Proof.
    intro Hmx. cbv zeta. rewrite commits_of_held. unfold merge_value. fold (held ours).
    destruct (held_ok ours) as [Ro _]. destruct (unpack_value_ok O v) as [Rv _].
    unfold merged_commits, value_ok. cbn [commits tick]. rewrite !(proj1 (decay_obs _ _ _)).
    destruct (Z.abs _ <? Z.abs _)%Z; cbn [commits set_commits]; rewrite ?(proj1 (decay_obs _ _ _));
      (split; [reflexivity | split; [reflexivity | now split]]).
  Qed.

  Lemma merged_value_obs src dst ours v :
    let s := merged_value src dst ours v in
    commits (unpack O s) = merged_commits (commits_of ours) (commits (unpack O v))
    /\ tick (unpack O s) = N.max (get_tick_count dst) (snapshot_tick src).
  Proof.
    destruct (merge_value_obs (get_tick_count dst) (snapshot_tick src) _ ours v (max_tick_range dst src)) as (E1 & E2 & E3).
    cbn zeta in *. destruct (unpack_pack_commits O _ dee_ok E3) as [P1 P2]. unfold merged_value, merge_rule. now rewrite P1, P2.
  Qed.

  Theorem merge_entry inits g uid src dst k v :
    NoDup (keys (data src)) -> In (k, v) (query_all (data src)) ->
    exists s, find k (data (merge_db O inits g uid src dst)) = Some s
      /\ commits (unpack O s) = merged_commits (our_commits dst k) (commits (unpack O v))
      /\ tick (unpack O s) = N.max (get_tick_count dst) (snapshot_tick src).
  Proof.
    intros ND H. rewrite merge_find, (in_find_nodup _ _ _ (nodup_query_all _ ND) H) by exact ND.
    eexists. split; [reflexivity|]. apply merged_value_obs.
  Qed.

  (** ** merge: the tick *)

  Lemma tick_after_close g uid m : (max_tick m <= ULONG_MAX)%N -> (rd g (merged_entries m) =? 0)%Z = false ->
    get_tick_count (m_db (m_close g uid m)) = max_tick m.
  Proof.
    intros Hr H. unfold m_close. rewrite H. cbn [m_db]. unfold get_tick_count. cbn [meta meta_update].
    rewrite find_upd_other by discriminate. rewrite find_upd_same. now rewrite stoul_print_N.
  Qed.

  Theorem merge_tick_max g uid src dst :
    query_all (data src) <> [] ->
    get_tick_count (merge_db O true g uid src dst) = N.max (get_tick_count dst) (snapshot_tick src).
  Proof.
    intro H. unfold merge_db. rewrite merge_run_unfold, after_metas.
    set (m := with_their _ _). destruct (puts_spec g (query_all (data src)) m) as (_ & _ & _ & _ & P).
    rewrite tick_after_close; rewrite ?P; [reflexivity | apply max_tick_range|].
    rewrite (puts_merged g _ _ H). cbn [rd m with_their mk_merger merged_entries]. apply Z.eqb_neq.
    destruct (query_all (data src)); [contradiction|]. cbn [length]. lia.
  Qed.

  Theorem merge_empty_snapshot_noop g uid src dst :
    query_all (data src) = [] -> merge_db O true g uid src dst = dst.
  Proof. intro H. unfold merge_db. rewrite merge_run_unfold, after_metas, H. reflexivity. Qed.

  (** ** merge: no uninitialised member is read when the constructor initialises the counter *)

  Lemma puts_init g g' l : forall m, merged_entries m <> None ->
    puts g m l = puts g' m l /\ m_uninit (puts g m l) = m_uninit m /\ merged_entries (puts g m l) <> None.
  Proof.
    induction l as [|[k v] l IH]; intros m H; [tauto|].
    rewrite !puts_cons.
    destruct (merged_entries m) as [z|] eqn:E; [|congruence].
    assert (S1 : fst (m_put O g m k v) = fst (m_put O g' m k v)) by (unfold m_put; rewrite E; reflexivity).
    rewrite <- S1. destruct (IH (fst (m_put O g m k v))) as (A & B & C); [cbn; discriminate|].
    repeat split; [exact A | | exact C]. rewrite B. cbn. rewrite E. cbn. now rewrite orb_false_r.
  Qed.

  Theorem merge_reads_initialised g g' uid src dst :
    m_uninit (merge_run O true g uid src dst) = false /\
    merge_run O true g uid src dst = merge_run O true g' uid src dst.
  Proof.
    rewrite !merge_run_unfold, after_metas.
    destruct (puts_init g g' (query_all (data src)) (with_their (mk_merger true dst) (snapshot_tick src))) as (P1 & P2 & P3);
      [discriminate|].
    rewrite <- P1. set (m := puts g _ _) in *.
    destruct (merged_entries m) as [z|] eqn:Em; [|congruence].
    unfold m_close. rewrite Em. cbn [rd is_none]. rewrite P2. cbn [orb].
    split; [destruct (z =? 0)%Z; reflexivity | reflexivity].
  Qed.

  (** ** merge: idempotence on (key, commits, tick) *)

  Definition obs (m : amap) : list (bytes * Z * N) := map (entry_obs O) m.

  Lemma obs_find k m1 : forall m2, obs m1 = obs m2 ->
    option_map (fun s => (commits (unpack O s), tick (unpack O s))) (find k m1) =
    option_map (fun s => (commits (unpack O s), tick (unpack O s))) (find k m2).
  Proof.
    induction m1 as [|[k1 v1] m1 IH]; intros [|[k2 v2] m2] H; try discriminate; [reflexivity|].
    cbn [obs map] in H. injection H as H1 H2 H3 H4. cbn in H1. subst k2. cbn [find].
    destruct (bytes_eqb k k1); [cbn; cbn in H2, H3; congruence | now apply IH].
  Qed.

  Lemma obs_upd_same k v m s : find k m = Some s ->
    commits (unpack O v) = commits (unpack O s) -> tick (unpack O v) = tick (unpack O s) ->
    obs (upd k v m) = obs m.
  Proof.
    intros F Hc Ht. unfold upd, mem. rewrite F.
    induction m as [|[k1 v1] m IH]; [discriminate|]. cbn [find] in F. cbn [replace].
    destruct (bytes_eqb k k1) eqn:E.
    - injection F as ->. cbn [obs map]. f_equal. unfold entry_obs. cbn [fst snd]. now rewrite Hc, Ht.
    - cbn [obs map]. f_equal. now apply IH.
  Qed.

  Theorem merge_idempotent g uid src dst :
    NoDup (keys (data src)) ->
    let r1 := merge_db O true g uid src dst in
    let r2 := merge_db O true g uid src r1 in
    dump O r2 = dump O r1 /\ get_tick_count r2 = get_tick_count r1.
  Proof.
    intro ND. cbn zeta.
    destruct (query_all (data src)) as [|kv0 l0] eqn:El.
    - rewrite !(merge_empty_snapshot_noop g uid src) by exact El. now split.
    - assert (Hne : query_all (data src) <> []) by (rewrite El; discriminate). clear El.
      set (r1 := merge_db O true g uid src dst).
      assert (T1 : get_tick_count r1 = N.max (get_tick_count dst) (snapshot_tick src)) by (apply merge_tick_max; exact Hne).
      assert (T2 : N.max (get_tick_count r1) (snapshot_tick src) = get_tick_count r1) by lia.
      split; [|rewrite merge_tick_max by exact Hne; exact T2].
      (* the second merge runs under the tick every merged entry already carries, and no
         record of the snapshot beats what the first merge stored *)
      unfold dump. change (map (entry_obs O)) with obs. rewrite merge_data.
      apply (upd_fold_ind (fun m => obs m = obs (data r1))); [|reflexivity].
      intros m k v Hin Hm.
      destruct (merge_entry true g uid src dst k v ND Hin) as (s & Fs & Hc & Ht). fold r1 in Fs.
      pose proof (obs_find k _ _ Hm) as Hf. rewrite Fs in Hf.
      destruct (find k m) as [s0|] eqn:F0; [|discriminate]. injection Hf as Hc0 Ht0.
      destruct (merged_value_obs src r1 (Some s0) v) as [E1 E2]. cbn [commits_of] in E1, E2.
      rewrite <- Hm. apply (obs_upd_same _ _ _ s0 F0).
      + rewrite E1, Hc0, Hc. apply merged_commits_idem.
      + rewrite E2. congruence.
  Qed.

  (** * UserDbImporter::Put *)

  Definition imported_commits (co cv : Z) : Z :=
    if (0 <? cv)%Z then Z.max co cv else if (cv <? 0)%Z then Z.min cv (- Z.abs co) else co.

  Definition import_rule (ours : option bytes) (theirs : bytes) : bytes := pack O (import_value O ours theirs).

  Lemma int_range_max a b : int_range a -> int_range b -> int_range (Z.max a b).
  Proof. unfold int_range. lia. Qed.

  Lemma int_range_min_neg_abs a b : int_range a -> int_range b -> int_range (Z.min b (- Z.abs a)).
  Proof. unfold int_range, INT_MIN, INT_MAX. lia. Qed.

  Lemma import_value_obs ours v :
    let r := import_value O ours v in
    commits r = imported_commits (commits_of ours) (commits (unpack O v))
    /\ tick r = match ours with Some s0 => tick (unpack O s0) | None => 0%N end /\ value_ok O r.
  Proof.
    cbv zeta. rewrite commits_of_held.
    replace (match ours with Some s0 => tick (unpack O s0) | None => 0%N end) with (tick (held ours)) by now destruct ours.
    unfold import_value, imported_commits. fold (held ours).
    destruct (held_ok ours) as [Ro To]. destruct (unpack_value_ok O v) as [Rv _].
    destruct (0 <? commits (unpack O v))%Z; [|destruct (commits (unpack O v) <? 0)%Z];
      (split; [reflexivity | split; [reflexivity|]]).
    - split; [now apply int_range_max | exact To].
    - split; [now apply int_range_min_neg_abs | exact To].
    - now split.
  Qed.

  Lemma import_rule_obs ours v :
    let s := import_rule ours v in
    commits (unpack O s) = imported_commits (commits_of ours) (commits (unpack O v))
    /\ tick (unpack O s) = match ours with Some s0 => tick (unpack O s0) | None => 0%N end.
  Proof.
    destruct (import_value_obs ours v) as (H1 & H2 & H3). cbn zeta in *.
    destruct (unpack_pack_commits O _ dee_ok H3) as [P1 P2]. unfold import_rule. now rewrite P1, P2.
  Qed.

  Theorem import_put_entry d k v :
    exists s, find k (data (imp_put O d k v)) = Some s
      /\ commits (unpack O s) = imported_commits (our_commits d k) (commits (unpack O v))
      /\ tick (unpack O s) = match find k (data d) with Some s0 => tick (unpack O s0) | None => 0%N end.
  Proof.
    unfold imp_put. cbn [data data_update]. rewrite find_upd_same. eexists. split; [reflexivity|].
    apply import_rule_obs.
  Qed.

  Theorem import_put_other d k v k' : k' <> k -> find k' (data (imp_put O d k v)) = find k' (data d).
  Proof. intro N. unfold imp_put. cbn [data data_update]. now apply find_upd_other. Qed.
End MergeProofs.
