(** C17 – facts about the value codec: byte-string equality, decimal
    print/parse round trips, [unpack (pack v)] keeps commits and tick. *)
From Coq Require Import List NArith ZArith Bool Lia.
From Coq.Strings Require Import Byte.
From RimeV Require Import Base.Bytes Udb.Value.
Import ListNotations.

Lemma bytes_eqb_eq a b : bytes_eqb a b = true <-> a = b.
Proof.
  revert b. induction a as [|x a IH]; intros [|y b]; cbn [bytes_eqb]; split; intro H;
    try reflexivity; try discriminate.
  - apply andb_true_iff in H. destruct H as [H1 H2]. apply Byte.byte_dec_bl in H1. apply IH in H2. now subst.
  - injection H as -> ->. apply andb_true_iff. split; [apply byte_eqb_refl | now apply IH].
Qed.

Lemma bytes_eqb_refl a : bytes_eqb a a = true.
Proof. now apply bytes_eqb_eq. Qed.

Lemma bytes_eqb_spec a b : reflect (a = b) (bytes_eqb a b).
Proof. apply iff_reflect. symmetry. apply bytes_eqb_eq. Qed.

Lemma bytes_eqb_neq a b : bytes_eqb a b = false <-> a <> b.
Proof. destruct (bytes_eqb_spec a b); split; congruence. Qed.

Lemma bytes_eqb_sym a b : bytes_eqb a b = bytes_eqb b a.
Proof.
  destruct (bytes_eqb_spec a b) as [->|N]; symmetry; [apply bytes_eqb_refl | apply bytes_eqb_neq; congruence].
Qed.

Lemma digit_byte_spec d : (d < 10)%N -> is_digit (digit_byte d) = true /\ digit_val (digit_byte d) = d.
Proof.
  intro H.
  assert (C : (d = 0 \/ d = 1 \/ d = 2 \/ d = 3 \/ d = 4 \/ d = 5 \/ d = 6 \/ d = 7 \/ d = 8 \/ d = 9)%N) by lia.
  repeat (destruct C as [-> | C]); try subst d; split; reflexivity.
Qed.

Definition all_digits (s : bytes) : Prop := Forall (fun b => is_digit b = true) s.

Lemma digits_acc_all s : forall acc seen, all_digits s ->
  digits_acc acc seen s =
  (fold_left (fun a b => a * 10 + digit_val b)%N s acc, match s with [] => seen | _ => true end).
Proof.
  induction s as [|b s IH]; intros acc seen H; [reflexivity|].
  inversion H as [|? ? Hb Hs]; subst. cbn [digits_acc fold_left]. rewrite Hb, (IH _ _ Hs). now destruct s.
Qed.

(** [dec_digits] with enough fuel: Horner's rule gives the number back *)
Lemma dec_digits_spec f : forall n, (n < 2 ^ N.of_nat f)%N -> f <> O ->
  all_digits (dec_digits f n) /\ dec_digits f n <> [] /\
  fold_left (fun a b => a * 10 + digit_val b)%N (dec_digits f n) 0%N = n.
Proof.
  induction f as [|f IH]; intros n H Hf; [contradiction|]. cbn [dec_digits].
  destruct (n <? 10)%N eqn:E.
  - apply N.ltb_lt in E. destruct (digit_byte_spec n E) as [D1 D2].
    split; [repeat constructor; exact D1|]. split; [discriminate | exact D2].
  - apply N.ltb_ge in E.
    assert (Hq : (n / 10 < 2 ^ N.of_nat f)%N).
    { rewrite Nat2N.inj_succ, N.pow_succ_r' in H. apply N.div_lt_upper_bound; lia. }
    destruct (IH _ Hq) as (A1 & A2 & A3).
    { intros ->. assert (1 <= n / 10)%N by (apply N.div_le_lower_bound; lia). change (2 ^ N.of_nat 0)%N with 1%N in Hq. lia. }
    destruct (digit_byte_spec (n mod 10)) as [D1 D2]; [apply N.mod_lt; lia|].
    split; [apply Forall_app; split; [exact A1 | repeat constructor; exact D1]|].
    split; [intro C; apply app_eq_nil in C; now destruct C|].
    rewrite fold_left_app. cbn [fold_left]. rewrite A3, D2. pose proof (N.div_mod n 10). lia.
Qed.

Lemma print_N_bound n : (n < 2 ^ N.of_nat (S (N.to_nat (N.log2 n))))%N.
Proof.
  rewrite Nat2N.inj_succ, N2Nat.id.
  destruct n as [|p]; [cbn; lia|]. apply N.log2_spec. lia.
Qed.

Lemma print_N_digits n : all_digits (print_N n) /\ print_N n <> [].
Proof. destruct (dec_digits_spec _ _ (print_N_bound n) (Nat.neq_succ_0 _)) as (A & B & _). now split. Qed.

Lemma print_N_value n : fold_left (fun a b => a * 10 + digit_val b)%N (print_N n) 0%N = n.
Proof. apply (dec_digits_spec _ _ (print_N_bound n) (Nat.neq_succ_0 _)). Qed.

Lemma digits_acc_print_N n : digits_acc 0 false (print_N n) = (n, true).
Proof.
  destruct (print_N_digits n) as [A B].
  rewrite (digits_acc_all _ _ _ A), print_N_value. destruct (print_N n); [contradiction|reflexivity].
Qed.

Lemma digit_plain b s : is_digit b = true -> is_space b = false /\ take_sign (b :: s) = (false, b :: s).
Proof. destruct b; try discriminate; now split. Qed.

Lemma all_digits_first_not_space_sign s : all_digits s -> s <> [] ->
  drop_ws s = s /\ take_sign s = (false, s).
Proof.
  intros A B. destruct s as [|b s]; [contradiction|]. inversion A as [|? ? Hb _]; subst.
  destruct (digit_plain b s Hb) as [E1 E2]. split; [cbn [drop_ws]; now rewrite E1 | exact E2].
Qed.

Lemma parse_int_print_N n : parse_int (print_N n) = Some (false, n).
Proof.
  destruct (print_N_digits n) as [A B]. unfold parse_int.
  destruct (all_digits_first_not_space_sign _ A B) as [-> ->].
  now rewrite digits_acc_print_N.
Qed.

Lemma stoul_print_N n : (n <= ULONG_MAX)%N -> stoul (print_N n) = Some n.
Proof.
  intro H. unfold stoul. rewrite parse_int_print_N.
  apply N.leb_le in H. now rewrite H.
Qed.

Definition int_range (z : Z) : Prop := (INT_MIN <= z <= INT_MAX)%Z.

Lemma parse_int_print_Z z :
  parse_int (print_Z z) = Some ((z <? 0)%Z, Z.abs_N z).
Proof.
  unfold print_Z. destruct (z <? 0)%Z eqn:E.
  - unfold parse_int. cbn [drop_ws is_space take_sign].
    now rewrite digits_acc_print_N.
  - apply parse_int_print_N.
Qed.

Lemma stoi_print_Z z : int_range z -> stoi (print_Z z) = Some z.
Proof.
  intros [H1 H2]. unfold stoi. rewrite parse_int_print_Z.
  assert (E : (if (z <? 0)%Z then (- Z.of_N (Z.abs_N z))%Z else Z.of_N (Z.abs_N z)) = z).
  { destruct (z <? 0)%Z eqn:E; rewrite N2Z.inj_abs_N; [apply Z.ltb_lt in E | apply Z.ltb_ge in E]; lia. }
  rewrite E.
  apply Z.leb_le in H1, H2. now rewrite H1, H2.
Qed.

Lemma stoi_range s z : stoi s = Some z -> int_range z.
Proof.
  unfold stoi. destruct (parse_int s) as [[neg v]|]; [|discriminate].
  destruct (_ && _) eqn:E; [|discriminate]. intro H. injection H as <-.
  apply andb_true_iff in E. destruct E as [E1 E2]. apply Z.leb_le in E1, E2. now split.
Qed.

Lemma stoul_range s n : stoul s = Some n -> (n <= ULONG_MAX)%N.
Proof.
  unfold stoul. destruct (parse_int s) as [[neg v]|]; [|discriminate].
  destruct (v <=? ULONG_MAX)%N eqn:E; [|discriminate]. apply N.leb_le in E.
  intro H.
  assert (Hn : n = if neg then ((ULONG_MAX + 1 - v) mod (ULONG_MAX + 1))%N else v) by congruence.
  clear H. destruct neg; subst n; [|exact E].
  assert (Hm : ((ULONG_MAX + 1 - v) mod (ULONG_MAX + 1) < ULONG_MAX + 1)%N) by (apply N.mod_lt; discriminate).
  lia.
Qed.

Definition space_free (s : bytes) : Prop := Forall (fun b => is_space b = false) s.

Lemma not_space_neq c b : is_space c = true -> is_space b = false -> Byte.eqb b c = false.
Proof. intros Hc Hb. destruct (Byte.eqb b c) eqn:E; [|reflexivity]. apply Byte.byte_dec_bl in E. congruence. Qed.

Lemma space_free_no c s : is_space c = true -> space_free s -> Forall (fun b => Byte.eqb b c = false) s.
Proof. intro Hc. apply Forall_impl. intro b. now apply not_space_neq. Qed.

Lemma all_digits_space_free s : all_digits s -> space_free s.
Proof. apply Forall_impl. intros b H. apply (digit_plain b [] H). Qed.

Lemma print_N_space_free n : space_free (print_N n).
Proof. apply all_digits_space_free, print_N_digits. Qed.

Lemma print_Z_space_free z : space_free (print_Z z).
Proof. unfold print_Z. destruct (z <? 0)%Z; [constructor; [reflexivity|]|]; apply print_N_space_free. Qed.

Lemma print_N_nonempty n : print_N n <> [].
Proof. apply print_N_digits. Qed.

Lemma print_Z_nonempty z : print_Z z <> [].
Proof. unfold print_Z. destruct (z <? 0)%Z; [discriminate | apply print_N_nonempty]. Qed.

Lemma split_on_none sep s : Forall (fun b => sep b = false) s -> split_on sep s = [s].
Proof.
  induction s as [|b s IH]; intro H; [reflexivity|].
  inversion H as [|? ? Hb Hs]; subst. cbn [split_on]. rewrite Hb, (IH Hs). reflexivity.
Qed.

Lemma split_on_app sep a c rest :
  Forall (fun b => sep b = false) a -> sep c = true ->
  split_on sep (a ++ c :: rest) = a :: split_on sep rest.
Proof.
  intros Ha Hc. induction a as [|b a IH]; cbn [app split_on].
  - now rewrite Hc.
  - inversion Ha as [|? ? Hb Hs]; subst. rewrite Hb, (IH Hs). reflexivity.
Qed.

Lemma split_on_nonempty sep s : split_on sep s <> [].
Proof. destruct s as [|b s]; cbn; [discriminate|]. destruct (sep b); [discriminate|]. destruct (split_on sep s); discriminate. Qed.

Fixpoint join (c : byte) (row : list bytes) : bytes :=
  match row with
  | [] => []
  | [x] => x
  | x :: r => x ++ c :: join c r
  end.

Lemma split_on_join sep c row : sep c = true -> row <> [] ->
  Forall (Forall (fun b => sep b = false)) row -> split_on sep (join c row) = row.
Proof.
  intros Hc Hne H. induction H as [|x row Hx Hrow IH]; [contradiction|].
  destruct row as [|y row]; [now apply split_on_none|].
  change (join c (x :: y :: row)) with (x ++ c :: join c (y :: row)).
  rewrite split_on_app, IH by (assumption || discriminate). reflexivity.
Qed.

Section RoundTrip.
  Variable O : dee_ops.

  (** what the theorems need of [operator<<(double)] and [stod]: the printed text has no
      blank and parses again (not necessarily to the same double) *)
  Definition dee_print_ok : Prop :=
    forall d, Forall (fun b => is_sp b = false) (d_print O d) /\ d_parse O (d_print O d) <> None.

  Definition value_ok (v : value O) : Prop := int_range (commits v) /\ (tick v <= ULONG_MAX)%N.

  Lemma unpack_item_c v x : unpack_item O v (x63 :: x3d :: x) = option_map (set_commits O v) (stoi x).
  Proof. reflexivity. Qed.
  Lemma unpack_item_d v x : unpack_item O v (x64 :: x3d :: x) = option_map (set_dee O v) (d_parse O x).
  Proof. reflexivity. Qed.
  Lemma unpack_item_t v x : unpack_item O v (x74 :: x3d :: x) = option_map (set_tick O v) (stoul x).
  Proof. reflexivity. Qed.

  Lemma unpack_pack (v : value O) : dee_print_ok -> value_ok v ->
    exists d, unpack_into O (value0 O) (pack O v) = ({| commits := commits v; dee := d; tick := tick v |}, true).
  Proof.
    intros HO [Hc Ht]. destruct (HO (dee v)) as [Hd1 Hd2].
    unfold unpack_into.
    change (pack O v) with
      (join x20 [[x63; x3d] ++ print_Z (commits v); [x64; x3d] ++ d_print O (dee v); [x74; x3d] ++ print_N (tick v)]).
    rewrite (split_on_join is_sp); [|reflexivity | discriminate|].
    2:{ repeat constructor; [apply (space_free_no x20), print_Z_space_free | exact Hd1 | apply (space_free_no x20), print_N_space_free];
        reflexivity. }
    cbn [unpack_items app].
    rewrite unpack_item_c, (stoi_print_Z _ Hc). cbn [option_map].
    rewrite unpack_item_d.
    destruct (d_parse O (d_print O (dee v))) as [d'|] eqn:Ed; [|contradiction]. cbn [option_map].
    rewrite unpack_item_t, (stoul_print_N _ Ht). cbn [option_map].
    exists d'. reflexivity.
  Qed.

  Lemma unpack_pack_commits (v : value O) : dee_print_ok -> value_ok v ->
    commits (unpack O (pack O v)) = commits v /\ tick (unpack O (pack O v)) = tick v.
  Proof.
    intros HO Hv. destruct (unpack_pack v HO Hv) as [d E]. unfold unpack. rewrite E. now split.
  Qed.

  (** whatever is stored, the unpacked commit count is an [int] and the tick a [uint64] *)
  Lemma unpack_items_ok items : forall v, value_ok v -> value_ok (fst (unpack_items O v items)).
  Proof.
    induction items as [|it r IH]; intros v Hv; [exact Hv|].
    cbn [unpack_items]. destruct (unpack_item O v it) as [v'|] eqn:E; [|exact Hv].
    apply IH. unfold unpack_item in E.
    destruct (cut_at x3d it) as [[k x]|]; [|injection E as <-; exact Hv].
    destruct Hv as [Hc Ht].
    destruct (bytes_eqb k k_c).
    { destruct (stoi x) as [c|] eqn:Ec; [|discriminate]. injection E as <-. split; [apply (stoi_range _ _ Ec) | exact Ht]. }
    destruct (bytes_eqb k k_d).
    { destruct (d_parse O x); [|discriminate]. injection E as <-. split; assumption. }
    destruct (bytes_eqb k k_t).
    { destruct (stoul x) as [t|] eqn:Et; [|discriminate]. injection E as <-. split; [exact Hc | apply (stoul_range _ _ Et)]. }
    injection E as <-. split; assumption.
  Qed.

  Lemma value0_ok : value_ok (value0 O).
  Proof. split; [unfold int_range, INT_MIN, INT_MAX; cbn; lia | cbn; unfold ULONG_MAX; lia]. Qed.

  Lemma unpack_value_ok s : value_ok (unpack O s).
  Proof. apply unpack_items_ok, value0_ok. Qed.
End RoundTrip.
