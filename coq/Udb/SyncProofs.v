(** C17, beyond the property – Synchronize between N installations converges on keys and commit
    magnitudes after two covering rounds (concrete model, linked to Udb/SyncAbstract.v). *)
From Coq Require Import List NArith ZArith Bool Lia Arith.
From Coq.Strings Require Import Byte.
From RimeV Require Import Base.Bytes Udb.Value Udb.ValueProofs Udb.Merge Udb.MergeProofs Udb.Tsv Udb.TsvProofs
  Udb.Manager Udb.ManagerProofs Udb.SyncAbstract.
Import ListNotations.

Lemma forallb_replace (P : bytes * bytes -> bool) k v m :
  (forall k', bytes_eqb k k' = true -> P (k', v) = true) -> forallb P m = true ->
  forallb P (replace k v m) = true.
Proof.
  intros Hk H. induction m as [|[k1 v1] m IH]; [reflexivity|].
  cbn [forallb] in H. apply andb_true_iff in H. destruct H as [H1 H2]. cbn [replace].
  destruct (bytes_eqb k k1) eqn:E; cbn [forallb].
  - now rewrite (Hk k1 E), H2.
  - rewrite H1. cbn [andb]. now apply IH.
Qed.

Lemma forallb_insert (P : bytes * bytes -> bool) k v m :
  P (k, v) = true -> forallb P m = true -> forallb P (insert k v m) = true.
Proof.
  intros Hp H. induction m as [|[k1 v1] m IH]; cbn [insert forallb]; [now rewrite Hp|].
  cbn [forallb] in H. apply andb_true_iff in H. destruct H as [H1 H2].
  destruct (bytes_ltb k k1); cbn [forallb]; [now rewrite Hp, H1, H2 | now rewrite H1, IH].
Qed.

Lemma forallb_upd (P : bytes * bytes -> bool) k v m :
  P (k, v) = true -> forallb P m = true -> forallb P (upd k v m) = true.
Proof.
  intros Hp H. unfold upd. destruct (mem k m); [|now apply forallb_insert].
  apply forallb_replace; [|exact H].
  intros k' E. apply bytes_eqb_eq in E. now subst k'.
Qed.

Lemma map_set_nth {A B} (f : A -> B) (l : list A) : forall i x, map f (set_nth i x l) = set_nth i (f x) (map f l).
Proof. induction l as [|a l IH]; intros [|i] x; cbn; try reflexivity. now rewrite IH. Qed.

Lemma map_repeat' {A B} (f : A -> B) x n : map f (repeat x n) = repeat (f x) n.
Proof. induction n as [|n IH]; cbn; [reflexivity | now rewrite IH]. Qed.

Section SyncProofs.
  Variable O : dee_ops.
  (** a printed double contains no isspace byte at all and parses again *)
  Hypothesis dee_clean : forall d, Forall (fun b => is_space b = false) (d_print O d) /\ d_parse O (d_print O d) <> None.
  Variable inits : bool.
  Variable g : Z.
  Variable ver : bytes.

  Lemma dee_ok : dee_print_ok O.
  Proof.
    intro d. destruct (dee_clean d) as [A B]. split; [exact (space_free_no x20 _ eq_refl A) | exact B].
  Qed.

  Notation um_backup := (um_backup ver).
  Notation um_restore := (um_restore O inits g ver).
  Notation um_sync := (um_sync O inits g ver).
  Notation step := (step O inits g ver).
  Notation run := (run O inits g ver).

  Definition mg (d : db) (k : bytes) : Z :=
    match find k (data d) with Some s => Z.abs (commits (unpack O s)) | None => (-1)%Z end.

  Lemma mg_ge d k : (-1 <= mg d k)%Z.
  Proof. unfold mg. destruct (find k (data d)); lia. Qed.

  (** a dictionary whose snapshot can be merged by others *)
  Definition good_src (d : db) : Prop :=
    wf_db d /\ is_user_db d = true /\ find mk_db_name (meta d) = Some dict_name.
  Definition good (i : nat) (d : db) : Prop := good_src d /\ get_user_id d = uid_of i.

  Lemma pack_wf (v : value O) : wf_value (pack O v) = true.
  Proof.
    destruct (dee_clean (dee v)) as [Dc _]. unfold pack. rewrite !app_assoc.
    apply wf_value_app; [|apply print_N_nonempty | apply print_N_space_free].
    rewrite !no_tab_lf_app, (space_free_no_tab_lf _ (print_Z_space_free _)), (space_free_no_tab_lf _ Dc). reflexivity.
  Qed.

  Lemma uid_wf i : wf_value (uid_of i) = true.
  Proof. apply (wf_value_app [x75]); [reflexivity | apply print_N_nonempty | apply print_N_space_free]. Qed.

  Lemma printN_wf n : wf_value (print_N n) = true.
  Proof. apply (wf_value_app []); [reflexivity | apply print_N_nonempty | apply print_N_space_free]. Qed.

  Lemma merge_good i src dst :
    good i dst -> (forall kv, In kv (query_all (data src)) -> wf_key (fst kv) = true) ->
    good i (merge_db O inits g (uid_of i) src dst).
  Proof.
    intros [((N1 & W1 & N2 & W2) & Hu & Hn) Hid] Hs.
    assert (D : NoDup (keys (data (merge_db O inits g (uid_of i) src dst))) /\
                forallb wf_rec (data (merge_db O inits g (uid_of i) src dst)) = true).
    { rewrite merge_data. split; [now apply nodup_upd_fold|].
      apply (upd_fold_ind (fun m => forallb wf_rec m = true)); [|exact W1].
      intros m k v Hin Hm. apply forallb_upd; [|exact Hm]. apply andb_true_iff. split; [exact (Hs _ Hin) | apply pack_wf]. }
    destruct D as [D1 D2]. unfold good, good_src, wf_db, is_user_db, get_user_id.
    destruct (merge_meta O inits g (uid_of i) src dst) as [E|E]; cbn zeta in E; rewrite E.
    - repeat split; assumption.
    - repeat split; try assumption.
      + now apply nodup_upd, nodup_upd.
      + apply forallb_upd; [unfold wf_meta_rec; cbn [fst snd]; now rewrite uid_wf|].
        apply forallb_upd; [unfold wf_meta_rec; cbn [fst snd]; now rewrite printN_wf | exact W2].
      + rewrite !find_upd_other by discriminate. exact Hu.
      + rewrite !find_upd_other by discriminate. exact Hn.
      + now rewrite find_upd_same.
  Qed.

  Lemma open_rw_good i d : good i d -> open_rw ver (uid_of i) dict_name d = d.
  Proof. intros [(_ & _ & Hn) _]. unfold open_rw. now rewrite Hn. Qed.

  Theorem restore_law i src dest : good_src src -> good i dest ->
    let r := fst (um_restore (uid_of i) dict_name (uniform_backup src) dest) in
    good i r /\ forall k, mg r k = Z.max (mg dest k) (mg src k).
  Proof.
    intros (Ws & Us & Ns) Gd. cbn zeta.
    destruct (restore_snapshot O inits g ver (uid_of i) src dest Ws Us Ns) as (temp & -> & NDt & Q).
    cbn [fst]. rewrite (open_rw_good i dest Gd). split.
    - apply merge_good; [exact Gd|]. intros [k v] Hin.
      apply (in_find_nodup _ _ _ (nodup_query_all _ NDt)) in Hin. rewrite Q in Hin. apply find_some_in in Hin.
      exact (wf_rec_in _ _ (proj1 (proj2 Ws)) Hin).
    - intro k. unfold mg. rewrite merge_find, Q by exact NDt.
      destruct (find k (data src)) as [v|].
      + rewrite (proj1 (merged_value_obs O dee_ok temp dest (find k (data dest)) v)), merged_commits_abs.
        destruct (find k (data dest)); cbn [commits_of Z.abs]; lia.
      + destruct (find k (data dest)); lia.
  Qed.

  Lemma restores_law i : forall (srcs : list db) dest, Forall good_src srcs -> good i dest ->
    let r := fold_left (fun d f => fst (um_restore (uid_of i) dict_name f d)) (map uniform_backup srcs) dest in
    good i r /\ forall k, mg r k = maxl (mg dest k) (map (fun s => mg s k) srcs).
  Proof.
    induction srcs as [|a srcs IH]; intros dest Hs Gd; cbn zeta.
    - split; [exact Gd | reflexivity].
    - inversion Hs as [|? ? H1 H2]; subst. cbn [map fold_left].
      destruct (restore_law i a dest H1 Gd) as [G1 M1]. cbn zeta in G1, M1.
      destruct (IH _ H2 G1) as [G2 M2]. cbn zeta in G2, M2. split; [exact G2|].
      intro k. rewrite M2, M1. reflexivity.
  Qed.

  Lemma sync_law i (srcs : list db) d : Forall good_src srcs -> good i d ->
    exists r, um_sync (uid_of i) dict_name (map uniform_backup srcs) d = (r, uniform_backup r) /\
      good i r /\ forall k, mg r k = maxl (mg d k) (map (fun s => mg s k) srcs).
  Proof.
    intros Hs Gd. destruct (restores_law i srcs d Hs Gd) as [G M]. cbn zeta in G, M.
    eexists. split; [|split; [exact G | exact M]].
    unfold Manager.um_sync, Manager.um_backup. destruct G as [_ Hid]. rewrite Hid, bytes_eqb_refl. reflexivity.
  Qed.

  Definition snap_rel (f : option bytes) (s : option db) : Prop :=
    match f, s with
    | None, None => True
    | Some f, Some s => f = uniform_backup s /\ good_src s
    | _, _ => False
    end.

  Definition winv (N : nat) (w : world) (ss : list (option db)) : Prop :=
    length (w_dbs w) = N /\ length (w_snaps w) = N /\ length ss = N /\
    (forall i, (i < N)%nat -> good i (get_db w i)) /\
    (forall j, (j < N)%nat -> snap_rel (nth j (w_snaps w) None) (nth j ss None)).

  Definition sel {A} (l : list (option A)) (order : list nat) : list A :=
    flat_map (fun j => match nth j l None with Some x => [x] | None => [] end) order.

  Lemma sel_snaps N w ss order : winv N w ss -> (forall j, In j order -> (j < N)%nat) ->
    snaps_in_order w order = map uniform_backup (sel ss order) /\ Forall good_src (sel ss order).
  Proof.
    intros (_ & _ & _ & _ & R) Ho. unfold snaps_in_order, sel.
    induction order as [|j order IH]; [split; [reflexivity|constructor]|].
    cbn [flat_map]. destruct IH as [E F]; [intros j' Hj'; apply Ho; now right|].
    specialize (R j (Ho j (or_introl eq_refl))). unfold snap_rel in R.
    destruct (nth j (w_snaps w) None) as [f|]; destruct (nth j ss None) as [s0|]; try contradiction.
    - destruct R as [-> Gs]. cbn [app map]. rewrite E. split; [reflexivity | now constructor].
    - cbn [app]. now split.
  Qed.

  Definition snap_mg (k : bytes) (o : option db) : Z := match o with Some s => mg s k | None => (-1)%Z end.

  Definition astate_of (k : bytes) (w : world) (ss : list (option db)) : astate :=
    (map (fun d => mg d k) (w_dbs w), map (snap_mg k) ss).

  Lemma nth_ms k w i : nth i (map (fun d => mg d k) (w_dbs w)) (-1)%Z = mg (get_db w i) k.
  Proof. unfold get_db. change (-1)%Z with (mg empty_db k). apply (map_nth (fun d => mg d k)). Qed.

  Lemma nth_ts k ss j : nth j (map (snap_mg k) ss) (-1)%Z = snap_mg k (nth j ss None).
  Proof. change (-1)%Z with (snap_mg k None). apply map_nth. Qed.

  Lemma maxl_sel k ss order : forall b, (-1 <= b)%Z ->
    maxl b (map (fun s => mg s k) (sel ss order)) = maxl b (map (fun j => nth j (map (snap_mg k) ss) (-1)%Z) order).
  Proof.
    induction order as [|j order IH]; intros b Hb; [reflexivity|].
    unfold sel. cbn [flat_map map]. fold (sel ss order). rewrite nth_ts.
    destruct (nth j ss None) as [s0|]; cbn [app map snap_mg].
    - unfold maxl. cbn [fold_left]. apply IH. lia.
    - unfold maxl at 2. cbn [fold_left]. replace (Z.max b (-1)) with b by lia. now apply IH.
  Qed.

  Lemma sync_step N w ss i order : winv N w ss -> (i < N)%nat -> (forall j, In j order -> (j < N)%nat) ->
    let w' := step w (OSync i order) in
    let ss' := set_nth i (Some (get_db w' i)) ss in
    winv N w' ss' /\ forall k, astate_of k w' ss' = astep (astate_of k w ss) (i, order).
  Proof.
    intros W Hi Ho. destruct (sel_snaps N w ss order W Ho) as [Es Gs].
    destruct W as (L1 & L2 & L3 & G & R).
    destruct (sync_law i (sel ss order) (get_db w i) Gs (G i Hi)) as (r & Er & Gr & Mr).
    cbn zeta. unfold Manager.step. cbn [step_ret]. rewrite Es, Er. cbn [fst].
    set (w1 := set_snap (set_db w i r) i (uniform_backup r)).
    assert (Gd : forall i', get_db w1 i' = if Nat.eqb i i' && Nat.ltb i N then r else get_db w i').
    { intro i'. change (get_db w1 i') with (get_db (set_db w i r) i'). rewrite get_set_db, L1. reflexivity. }
    assert (Gi : get_db w1 i = r).
    { rewrite Gd, Nat.eqb_refl. apply Nat.ltb_lt in Hi. now rewrite Hi. }
    rewrite Gi. split.
    - split; [unfold w1; cbn [w_dbs set_snap set_db]; now rewrite length_set_nth|].
      split; [unfold w1; cbn [w_snaps set_snap set_db]; now rewrite length_set_nth|].
      split; [now rewrite length_set_nth|]. split.
      + intros i' Hi'. rewrite Gd. destruct (Nat.eqb i i') eqn:E; cbn [andb]; [|now apply G].
        apply Nat.eqb_eq in E. subst i'. destruct (Nat.ltb i N); [exact Gr | now apply G].
      + intros j Hj. unfold w1. cbn [w_snaps set_snap set_db]. rewrite !nth_set_nth, L2, L3.
        destruct (Nat.eqb i j && Nat.ltb i N); [|now apply R]. cbn [snap_rel]. split; [reflexivity | apply Gr].
    - intro k. unfold astate_of, astep, w1. cbn [fst snd w_dbs set_snap set_db]. rewrite !map_set_nth. cbn [snap_mg].
      rewrite nth_ms, Mr, (maxl_sel k ss order _ (mg_ge _ _)). reflexivity.
  Qed.

  Definition sync_ops (ios : list (nat * list nat)) : list op := map (fun io => OSync (fst io) (snd io)) ios.

  Fixpoint wrun (ios : list (nat * list nat)) (w : world) (ss : list (option db)) : world * list (option db) :=
    match ios with
    | [] => (w, ss)
    | io :: r =>
        let w' := step w (OSync (fst io) (snd io)) in
        wrun r w' (set_nth (fst io) (Some (get_db w' (fst io))) ss)
    end.

  Lemma wrun_spec N ios : forall w ss, winv N w ss -> orders_ok N ios ->
    winv N (fst (wrun ios w ss)) (snd (wrun ios w ss)) /\
    fst (wrun ios w ss) = run (sync_ops ios) w /\
    forall k, astate_of k (fst (wrun ios w ss)) (snd (wrun ios w ss)) = arun ios (astate_of k w ss).
  Proof.
    induction ios as [|[i order] ios IH]; intros w ss W Ho; [cbn; tauto|].
    destruct (Ho (i, order) (or_introl eq_refl)) as (Hi & _ & Hj). cbn [fst snd] in Hi, Hj.
    destruct (sync_step N w ss i order W Hi Hj) as [W1 A1]. cbn zeta in W1, A1.
    cbn [wrun fst snd]. destruct (IH _ _ W1) as (W2 & E2 & A2); [intros io Hin; apply Ho; now right|].
    split; [exact W2|]. split.
    - rewrite E2. reflexivity.
    - intro k. rewrite A2, A1. reflexivity.
  Qed.

  (** Two rounds of Synchronize – in each round every installation synchronises at least once,
      in any order and with any repetitions, the sync directory listing everybody – starting
      from good dictionaries and no published snapshot: afterwards all installations have the
      same keys, each with the same commit magnitude. *)
  Theorem sync_two_rounds_converge N w p q :
    length (w_dbs w) = N -> w_snaps w = repeat None N ->
    (forall i, (i < N)%nat -> good i (get_db w i)) ->
    orders_ok N p -> orders_ok N q -> covers N p -> covers N q ->
    let w' := run (sync_ops p ++ sync_ops q) w in
    forall i i' k, (i < N)%nat -> (i' < N)%nat -> mg (get_db w' i) k = mg (get_db w' i') k.
  Proof.
    intros L Sn G Op Oq Cp Cq. cbn zeta. intros i i' k Hi Hi'.
    assert (W0 : winv N w (repeat None N)).
    { split; [exact L|]. split; [rewrite Sn; apply repeat_length|]. split; [apply repeat_length|].
      split; [exact G|]. intros j Hj. rewrite Sn, !nth_repeat. exact I. }
    assert (Opq : orders_ok N (p ++ q)).
    { intros io Hin. apply in_app_or in Hin. destruct Hin; [now apply Op | now apply Oq]. }
    destruct (wrun_spec N (p ++ q) w (repeat None N) W0 Opq) as (_ & E & A).
    unfold sync_ops in *. rewrite map_app in E. rewrite <- E. rewrite <- !nth_ms.
    specialize (A k). unfold astate_of in A at 1. apply (f_equal fst) in A. cbn [fst] in A. rewrite A.
    unfold arun. rewrite fold_left_app. unfold astate_of. cbn [w_dbs]. rewrite map_repeat'. cbn [snap_mg].
    apply (two_rounds_converge N (map (fun d => mg d k) (w_dbs w)) p q); try assumption.
    - now rewrite map_length.
    - intros j _. rewrite nth_ms. apply mg_ge.
  Qed.
End SyncProofs.
