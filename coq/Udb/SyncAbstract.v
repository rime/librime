(** C17, beyond the property – convergence of repeated Synchronize, abstractly.

    For one fixed key, installation [i] holds a magnitude [ms_i] (-1 = entry absent) and its
    published snapshot holds [ts_i] (-1 = no snapshot or entry absent).  Synchronize of [i]
    with directory listing [order] sets both to  max (ms_i, ts_j for j in order).
    After a round in which everybody synchronises (any order, any repetitions) followed by a
    second such round, with listings that contain every installation, all [ms_i] are equal:
    the first round publishes every initial magnitude, the second collects them all, and
    nothing ever exceeds a bound of the initial magnitudes. *)
From Coq Require Import List ZArith Lia Bool Arith.
From RimeV Require Import Udb.Manager Udb.ManagerProofs.
Import ListNotations.
Local Open Scope Z_scope.

Definition maxl (base : Z) (l : list Z) : Z := fold_left Z.max l base.

Lemma maxl_ge_base l : forall b, b <= maxl b l.
Proof. induction l as [|x l IH]; intro b; cbn; [lia|]. specialize (IH (Z.max b x)). unfold maxl in IH. lia. Qed.

Lemma maxl_mono_base l : forall b b', b <= b' -> maxl b l <= maxl b' l.
Proof. induction l as [|x l IH]; intros b b' H; cbn; [exact H|]. apply IH. lia. Qed.

Lemma maxl_ge_in l : forall b x, In x l -> x <= maxl b l.
Proof.
  induction l as [|y l IH]; intros b x H; [contradiction|]. cbn. destruct H as [->|H].
  - pose proof (maxl_ge_base l (Z.max b x)). unfold maxl in *. lia.
  - now apply IH.
Qed.

Lemma maxl_le l : forall b M, b <= M -> (forall x, In x l -> x <= M) -> maxl b l <= M.
Proof.
  induction l as [|x l IH]; intros b M Hb Hl; cbn; [exact Hb|].
  apply IH; [|intros y Hy; apply Hl; now right]. specialize (Hl x (or_introl eq_refl)). lia.
Qed.

Definition astate := (list Z * list Z)%type.

Definition astep (st : astate) (io : nat * list nat) : astate :=
  let m := maxl (nth (fst io) (fst st) (-1)) (map (fun j => nth j (snd st) (-1)) (snd io)) in
  (set_nth (fst io) m (fst st), set_nth (fst io) m (snd st)).

Definition arun (ios : list (nat * list nat)) (st : astate) : astate := fold_left astep ios st.

Lemma arun_cons io ios st : arun (io :: ios) st = arun ios (astep st io).
Proof. reflexivity. Qed.

Lemma length_set_nth {A} (l : list A) : forall i x, length (set_nth i x l) = length l.
Proof. induction l as [|a l IH]; intros [|i] x; cbn; try reflexivity. now rewrite IH. Qed.

Definition ainv (N : nat) (st : astate) : Prop :=
  length (fst st) = N /\ length (snd st) = N /\ forall j, (j < N)%nat -> nth j (snd st) (-1) <= nth j (fst st) (-1).

Lemma astep_nth N st i order j : ainv N st ->
  let m := maxl (nth i (fst st) (-1)) (map (fun j => nth j (snd st) (-1)) order) in
  nth j (fst (astep st (i, order))) (-1) = (if Nat.eqb i j && Nat.ltb i N then m else nth j (fst st) (-1)) /\
  nth j (snd (astep st (i, order))) (-1) = (if Nat.eqb i j && Nat.ltb i N then m else nth j (snd st) (-1)).
Proof. intros (L1 & L2 & _). unfold astep. cbn [fst snd]. now rewrite !nth_set_nth, L1, L2. Qed.

Lemma astep_facts N st io : ainv N st ->
  let st' := astep st io in
  ainv N st' /\
  (forall j, nth j (fst st) (-1) <= nth j (fst st') (-1)) /\
  (forall j, (j < N)%nat -> nth j (snd st) (-1) <= nth j (snd st') (-1)).
Proof.
  intro H. destruct io as [i order]. cbn zeta.
  pose proof (fun j => astep_nth N st i order j H) as A. cbn zeta in A.
  pose proof (maxl_ge_base (map (fun j => nth j (snd st) (-1)) order) (nth i (fst st) (-1))) as Hm.
  destruct H as (L1 & L2 & I).
  assert (C : forall j, Nat.eqb i j && Nat.ltb i N = true -> j = i /\ (i < N)%nat).
  { intros j E. apply andb_true_iff in E. destruct E as [E1 E2]. apply Nat.eqb_eq in E1. apply Nat.ltb_lt in E2. now split. }
  split; [split; [|split]|split].
  - unfold astep. cbn [fst]. now rewrite length_set_nth.
  - unfold astep. cbn [snd]. now rewrite length_set_nth.
  - intros j Hj. destruct (A j) as [-> ->]. destruct (_ && _); [lia | now apply I].
  - intro j. destruct (A j) as [-> _]. destruct (_ && _) eqn:E; [|lia]. destruct (C j E) as [-> _]. exact Hm.
  - intros j Hj. destruct (A j) as [_ ->]. destruct (_ && _) eqn:E; [|lia]. destruct (C j E) as [-> Hi]. specialize (I i Hi). lia.
Qed.

Lemma arun_facts N ios : forall st, ainv N st ->
  ainv N (arun ios st) /\
  (forall j, nth j (fst st) (-1) <= nth j (fst (arun ios st)) (-1)) /\
  (forall j, (j < N)%nat -> nth j (snd st) (-1) <= nth j (snd (arun ios st)) (-1)).
Proof.
  induction ios as [|io ios IH]; intros st H; [cbn; repeat split; try apply H; intros; lia|].
  rewrite arun_cons. destruct (astep_facts N st io H) as (H1 & M1 & T1).
  destruct (IH _ H1) as (H2 & M2 & T2).
  split; [exact H2|]. split; [intro j; specialize (M1 j); specialize (M2 j); lia|].
  intros j Hj. specialize (T1 j Hj). specialize (T2 j Hj). lia.
Qed.

Definition below (N : nat) (M : Z) (st : astate) : Prop :=
  forall j, (j < N)%nat -> nth j (fst st) (-1) <= M /\ nth j (snd st) (-1) <= M.

Definition orders_ok (N : nat) (ios : list (nat * list nat)) : Prop :=
  forall io, In io ios -> (fst io < N)%nat /\ (forall j, (j < N)%nat -> In j (snd io)) /\ (forall j, In j (snd io) -> (j < N)%nat).

Definition covers (N : nat) (ios : list (nat * list nat)) : Prop :=
  forall i, (i < N)%nat -> exists order, In (i, order) ios.

Lemma astep_below N M st io : ainv N st -> below N M st ->
  (forall j, In j (snd io) -> (j < N)%nat) -> below N M (astep st io).
Proof.
  intros H B Ho. destruct io as [i order]. cbn [snd] in Ho. intros j Hj.
  destruct (astep_nth N st i order j H) as [-> ->]. destruct (_ && _) eqn:E; [|now apply B].
  apply andb_true_iff in E. destruct E as [_ E]. apply Nat.ltb_lt in E.
  enough (maxl (nth i (fst st) (-1)) (map (fun j => nth j (snd st) (-1)) order) <= M) by now split.
  apply maxl_le; [apply (B i E)|]. intros x Hx. apply in_map_iff in Hx. destruct Hx as (a & <- & Ha). apply (B a (Ho a Ha)).
Qed.

Lemma arun_below N M ios : forall st, ainv N st -> below N M st -> orders_ok N ios -> below N M (arun ios st).
Proof.
  induction ios as [|io ios IH]; intros st H B Ho; [exact B|].
  rewrite arun_cons.
  apply IH; [apply (astep_facts N st io H) | | intros io' Hin; apply Ho; now right].
  apply astep_below; [exact H | exact B | apply (Ho io (or_introl eq_refl))].
Qed.

Lemma arun_publishes N ios : forall st, ainv N st ->
  forall i, (i < N)%nat -> (exists order, In (i, order) ios) ->
  nth i (fst st) (-1) <= nth i (snd (arun ios st)) (-1).
Proof.
  induction ios as [|io ios IH]; intros st H i Hi [order Hin]; [contradiction|].
  rewrite arun_cons.
  destruct (astep_facts N st io H) as (H1 & M1 & T1).
  destruct Hin as [->|Hin].
  - destruct (arun_facts N ios _ H1) as (_ & _ & T2). specialize (T2 i Hi).
    destruct (astep_nth N st i order i H) as [_ E]. rewrite Nat.eqb_refl, (proj2 (Nat.ltb_lt i N) Hi) in E. cbn [andb] in E.
    pose proof (maxl_ge_base (map (fun j => nth j (snd st) (-1)) order) (nth i (fst st) (-1))). lia.
  - specialize (IH _ H1 i Hi (ex_intro _ order Hin)). specialize (M1 i). lia.
Qed.

Lemma arun_collects N ios : forall st, ainv N st -> orders_ok N ios ->
  forall i, (i < N)%nat -> (exists order, In (i, order) ios) ->
  forall j, (j < N)%nat -> nth j (snd st) (-1) <= nth i (fst (arun ios st)) (-1).
Proof.
  induction ios as [|io ios IH]; intros st H Ho i Hi [order Hin] j Hj; [contradiction|].
  rewrite arun_cons.
  destruct (astep_facts N st io H) as (H1 & M1 & T1).
  assert (Ho' : orders_ok N ios) by (intros io' Hin'; apply Ho; now right).
  destruct Hin as [->|Hin].
  - destruct (arun_facts N ios _ H1) as (_ & M2 & _). specialize (M2 i).
    destruct (Ho (i, order) (or_introl eq_refl)) as (_ & Hall & _). cbn [snd] in Hall.
    destruct (astep_nth N st i order i H) as [E _]. rewrite Nat.eqb_refl, (proj2 (Nat.ltb_lt i N) Hi) in E. cbn [andb] in E.
    assert (nth j (snd st) (-1) <= maxl (nth i (fst st) (-1)) (map (fun j => nth j (snd st) (-1)) order))
      by (apply maxl_ge_in, in_map_iff; exists j; split; [reflexivity | now apply Hall]).
    lia.
  - specialize (IH _ H1 Ho' i Hi (ex_intro _ order Hin) j Hj). specialize (T1 j Hj). lia.
Qed.

Theorem two_rounds_converge N ms0 p q :
  length ms0 = N -> (forall j, (j < N)%nat -> -1 <= nth j ms0 (-1)) ->
  orders_ok N p -> orders_ok N q -> covers N p -> covers N q ->
  let st := arun q (arun p (ms0, repeat (-1) N)) in
  forall i i', (i < N)%nat -> (i' < N)%nat -> nth i (fst st) (-1) = nth i' (fst st) (-1).
Proof.
  intros L Hge Op Oq Cp Cq. cbn zeta.
  set (st0 := (ms0, repeat (-1) N)).
  assert (I0 : ainv N st0).
  { split; [exact L|]. split; [apply repeat_length|]. intros j Hj. unfold st0. cbn [fst snd].
    rewrite nth_repeat. now apply Hge. }
  destruct (arun_facts N p st0 I0) as (I1 & _ & _).
  assert (Low : forall i a, (i < N)%nat -> (a < N)%nat -> nth a ms0 (-1) <= nth i (fst (arun q (arun p st0))) (-1)).
  { intros i a Hi Ha.
    pose proof (arun_publishes N p st0 I0 a Ha (Cp a Ha)) as P1. unfold st0 at 1 in P1. cbn [fst] in P1.
    pose proof (arun_collects N q _ I1 Oq i Hi (Cq i Hi) a Ha) as P2. lia. }
  (* each final magnitude bounds the initial ones, hence everything that ever appears *)
  assert (Le : forall i i', (i < N)%nat -> (i' < N)%nat ->
               nth i (fst (arun q (arun p st0))) (-1) <= nth i' (fst (arun q (arun p st0))) (-1)).
  { intros i i' Hi Hi'. apply (arun_below N _ q _ I1); [|exact Oq | exact Hi].
    apply (arun_below N _ p st0 I0); [|exact Op].
    intros a Ha. unfold st0 in *. cbn [fst snd]. rewrite nth_repeat. split; [now apply Low|].
    specialize (Hge i' Hi'). specialize (Low i' i' Hi' Hi'). lia. }
  intros i i' Hi Hi'. pose proof (Le i i' Hi Hi'). pose proof (Le i' i Hi' Hi). lia.
Qed.
