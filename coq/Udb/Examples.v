(** C17 – concrete dictionaries used as non-vacuity witnesses. *)
From Coq Require Import List NArith ZArith Bool Lia.
From Coq.Strings Require Import Byte.
From RimeV Require Import Base.Bytes Udb.Value Udb.ValueProofs Udb.Merge Udb.MergeProofs Udb.Tsv Udb.TsvProofs
  Udb.Manager Udb.ManagerProofs Udb.SyncAbstract Udb.SyncProofs.
Import ListNotations.

Definition ex_k1 : bytes := [x61; x20; x09; x41].                    (* "a <TAB>A" *)
Definition ex_k2 : bytes := [x62; x20; x09; x42].                    (* "b <TAB>B" *)
Definition ex_k3 : bytes := [x63; x20; x09; xe4; xb8; xad].          (* "c <TAB>" U+4E2D *)
Definition ex_v_3_3 : bytes := [x63; x3d; x33; x20; x64; x3d; x30; x20; x74; x3d; x33].          (* "c=3 d=0 t=3" *)
Definition ex_v_1_1 : bytes := [x63; x3d; x31; x20; x64; x3d; x30; x20; x74; x3d; x31].          (* "c=1 d=0 t=1" *)
Definition ex_v_m5_4 : bytes := [x63; x3d; x2d; x35; x20; x64; x3d; x30; x20; x74; x3d; x34].    (* "c=-5 d=0 t=4" *)
Definition ex_v_m1_2 : bytes := [x63; x3d; x2d; x31; x20; x64; x3d; x30; x20; x74; x3d; x32].    (* "c=-1 d=0 t=2" *)
Definition ex_10 : bytes := [x31; x30].
Definition ex_20 : bytes := [x32; x30].
Definition ex_100 : bytes := [x31; x30; x30].
Definition ex_u0 : bytes := [x75; x30].
Definition ex_u1 : bytes := [x75; x31].
Definition ex_ver : bytes := [x31].                                   (* stands for RIME_VERSION *)

Definition ex_meta (tick uid : bytes) : amap :=
  [(mk_db_name, dict_name); (mk_db_type, s_userdb); (mk_tick, tick); (mk_user_id, uid)].

(** ours: tick 10, a -> 3, b -> 1;  theirs: tick 20, a -> -5, c -> -1 *)
Definition ex_ours : db := {| meta := ex_meta ex_10 ex_u0; data := [(ex_k1, ex_v_3_3); (ex_k2, ex_v_1_1)] |}.
Definition ex_theirs : db := {| meta := ex_meta ex_20 ex_u1; data := [(ex_k1, ex_v_m5_4); (ex_k3, ex_v_m1_2)] |}.
(** a snapshot without entries but with a larger tick *)
Definition ex_empty_100 : db := {| meta := ex_meta ex_100 ex_u1; data := [] |}.

Lemma erased_print_ok : dee_print_ok erased_ops.
Proof. intro d. split; [repeat constructor | discriminate]. Qed.

Lemma ex_theirs_wf : wf_db ex_theirs.
Proof.
  repeat split; try reflexivity.
  - repeat constructor; cbn; intuition discriminate.
  - repeat constructor; cbn; intuition discriminate.
Qed.

Lemma ex_theirs_nodup : NoDup (keys (data ex_theirs)).
Proof. apply ex_theirs_wf. Qed.

Lemma ex_theirs_nonempty : query_all (data ex_theirs) <> [].
Proof. discriminate. Qed.

(** the merge of the example: a -> -5 (larger magnitude wins, with its sign), b kept,
    c added, every merged entry stamped with tick 20 = max 10 20 *)
Lemma ex_merge_result :
  dump erased_ops (merge_db erased_ops true 0 ex_u0 ex_theirs ex_ours) =
    [(ex_k1, (-5)%Z, 20%N); (ex_k2, 1%Z, 1%N); (ex_k3, (-1)%Z, 20%N)]
  /\ get_tick_count (merge_db erased_ops true 0 ex_u0 ex_theirs ex_ours) = 20%N.
Proof. vm_compute. split; reflexivity. Qed.

(** backup on u1, restore into an empty dictionary of u0: keys and counts come back *)
Lemma ex_roundtrip_result :
  let snap := snd (um_backup ex_ver ex_u1 dict_name ex_theirs) in
  let res := um_restore erased_ops true 0 ex_ver ex_u0 dict_name snap (create_metadata ex_ver ex_u0 dict_name empty_db) in
  map (fun e => (fst (fst e), snd (fst e))) (dump erased_ops (fst res)) = [(ex_k1, (-5)%Z); (ex_k3, (-1)%Z)].
Proof. vm_compute. reflexivity. Qed.

Lemma ex_roundtrip_hyps :
  get_user_id ex_theirs = ex_u1 /\ is_user_db ex_theirs = true /\ find mk_db_name (meta ex_theirs) = Some dict_name.
Proof. vm_compute. repeat split; reflexivity. Qed.

(** the unconditional tick statement fails on the empty snapshot *)
Lemma ex_empty_snapshot_tick :
  get_tick_count (merge_db erased_ops true 0 ex_u0 ex_empty_100 ex_ours) = 10%N /\
  N.max (get_tick_count ex_ours) (snapshot_tick ex_empty_100) = 100%N.
Proof. vm_compute. split; reflexivity. Qed.

(** a merger whose counter is not initialised and whose storage held -1: the single Put
    reports failure, CloseMerge sees 0 and leaves the tick at 10 although an entry was merged *)
Definition ex_one : db := {| meta := ex_meta ex_20 ex_u1; data := [(ex_k1, ex_v_m5_4)] |}.
Lemma ex_uninitialised_counter :
  get_tick_count (merge_db erased_ops false (-1) ex_u0 ex_one ex_ours) = 10%N /\
  m_uninit (merge_run erased_ops false (-1) ex_u0 ex_one ex_ours) = true /\
  get_tick_count (merge_db erased_ops false 0 ex_u0 ex_one ex_ours) = 20%N.
Proof. vm_compute. repeat split; reflexivity. Qed.

Lemma ex_import_rule :
  imported_commits 3 5 = 5%Z /\ imported_commits (-5) 2 = 2%Z /\ imported_commits 3 (-1) = (-3)%Z /\
  imported_commits 2 (-7) = (-7)%Z /\ imported_commits 4 0 = 4%Z.
Proof. vm_compute. repeat split; reflexivity. Qed.

(** export writes "A<TAB>a<TAB>3" for the entry a -> 3 and import parses it back *)
Lemma ex_export_line :
  tidy [x61] /\ (0 <= commits (unpack erased_ops ex_v_3_3))%Z /\
  table_formatter erased_ops ex_k1 ex_v_3_3 = Some [[x41]; [x61]; [x33]] /\
  option_map fst (table_parser erased_ops [[x41]; [x61]; [x33]]) = Some ex_k1.
Proof. repeat split; try discriminate; vm_compute; congruence. Qed.

Definition ex_u2 : bytes := [x75; x32].
Definition ex_v_m3_3 : bytes := [x63; x3d; x2d; x33; x20; x64; x3d; x30; x20; x74; x3d; x33].   (* "c=-3 d=0 t=3" *)

(** u0: a -> 3;  u1: a -> -5, b -> 1;  u2: c -> -1;  no snapshot published yet *)
Definition ex_world : world := {|
  w_dbs := [ {| meta := ex_meta ex_10 ex_u0; data := [(ex_k1, ex_v_3_3)] |};
             {| meta := ex_meta ex_20 ex_u1; data := [(ex_k1, ex_v_m5_4); (ex_k2, ex_v_1_1)] |};
             {| meta := ex_meta ex_10 ex_u2; data := [(ex_k3, ex_v_m1_2)] |} ];
  w_snaps := [None; None; None]; w_files := [] |}.

Definition ex_all : list nat := [0; 1; 2]%nat.     (* the sync directory lists every installation *)

Definition mags (O : dee_ops) (d : db) : list (bytes * Z) :=
  map (fun e => (fst (fst e), Z.abs (snd (fst e)))) (dump O d).

Definition ex_run (ops : list op) (w : world) : world := run erased_ops true 0 ex_ver ops w.

(** every installation synchronises twice, but back to back: u0 never sees what u1 and u2 have *)
Lemma ex_sync_twice_any_order :
  let w := ex_run [OSync 0 ex_all; OSync 0 ex_all; OSync 1 ex_all; OSync 1 ex_all; OSync 2 ex_all; OSync 2 ex_all] ex_world in
  mags erased_ops (get_db w 0) = [(ex_k1, 3%Z)] /\
  mags erased_ops (get_db w 2) = [(ex_k1, 5%Z); (ex_k2, 1%Z); (ex_k3, 1%Z)].
Proof. vm_compute. split; reflexivity. Qed.

(** two rounds (each installation once per round, the rounds in different orders): all agree *)
Lemma ex_sync_two_rounds :
  let w := ex_run [OSync 0 ex_all; OSync 1 ex_all; OSync 2 ex_all; OSync 2 ex_all; OSync 0 ex_all; OSync 1 ex_all] ex_world in
  mags erased_ops (get_db w 0) = [(ex_k1, 5%Z); (ex_k2, 1%Z); (ex_k3, 1%Z)] /\
  mags erased_ops (get_db w 1) = mags erased_ops (get_db w 0) /\ mags erased_ops (get_db w 2) = mags erased_ops (get_db w 0).
Proof. vm_compute. repeat split; reflexivity. Qed.

(** a tie of magnitudes with opposite signs never converges in sign: each side keeps its own *)
Definition ex_world_tie : world := {|
  w_dbs := [ {| meta := ex_meta ex_10 ex_u0; data := [(ex_k1, ex_v_3_3)] |};
             {| meta := ex_meta ex_20 ex_u1; data := [(ex_k1, ex_v_m3_3)] |} ];
  w_snaps := [None; None]; w_files := [] |}.

Lemma ex_sync_sign_tie :
  let w := ex_run [OSync 0 [0; 1]%nat; OSync 1 [0; 1]%nat; OSync 0 [0; 1]%nat; OSync 1 [0; 1]%nat; OSync 0 [0; 1]%nat; OSync 1 [0; 1]%nat]
                  ex_world_tie in
  map (fun e => snd (fst e)) (dump erased_ops (get_db w 0)) = [3%Z] /\
  map (fun e => snd (fst e)) (dump erased_ops (get_db w 1)) = [(-3)%Z] /\
  mags erased_ops (get_db w 0) = mags erased_ops (get_db w 1).
Proof. vm_compute. repeat split; reflexivity. Qed.

Lemma ex_ours_wf : wf_db ex_ours /\ forallb wf_export_rec (data ex_ours) = true /\ is_user_db ex_ours = true.
Proof.
  split; [|split; reflexivity]. repeat split; try reflexivity; repeat constructor; cbn; intuition discriminate.
Qed.

(** ours exported (a -> 3, b -> 1); their dictionary (a -> -5, c -> -1) imports the file:
    the positive count resurrects the deleted a (max (-5) 3 = 3, its tick 4 kept), b is new
    with tick 0, c is untouched *)
Lemma ex_export_import_result :
  match um_export erased_ops ex_ours with
  | Some (f, n) =>
      n = 2%nat /\
      dump erased_ops (fst (um_import erased_ops ex_ver ex_u1 dict_name f ex_theirs)) =
        [(ex_k1, 3%Z, 4%N); (ex_k2, 1%Z, 0%N); (ex_k3, (-1)%Z, 2%N)] /\
      snd (um_import erased_ops ex_ver ex_u1 dict_name f ex_theirs) = Some 2%nat
  | None => False
  end.
Proof. vm_compute. repeat split; reflexivity. Qed.

(** the example world meets the hypotheses of the convergence theorem *)
Definition ex_round1 : list (nat * list nat) := [(0, ex_all); (1, ex_all); (2, ex_all)]%nat.
Definition ex_round2 : list (nat * list nat) := [(2, ex_all); (0, ex_all); (1, ex_all)]%nat.

Lemma erased_print_clean : forall d : D erased_ops,
  Forall (fun b => is_space b = false) (d_print erased_ops d) /\ d_parse erased_ops (d_print erased_ops d) <> None.
Proof. intro d. split; [repeat constructor | discriminate]. Qed.

Lemma ex_world_good : forall i, (i < 3)%nat -> good i (get_db ex_world i).
Proof.
  intros i Hi. assert (C : (i = 0 \/ i = 1 \/ i = 2)%nat) by lia.
  destruct C as [E|[E|E]]; subst i; (split; [split; [|split; reflexivity] | reflexivity]);
    repeat split; try reflexivity; repeat constructor; cbn; intuition discriminate.
Qed.

Lemma ex_rounds_ok : orders_ok 3 ex_round1 /\ orders_ok 3 ex_round2 /\ covers 3 ex_round1 /\ covers 3 ex_round2.
Proof.
  assert (A : forall j, (j < 3)%nat <-> In j ex_all) by (intro j; cbn; lia).
  assert (Oo : forall r, (forall io, In io r -> (fst io < 3)%nat /\ snd io = ex_all) -> orders_ok 3 r).
  { intros r H io Hin. destruct (H io Hin) as [H1 H2]. rewrite H2. split; [exact H1|]. split; intros j Hj; now apply A. }
  split; [apply Oo; intros io [<-|[<-|[<-|[]]]]; cbn; split; (lia || reflexivity)|].
  split; [apply Oo; intros io [<-|[<-|[<-|[]]]]; cbn; split; (lia || reflexivity)|].
  split; intros i Hi; exists ex_all; assert (C : (i = 0 \/ i = 1 \/ i = 2)%nat) by lia;
    destruct C as [E|[E|E]]; subst i; cbn; tauto.
Qed.
