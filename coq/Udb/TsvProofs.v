(** C17 – the TSV codec: reading what [TsvWriter] wrote feeds the sink record by
    record ([tsv_read_write], for any formatter, parser and sink whose lines read
    back).  The userdb format (snapshots) and the table format (text export and
    import) are its two instances. *)
From Coq Require Import List NArith ZArith Bool Lia.
From Coq.Strings Require Import Byte.
From RimeV Require Import Base.Bytes Udb.Value Udb.ValueProofs Udb.Merge Udb.MergeProofs Udb.Tsv.
Import ListNotations.

(** * well-formedness (boolean, so that examples compute) *)

Definition no_tab_lf (s : bytes) : bool := forallb (fun b => negb (is_tab b) && negb (is_lf b)) s.
Definition ends_nonspace (s : bytes) : bool :=
  match last_byte s with Some b => negb (is_space b) | None => false end.

(** holds of every [Pack] output *)
Definition wf_value (v : bytes) : bool := no_tab_lf v && ends_nonspace v.

Definition wf_code (c : bytes) : bool :=
  match c with
  | b :: _ => negb (Byte.eqb b HASH) && (32 <=? Byte.to_N b)%N
  | [] => false
  end && no_tab_lf c && match last_byte c with Some x20 => true | _ => false end.

Definition wf_text (t : bytes) : bool := negb (is_empty t) && no_tab_lf t.

(** key ::= code TAB text *)
Definition wf_key (k : bytes) : bool :=
  match split_on is_tab k with
  | [c; t] => wf_code c && wf_text t
  | _ => false
  end.

Definition no_lf (s : bytes) : bool := forallb (fun b => negb (is_lf b)) s.
Definition starts_with_hash (s : bytes) : bool := match s with b :: _ => Byte.eqb b HASH | [] => false end.

Definition wf_rec (kv : bytes * bytes) : bool := wf_key (fst kv) && wf_value (snd kv).
Definition wf_meta_rec (kv : bytes * bytes) : bool := no_tab_lf (fst kv) && wf_value (snd kv).

Lemma is_tab_true b : is_tab b = true -> b = TAB.
Proof. apply Byte.byte_dec_bl. Qed.

Lemma join_tab_cons2 x y r : join_tab (x :: y :: r) = x ++ TAB :: join_tab (y :: r).
Proof. reflexivity. Qed.

Lemma join_split_tab s : join_tab (split_on is_tab s) = s.
Proof.
  induction s as [|b r IH]; [reflexivity|]. cbn [split_on].
  destruct (is_tab b) eqn:E.
  - apply is_tab_true in E. subst b.
    destruct (split_on is_tab r) as [|h t] eqn:S; [now apply split_on_nonempty in S|].
    rewrite join_tab_cons2, IH. reflexivity.
  - destruct (split_on is_tab r) as [|h t] eqn:S; [now apply split_on_nonempty in S|].
    destruct t as [|h2 t2].
    + cbn [join_tab] in *. now rewrite IH.
    + rewrite join_tab_cons2 in *. cbn [app]. now rewrite IH.
Qed.

Lemma join_tab_join row : join_tab row = join TAB row.
Proof.
  induction row as [|x row IH]; [reflexivity|]. destruct row as [|y r]; [reflexivity|].
  rewrite join_tab_cons2, IH. reflexivity.
Qed.

Lemma split_join_tab row : row <> [] -> Forall (Forall (fun b => is_tab b = false)) row ->
  split_on is_tab (join_tab row) = row.
Proof. intros Hne H. rewrite join_tab_join. now apply split_on_join. Qed.

Lemma split_pieces_clean sep s : Forall (Forall (fun b => sep b = false)) (split_on sep s).
Proof.
  induction s as [|b r IH]; [repeat constructor|]. cbn [split_on].
  destruct (sep b) eqn:E.
  - constructor; [constructor | exact IH].
  - destruct (split_on sep r) as [|h t]; [repeat constructor; exact E|].
    inversion IH as [|? ? H1 H2]; subst. constructor; [constructor; assumption | exact H2].
Qed.

Lemma forallb_Forall {A} (f : A -> bool) (P : A -> Prop) l :
  (forall x, f x = true -> P x) -> forallb f l = true -> Forall P l.
Proof. intros Hf H. apply Forall_forall. intros x Hx. apply Hf. rewrite forallb_forall in H. now apply H. Qed.

Lemma no_tab_lf_spec s : no_tab_lf s = true ->
  Forall (fun b => is_tab b = false) s /\ Forall (fun b => is_lf b = false) s.
Proof.
  intro H. split; revert H; apply forallb_Forall; intros b Hb; apply andb_true_iff in Hb; destruct Hb as [H1 H2];
    now apply negb_true_iff.
Qed.

Lemma no_lf_spec s : no_lf s = true -> Forall (fun b => is_lf b = false) s.
Proof. apply forallb_Forall. intros b Hb. now apply negb_true_iff. Qed.

Lemma trim_right_id s : ends_nonspace s = true -> trim_right s = s.
Proof.
  unfold ends_nonspace. induction s as [|b r IH]; [discriminate|].
  cbn [last_byte trim_right]. destruct r as [|c r'].
  - intro H. apply negb_true_iff in H. cbn [trim_right]. now rewrite H.
  - intro H. rewrite (IH H). reflexivity.
Qed.

Lemma ends_nonspace_app a s : ends_nonspace s = true -> ends_nonspace (a ++ s) = true.
Proof.
  unfold ends_nonspace. intro H. induction a as [|b a IH]; [exact H|].
  cbn [app last_byte]. destruct (a ++ s) eqn:E; [|exact IH].
  cbn in IH. discriminate.
Qed.

Lemma ends_nonspace_clean s : s <> [] -> space_free s -> ends_nonspace s = true.
Proof.
  unfold ends_nonspace. induction s as [|b r IH]; intros Hn H; [contradiction|].
  inversion H as [|? ? Hb Hr]; subst. cbn [last_byte]. destruct r as [|c r']; [now rewrite Hb|].
  apply IH; [discriminate | exact Hr].
Qed.

Lemma ends_nonspace_join_tab row : ends_nonspace (last row []) = true -> ends_nonspace (join_tab row) = true.
Proof.
  induction row as [|x [|y r] IH]; intro H; [exact H | exact H|].
  rewrite join_tab_cons2. apply ends_nonspace_app, (ends_nonspace_app [TAB]), IH, H.
Qed.

Lemma trim_right_snoc_blank s : trim_right (s ++ [x20]) = trim_right s.
Proof.
  induction s as [|b r IH]; [reflexivity|]. cbn [app trim_right]. now rewrite IH.
Qed.

Lemma trim_right_keeps2 a b r : is_space a = false -> is_space b = false ->
  exists r', trim_right (a :: b :: r) = a :: b :: r'.
Proof.
  intros Ha Hb. change (trim_right (a :: b :: r)) with
    (match trim_right (b :: r) with [] => if is_space a then [] else [a] | r' => a :: r' end).
  change (trim_right (b :: r)) with (match trim_right r with [] => if is_space b then [] else [b] | r' => b :: r' end).
  destruct (trim_right r) as [|x r'']; [rewrite Hb; now exists [] | now exists (x :: r'')].
Qed.

Lemma drop_ws_fixed b r : drop_ws (b :: r) = b :: r -> is_space b = false.
Proof.
  cbn [drop_ws]. destruct (is_space b); [|reflexivity]. intro H. exfalso.
  assert (L : forall s, length (drop_ws s) <= length s).
  { induction s as [|x s IH]; [reflexivity|]. cbn [drop_ws]. destruct (is_space x); cbn [length]; lia. }
  specialize (L r). rewrite H in L. cbn [length] in L. lia.
Qed.

Lemma lines_of_app a rest : Forall (fun b => is_lf b = false) a ->
  lines_of ((a ++ [LF]) ++ rest) = a :: lines_of rest.
Proof.
  induction a as [|b a IH]; intro H; [reflexivity|].
  inversion H as [|? ? Hb Ha]; subst. cbn [app lines_of]. rewrite Hb, (IH Ha). reflexivity.
Qed.

Lemma no_lf_join_tab row :
  Forall (Forall (fun b => is_lf b = false)) row -> Forall (fun b => is_lf b = false) (join_tab row).
Proof.
  induction 1 as [|x row Hx _ IH]; [constructor|]. destruct row as [|y r]; [exact Hx|].
  rewrite join_tab_cons2. apply Forall_app. split; [exact Hx|]. constructor; [reflexivity | exact IH].
Qed.

Lemma no_tab_lf_app a b : no_tab_lf (a ++ b) = no_tab_lf a && no_tab_lf b.
Proof. apply forallb_app. Qed.

Lemma space_free_no_tab_lf s : space_free s -> no_tab_lf s = true.
Proof.
  intro H. apply forallb_forall. intros b Hb. pose proof (proj1 (Forall_forall _ _) H b Hb) as Hsb.
  unfold is_tab, is_lf. now rewrite (not_space_neq TAB), (not_space_neq LF).
Qed.

Lemma wf_value_app a s : no_tab_lf a = true -> s <> [] -> space_free s -> wf_value (a ++ s) = true.
Proof.
  intros Ha Hn Hs. unfold wf_value. rewrite no_tab_lf_app, Ha, (space_free_no_tab_lf _ Hs).
  now apply ends_nonspace_app, ends_nonspace_clean.
Qed.

Lemma wf_value_spec v : wf_value v = true ->
  Forall (fun b => is_tab b = false) v /\ Forall (fun b => is_lf b = false) v /\ ends_nonspace v = true.
Proof.
  unfold wf_value. intro H. apply andb_true_iff in H. destruct H as [H1 H2].
  destruct (no_tab_lf_spec _ H1). tauto.
Qed.

Lemma wf_meta_rec_spec kv : wf_meta_rec kv = true ->
  Forall (fun b => is_tab b = false) (fst kv) /\ Forall (fun b => is_lf b = false) (fst kv) /\
  Forall (fun b => is_tab b = false) (snd kv) /\ Forall (fun b => is_lf b = false) (snd kv) /\ ends_nonspace (snd kv) = true.
Proof.
  unfold wf_meta_rec. intro H. apply andb_true_iff in H. destruct H as [Hk Hv].
  destruct (no_tab_lf_spec _ Hk). destruct (wf_value_spec _ Hv). tauto.
Qed.

Lemma wf_key_spec k : wf_key k = true ->
  exists c t, k = c ++ TAB :: t /\ split_on is_tab k = [c; t] /\ wf_code c = true /\ wf_text t = true.
Proof.
  unfold wf_key. intro H. pose proof (join_split_tab k) as J.
  destruct (split_on is_tab k) as [|c [|t [|x r]]] eqn:S; try discriminate.
  apply andb_true_iff in H. destruct H as [Hc Ht]. exists c, t. cbn [join_tab] in J. now rewrite <- J.
Qed.

(** (the case analysis over all bytes, as a term: the tactic script costs ten times as much to check) *)
Lemma blank_eqb x : match x with x20 => true | _ => false end = Byte.eqb x x20.
Proof. exact (match x with x20 => eq_refl | _ => eq_refl end). Qed.

Lemma wf_code_spec c : wf_code c = true ->
  exists b r, c = b :: r /\ Byte.eqb b HASH = false /\ (32 <= Byte.to_N b)%N /\
  Forall (fun b => is_tab b = false) c /\ Forall (fun b => is_lf b = false) c /\ last_byte c = Some x20.
Proof.
  unfold wf_code. intro H. destruct c as [|b r]; [discriminate|].
  rewrite !andb_true_iff in H. destruct H as (((H1a & H1b) & H2) & H3).
  apply negb_true_iff in H1a. apply N.leb_le in H1b. destruct (no_tab_lf_spec _ H2) as [T L].
  exists b, r. repeat split; try assumption.
  destruct (last_byte (b :: r)) as [x|]; [|discriminate]. rewrite (blank_eqb x) in H3. now rewrite (Byte.byte_dec_bl _ _ H3).
Qed.

Lemma wf_text_spec t : wf_text t = true ->
  t <> [] /\ Forall (fun b => is_tab b = false) t /\ Forall (fun b => is_lf b = false) t.
Proof.
  unfold wf_text. intro H. apply andb_true_iff in H. destruct H as [H1 H2].
  destruct (no_tab_lf_spec _ H2). split; [destruct t; [discriminate|discriminate]|tauto].
Qed.

Lemma wf_rec_in m kv : forallb wf_rec m = true -> In kv m -> wf_key (fst kv) = true.
Proof.
  intros W Hin. rewrite forallb_forall in W. specialize (W _ Hin). unfold wf_rec in W.
  apply andb_true_iff in W. apply W.
Qed.

(** keys the writer accepts are the ones [QueryAll] iterates: not below " " *)
Lemma wf_key_not_below_sp k : wf_key k = true -> bytes_ltb k sp = false.
Proof.
  intro H. destruct (wf_key_spec _ H) as (c & t & -> & _ & Hc & _).
  destruct (wf_code_spec _ Hc) as (b & r & -> & _ & Hb & _).
  cbn [app bytes_ltb sp]. change (Byte.to_N x20) with 32%N.
  destruct (Byte.to_N b <? 32)%N eqn:E1; [apply N.ltb_lt in E1; lia|].
  destruct (32 <? Byte.to_N b)%N; [reflexivity|]. destruct (r ++ TAB :: t); reflexivity.
Qed.

(** * reading what [TsvWriter] wrote, generic in parser, formatter and sink *)

Definition meta_content (kv : bytes * bytes) : bytes := HASH :: x40 :: fst kv ++ TAB :: snd kv.

Lemma meta_line_content kv : meta_line kv = meta_content kv ++ [LF].
Proof. unfold meta_line, meta_content. cbn [app]. now rewrite <- app_assoc. Qed.

Lemma meta_content_no_lf (kv : bytes * bytes) :
  Forall (fun b => is_lf b = false) (fst kv) -> Forall (fun b => is_lf b = false) (snd kv) ->
  Forall (fun b => is_lf b = false) (meta_content kv).
Proof.
  intros Lk Lv. unfold meta_content. repeat (constructor; [reflexivity|]).
  apply Forall_app. split; [exact Lk|]. constructor; [reflexivity | exact Lv].
Qed.

Section Feed.
  Variable S : Type.
  Variable s_meta_put : S -> bytes -> bytes -> S * bool.
  Variable s_put : S -> bytes -> bytes -> S * bool.

  Notation rstate := (rstate S).

  Definition feed_meta (st : rstate) (kv : bytes * bytes) : rstate :=
    {| r_sink := fst (s_meta_put (r_sink st) (fst kv) (snd kv)); r_comment := r_comment st; r_count := r_count st |}.

  Definition feed_data (st : rstate) (kv : bytes * bytes) : rstate :=
    let (s', ok) := s_put (r_sink st) (fst kv) (snd kv) in
    {| r_sink := s'; r_comment := r_comment st; r_count := if ok then Datatypes.S (r_count st) else r_count st |}.

  Lemma feed_meta_comment metas : forall st, r_comment (fold_left feed_meta metas st) = r_comment st.
  Proof. induction metas as [|kv m IH]; intro st; [reflexivity|]. cbn [fold_left]. now rewrite IH. Qed.
End Feed.

Section ReadWrite.
  Variable S : Type.
  Variable parser : list bytes -> option (bytes * bytes).
  Variable s_meta_put : S -> bytes -> bytes -> S * bool.
  Variable s_put : S -> bytes -> bytes -> S * bool.
  Variable fmt : bytes -> bytes -> option (list bytes).
  (** what a metadata line and a data record do to the reader *)
  Variable mstep step : rstate S -> bytes * bytes -> rstate S.

  Notation read_line := (read_line S parser s_meta_put s_put).

  (** [read_line] by cases, its branches for a comment line and for a record under names of
      their own: rewriting inside the unfolded [read_line] is dear, the "#@" test being a
      match on every byte *)
  Definition read_comment (st : rstate S) (line rest : bytes) : rstate S :=
    match rest with
    | x40 :: body => match split_on is_tab body with [k; v] => feed_meta S s_meta_put st (k, v) | _ => st end
    | _ => if bytes_eqb line s_no_comment then {| r_sink := r_sink st; r_comment := false; r_count := r_count st |} else st
    end.

  Definition read_record (st : rstate S) (line : bytes) : rstate S :=
    match parser (split_on is_tab line) with Some (k, v) => feed_data S s_put st (k, v) | None => st end.

  Lemma read_line_cases st raw :
    read_line st raw =
    match trim_right raw with
    | [] => st
    | c :: rest =>
        if r_comment st && Byte.eqb c HASH then read_comment st (trim_right raw) rest else read_record st (trim_right raw)
    end.
  Proof. reflexivity. Qed.

  Lemma read_plain_comment st raw body : r_comment st = true ->
    trim_right raw = HASH :: x20 :: body -> bytes_eqb (HASH :: x20 :: body) (s_no_comment) = false ->
    read_line st raw = st.
  Proof.
    intros Hc Ht Hn. rewrite read_line_cases, Ht, Hc. cbn [andb read_comment]. change (Byte.eqb HASH HASH) with true. cbv iota.
    now rewrite Hn.
  Qed.

  Lemma read_data_line st line kv : ends_nonspace line = true -> starts_with_hash line = false ->
    parser (split_on is_tab line) = Some kv -> read_line st line = feed_data S s_put st kv.
  Proof.
    intros He Hh Hp. rewrite read_line_cases, (trim_right_id _ He).
    destruct line as [|c rest]; [discriminate|]. cbn [starts_with_hash] in Hh. rewrite Hh, andb_false_r.
    unfold read_record. rewrite Hp. now destruct kv.
  Qed.

  Lemma read_meta_line st r : r_comment st = true -> exists r', trim_right (HASH :: x40 :: r) = HASH :: x40 :: r' /\
    read_line st (HASH :: x40 :: r) = match split_on is_tab r' with [k; v] => feed_meta S s_meta_put st (k, v) | _ => st end.
  Proof.
    intro Hc. destruct (trim_right_keeps2 HASH x40 r eq_refl eq_refl) as [r' E]. exists r'. split; [exact E|].
    now rewrite read_line_cases, E, Hc.
  Qed.

  Definition meta_ok (kv : bytes * bytes) : Prop :=
    Forall (fun b => is_lf b = false) (meta_content kv) /\
    forall st, r_comment st = true -> read_line st (meta_content kv) = mstep st kv /\ r_comment (mstep st kv) = true.

  Definition line_ok (kv : bytes * bytes) : Prop :=
    (data_line fmt kv = [] /\ forall st, step st kv = st) \/
    (exists c, data_line fmt kv = c ++ [LF] /\ Forall (fun b => is_lf b = false) c /\ forall st, read_line st c = step st kv).

  (** a written row reads back as what the parser makes of its fields: it is one LF-free line
      that trimming leaves alone, is no comment, and splits at its TABs into the fields again *)
  Lemma row_line_ok kv x row kv' :
    fmt (fst kv) (snd kv) = Some (x :: row) ->
    Forall (Forall (fun b => is_tab b = false)) (x :: row) -> Forall (Forall (fun b => is_lf b = false)) (x :: row) ->
    starts_with_hash x = false -> ends_nonspace (last (x :: row) []) = true ->
    parser (x :: row) = Some kv' -> (forall st, step st kv = feed_data S s_put st kv') ->
    line_ok kv.
  Proof.
    intros F T L Hx E P Hs. right. exists (join_tab (x :: row)). split; [|split].
    - unfold data_line. now rewrite F.
    - now apply no_lf_join_tab.
    - intro st. rewrite Hs. apply read_data_line.
      + now apply ends_nonspace_join_tab.
      + destruct x, row; exact Hx || reflexivity.
      + rewrite split_join_tab by (discriminate || exact T). exact P.
  Qed.

  Lemma read_metas metas : Forall meta_ok metas -> forall st rest, r_comment st = true ->
    fold_left read_line (lines_of (concat (map meta_line metas) ++ rest)) st =
    fold_left read_line (lines_of rest) (fold_left mstep metas st).
  Proof.
    induction 1 as [|kv metas [L R] _ IH]; intros st rest Hc; [reflexivity|].
    cbn [map concat]. rewrite meta_line_content, <- app_assoc, lines_of_app by exact L.
    cbn [fold_left]. destruct (R st Hc) as [-> Hc']. now apply IH.
  Qed.

  Lemma read_datas l : Forall line_ok l -> forall st,
    fold_left read_line (lines_of (concat (map (data_line fmt) l))) st = fold_left step l st.
  Proof.
    induction 1 as [|kv l Hk Hl IH]; intro st; [reflexivity|].
    cbn [map concat fold_left]. destruct Hk as [[E Hs]|(c & E & Lc & Hr)].
    - rewrite E, Hs. cbn [app]. apply IH.
    - rewrite E, lines_of_app by exact Lc. cbn [fold_left]. rewrite Hr. apply IH.
  Qed.

  (** a file made of a description that reads as a plain comment, metadata lines and data lines *)
  Theorem tsv_read_write descr body metas l s0 :
    is_empty descr = false -> no_lf descr = true ->
    trim_right (HASH :: x20 :: descr) = HASH :: x20 :: body -> bytes_eqb (HASH :: x20 :: body) s_no_comment = false ->
    Forall meta_ok metas -> Forall line_ok l ->
    tsv_read S parser s_meta_put s_put (tsv_write descr fmt metas l) s0 =
    fold_left step l (fold_left mstep metas {| r_sink := s0; r_comment := true; r_count := 0 |}).
  Proof.
    intros He Hl Ht Hn Hm Hd. unfold tsv_read, tsv_write, description_line. rewrite He.
    change (HASH :: x20 :: descr ++ [LF]) with ((HASH :: x20 :: descr) ++ [LF]).
    rewrite lines_of_app by (repeat (constructor; [reflexivity|]); now apply no_lf_spec).
    cbn [fold_left]. rewrite (read_plain_comment _ _ body) by (reflexivity || assumption).
    rewrite read_metas by (reflexivity || assumption). now apply read_datas.
  Qed.
End ReadWrite.

(** * the userdb format: what UniformBackup writes, UniformRestore reads *)

Section Userdb.
  Variable S : Type.
  Variable s_meta_put : S -> bytes -> bytes -> S * bool.
  Variable s_put : S -> bytes -> bytes -> S * bool.

  Lemma userdb_meta_ok kv : wf_meta_rec kv = true ->
    meta_ok S userdb_parser s_meta_put s_put (feed_meta S s_meta_put) kv.
  Proof.
    intro H. destruct (wf_meta_rec_spec _ H) as (Tk & Lk & Tv & Lv & Ev). destruct kv as [k v]. cbn [fst snd] in *.
    split; [now apply meta_content_no_lf|]. intros st Hc. split; [|exact Hc].
    unfold meta_content. cbn [fst snd].
    destruct (read_meta_line S userdb_parser s_meta_put s_put st (k ++ TAB :: v) Hc) as (r' & E & ->).
    rewrite trim_right_id in E by (apply (ends_nonspace_app (HASH :: x40 :: k)), (ends_nonspace_app [TAB]), Ev).
    injection E as <-. change (k ++ TAB :: v) with (join_tab [k; v]).
    now rewrite split_join_tab by (discriminate || now repeat constructor).
  Qed.

  Lemma userdb_line_ok kv : wf_rec kv = true ->
    line_ok S userdb_parser s_meta_put s_put userdb_formatter (feed_data S s_put) kv.
  Proof.
    destruct kv as [k v]. unfold wf_rec. cbn [fst snd]. intro H. apply andb_true_iff in H. destruct H as [Hk Hv].
    destruct (wf_key_spec _ Hk) as (c & t & Ek & Sk & Hc & Ht).
    destruct (wf_code_spec _ Hc) as (b & r & Ec & Hb & _ & Tc & Lc & Lastc).
    destruct (wf_text_spec _ Ht) as (Nt & Tt & Lt).
    destruct (wf_value_spec _ Hv) as (Tv & Lv & Ev).
    assert (Ec' : is_empty c = false) by (subst c; reflexivity).
    assert (Et' : is_empty t = false) by (destruct t; [contradiction|reflexivity]).
    apply row_line_ok with (x := c) (row := [t; v]) (kv' := (k, v)).
    - unfold userdb_formatter. cbn [fst snd]. now rewrite Sk, Ec', Et'.
    - now repeat constructor.
    - now repeat constructor.
    - rewrite Ec. exact Hb.
    - exact Ev.
    - unfold userdb_parser. rewrite Lastc. cbv iota. rewrite Ec', Et'. cbn [orb]. now rewrite <- Ek.
    - reflexivity.
  Qed.
End Userdb.

(** * the table format: what Export writes, Import reads *)

Section TableLine.
  Variable O : dee_ops.

  (** [core]: a code as export writes it, without surrounding isspace bytes; in a key it is
      followed by the one blank that ends every code *)
  Definition tidy (core : bytes) : Prop := core <> [] /\ drop_ws core = core /\ trim_right core = core.

  Theorem export_import_line core text v :
    tidy core -> text <> [] -> Forall (fun b => is_tab b = false) core -> Forall (fun b => is_tab b = false) text ->
    (0 <= commits (unpack O v))%Z ->
    let k := (core ++ [x20]) ++ TAB :: text in
    let c := commits (unpack O v) in
    table_formatter O k v = Some [text; core; print_Z c] /\
    table_parser O [text; core; print_Z c] = Some (k, pack O {| commits := c; dee := d_of_commits O c; tick := 0 |}).
  Proof.
    intros (Hne & Hd & Ht) Htext Tc Tt Hc. cbn zeta.
    assert (Ecore : is_empty core = false) by (destruct core; [contradiction|reflexivity]).
    assert (Etext : is_empty text = false) by (destruct text; [contradiction|reflexivity]).
    split.
    - unfold table_formatter. change ((core ++ [x20]) ++ TAB :: text) with (join_tab [core ++ [x20]; text]).
      rewrite split_join_tab; [|discriminate|].
      2:{ repeat constructor; [apply Forall_app; split; [exact Tc | now repeat constructor] | exact Tt]. }
      assert (is_empty (core ++ [x20]) = false) as -> by (destruct core; reflexivity).
      rewrite Etext. cbn [orb]. apply Z.ltb_ge in Hc. rewrite Hc. unfold trim.
      destruct core as [|b r]; [contradiction|]. cbn [app drop_ws]. rewrite (drop_ws_fixed b r Hd).
      change (b :: r ++ [x20]) with ((b :: r) ++ [x20]). now rewrite trim_right_snoc_blank, Ht.
    - unfold table_parser. rewrite Etext, Ecore. cbn [orb].
      assert (is_empty (print_Z (commits (unpack O v))) = false) as ->.
      { pose proof (print_Z_nonempty (commits (unpack O v))). destruct (print_Z _); [contradiction|reflexivity]. }
      rewrite stoi_print_Z by apply unpack_value_ok.
      unfold trim. rewrite Hd, Ht, <- app_assoc. reflexivity.
  Qed.
End TableLine.

(** keys that survive text export: code = core ++ " " with a tidy core, text not starting with '#' *)
Definition wf_export_key (k : bytes) : bool :=
  match split_on is_tab k with
  | [code; text] =>
      let core := removelast code in
      bytes_eqb (core ++ [x20]) code && negb (is_empty core) && bytes_eqb (drop_ws core) core
      && bytes_eqb (trim_right core) core && no_lf core && wf_text text && negb (starts_with_hash text)
  | _ => false
  end.

Lemma wf_export_key_spec k : wf_export_key k = true ->
  exists core text, k = (core ++ [x20]) ++ TAB :: text /\ tidy core /\ text <> [] /\
    Forall (fun b => is_tab b = false) core /\ Forall (fun b => is_tab b = false) text /\
    Forall (fun b => is_lf b = false) core /\ Forall (fun b => is_lf b = false) text /\ starts_with_hash text = false.
Proof.
  unfold wf_export_key. intro H. pose proof (join_split_tab k) as J. pose proof (split_pieces_clean is_tab k) as P.
  destruct (split_on is_tab k) as [|code [|text [|x r]]] eqn:Sk; try discriminate.
  rewrite !andb_true_iff in H. destruct H as ((((((A1 & A2) & A3) & A4) & A5) & A6) & A7).
  apply bytes_eqb_eq in A1, A3, A4. apply negb_true_iff in A2, A7.
  destruct (wf_text_spec _ A6) as (Nt & Tt & Lt).
  pose proof (Forall_inv P) as Pc. cbn beta in Pc.
  exists (removelast code), text. cbn [join_tab] in J. rewrite A1.
  split; [now symmetry|]. split; [|split; [exact Nt|]].
  - split; [|split; assumption]. destruct (removelast code); [discriminate A2 | discriminate].
  - split; [rewrite <- A1 in Pc; apply Forall_app in Pc; apply Pc|].
    split; [exact Tt|]. split; [now apply no_lf_spec|]. split; [exact Lt | exact A7].
Qed.

Section TableFile.
  Variable O : dee_ops.

  Definition imp_sink_meta (d : db) (k v : bytes) : db * bool := (d, true).
  Definition imp_sink_put (d : db) (k v : bytes) : db * bool := (imp_put O d k v, true).

  Definition exported_value (v : bytes) : bytes :=
    let c := commits (unpack O v) in pack O {| commits := c; dee := d_of_commits O c; tick := 0 |}.

  Definition import_step (st : rstate db) (kv : bytes * bytes) : rstate db :=
    if (commits (unpack O (snd kv)) <? 0)%Z then st
    else {| r_sink := imp_put O (r_sink st) (fst kv) (exported_value (snd kv));
            r_comment := r_comment st; r_count := Datatypes.S (r_count st) |}.

  (** the importer ignores metadata (UserDbImporter::MetaPut), whatever the line holds *)
  Lemma import_meta_ok (kv : bytes * bytes) : Forall (fun b => is_lf b = false) (fst kv) -> Forall (fun b => is_lf b = false) (snd kv) ->
    meta_ok db (table_parser O) imp_sink_meta imp_sink_put (fun st _ => st) kv.
  Proof.
    intros Lk Lv. split; [now apply meta_content_no_lf|]. intros st Hc. split; [|exact Hc].
    destruct (read_meta_line db (table_parser O) imp_sink_meta imp_sink_put st (fst kv ++ TAB :: snd kv) Hc) as (r' & _ & E).
    unfold meta_content. rewrite E. destruct st. now destruct (split_on is_tab r') as [|k [|v [|x y]]].
  Qed.

  Lemma table_line_ok kv : wf_export_key (fst kv) = true ->
    line_ok db (table_parser O) imp_sink_meta imp_sink_put (table_formatter O) import_step kv.
  Proof.
    destruct kv as [k v]. cbn [fst]. intro H.
    destruct (wf_export_key_spec _ H) as (core & text & Ek & Ty & Nt & Tc & Tt & Lc & Lt & Hh).
    destruct (commits (unpack O v) <? 0)%Z eqn:Ec.
    - left. split; [|intro st; unfold import_step; cbn [snd]; now rewrite Ec].
      unfold data_line, table_formatter. cbn [fst snd].
      destruct (split_on is_tab k) as [|code [|tx [|x y]]]; try reflexivity.
      destruct (is_empty code || is_empty tx); [reflexivity | now rewrite Ec].
    - apply Z.ltb_ge in Ec.
      destruct (export_import_line O core text v Ty Nt Tc Tt Ec) as [F P]. cbn zeta in F, P. rewrite <- Ek in F, P.
      pose proof (print_Z_space_free (commits (unpack O v))) as Cl.
      apply row_line_ok with (x := text) (row := [core; print_Z (commits (unpack O v))]) (kv' := (k, exported_value v)).
      + exact F.
      + repeat constructor; [exact Tt | exact Tc | exact (space_free_no TAB _ eq_refl Cl)].
      + repeat constructor; [exact Lt | exact Lc | exact (space_free_no LF _ eq_refl Cl)].
      + exact Hh.
      + apply ends_nonspace_clean; [apply print_Z_nonempty | exact Cl].
      + exact P.
      + intro st. unfold import_step. cbn [snd]. apply Z.ltb_ge in Ec. now rewrite Ec.
  Qed.
End TableFile.
