(** C17 – snapshots round-trip; backup then restore into an empty
    dictionary reproduces keys and commit counts; over every history of sync
    operations no dictionary loses an entry or lowers a commit magnitude. *)
From Coq Require Import List NArith ZArith Bool Lia.
From RimeV Require Import Base.Bytes Udb.Value Udb.ValueProofs Udb.Merge Udb.MergeProofs Udb.Tsv Udb.TsvProofs Udb.Manager.
Import ListNotations.

Definition wf_db (d : db) : Prop :=
  NoDup (keys (data d)) /\ forallb wf_rec (data d) = true /\
  NoDup (keys (meta d)) /\ forallb wf_meta_rec (meta d) = true.

Lemma query_all_wf m : forallb wf_rec m = true -> query_all m = m.
Proof.
  induction m as [|kv m IH]; intro H; [reflexivity|].
  cbn [forallb] in H. apply andb_true_iff in H. destruct H as [H1 H2].
  cbn [query_all filter]. unfold wf_rec in H1. apply andb_true_iff in H1. destruct H1 as [Hk _].
  rewrite (wf_key_not_below_sp _ Hk). cbn [negb]. f_equal. now apply IH.
Qed.

Definition upd_all : amap -> amap -> amap := upd_fold (fun _ v => v).

Lemma upd_all_find l m k : NoDup (keys l) ->
  find k (upd_all l m) = match find k l with Some v => Some v | None => find k m end.
Proof. apply find_upd_fold. Qed.

Lemma upd_all_nodup l m : NoDup (keys m) -> NoDup (keys (upd_all l m)).
Proof. apply nodup_upd_fold. Qed.

Lemma fold_left_const {A B} (l : list B) (a : A) : fold_left (fun a _ => a) l a = a.
Proof. induction l; [reflexivity | assumption]. Qed.

Section ManagerProofs.
  Variable O : dee_ops.
  Hypothesis dee_ok : dee_print_ok O.
  Variable inits : bool.
  Variable g : Z.
  Variable ver : bytes.

  Notation um_backup := (um_backup ver).
  Notation um_restore := (um_restore O inits g ver).
  Notation um_sync := (um_sync O inits g ver).
  Notation um_import := (um_import O ver).
  Notation step := (step O inits g ver).
  Notation run := (run O inits g ver).

  Definition db_mput (d : db) (k v : bytes) : db * bool := (sink_meta_put d k v, true).
  Definition db_put (d : db) (k v : bytes) : db * bool := (sink_put d k v, true).

  Lemma feed_db metas l : forall (st : rstate db),
    r_sink (fold_left (feed_data db db_put) l (fold_left (feed_meta db db_mput) metas st)) =
    {| meta := upd_all metas (meta (r_sink st)); data := upd_all l (data (r_sink st)) |}.
  Proof.
    induction metas as [|[k v] metas IH]; intro st.
    - cbn [fold_left upd_all upd_fold]. revert st. induction l as [|[k v] l IHl]; intro st.
      + cbn. now destruct (r_sink st).
      + cbn [fold_left]. now rewrite IHl.
    - cbn [fold_left]. now rewrite IH.
  Qed.

  Theorem uniform_restore_backup d d0 :
    forallb wf_meta_rec (meta d) = true -> forallb wf_rec (query_all (data d)) = true ->
    uniform_restore (uniform_backup d) d0 =
    {| meta := upd_all (meta d) (meta d0); data := upd_all (query_all (data d)) (data d0) |}.
  Proof.
    intros Hm Hd. unfold uniform_restore, uniform_backup.
    change (fun (d1 : db) (k v : bytes) => (sink_meta_put d1 k v, true)) with db_mput.
    change (fun (d1 : db) (k v : bytes) => (sink_put d1 k v, true)) with db_put.
    rewrite (tsv_read_write db userdb_parser db_mput db_put userdb_formatter (feed_meta db db_mput) (feed_data db db_put)
               s_descr_userdb s_descr_userdb); try reflexivity.
    - now rewrite feed_db.
    - revert Hm. apply forallb_Forall, userdb_meta_ok.
    - revert Hd. apply forallb_Forall, userdb_line_ok.
  Qed.

  Theorem uniform_roundtrip d : wf_db d ->
    let r := uniform_restore (uniform_backup d) empty_db in
    (forall k, find k (data r) = find k (data d)) /\ (forall k, find k (meta r) = find k (meta d)).
  Proof.
    intros (N1 & W1 & N2 & W2). cbn zeta.
    rewrite uniform_restore_backup; [|exact W2 | now rewrite query_all_wf].
    rewrite query_all_wf by exact W1. cbn [meta data empty_db].
    split; intro k; rewrite upd_all_find by assumption; destruct (find k _); reflexivity.
  Qed.

  Lemma data_create_metadata uid name d : data (create_metadata ver uid name d) = data d.
  Proof. reflexivity. Qed.

  Lemma data_open_rw uid name d : data (open_rw ver uid name d) = data d.
  Proof. unfold open_rw. destruct (find mk_db_name (meta d)); reflexivity. Qed.

  (** Restore of the snapshot of a well-formed user db named [dict_name] is the merge of a
      scratch db whose cursor yields exactly the snapshot's records. *)
  Lemma restore_snapshot uid src dest :
    wf_db src -> is_user_db src = true -> find mk_db_name (meta src) = Some dict_name ->
    exists temp,
      um_restore uid dict_name (uniform_backup src) dest =
        (merge_db O inits g uid temp (open_rw ver uid dict_name dest), RestoreOk) /\
      NoDup (keys (data temp)) /\ forall k, find k (query_all (data temp)) = find k (data src).
  Proof.
    intros (N1 & W1 & N2 & W2) Hu Hn.
    unfold Manager.um_restore.
    rewrite uniform_restore_backup; [|exact W2 | now rewrite query_all_wf].
    rewrite query_all_wf by exact W1.
    set (T0 := create_metadata ver uid s_dot_temp empty_db).
    set (temp := {| meta := upd_all (meta src) (meta T0); data := upd_all (data src) (data T0) |}).
    assert (Fm : forall k, find k (meta temp) = match find k (meta src) with Some v => Some v | None => find k (meta T0) end)
      by (intro k; apply upd_all_find; exact N2).
    assert (U : is_user_db temp = true).
    { unfold is_user_db in *. rewrite Fm. destruct (find mk_db_type (meta src)); [exact Hu|discriminate]. }
    assert (Nm : get_db_name temp = dict_name) by (unfold get_db_name; rewrite Fm, Hn; reflexivity).
    assert (NDt : NoDup (keys (data temp))) by (apply upd_all_nodup; constructor).
    exists temp. rewrite U, Nm. cbn [negb is_empty dict_name]. rewrite bytes_eqb_refl.
    split; [reflexivity|]. split; [exact NDt|]. intro k.
    unfold query_all. rewrite find_filter by exact NDt. cbn [temp data]. rewrite upd_all_find by exact N1.
    cbn [T0 data create_metadata empty_db find].
    destruct (find k (data src)) as [v|] eqn:F; [|reflexivity].
    apply find_some_in in F. now rewrite (wf_key_not_below_sp _ (wf_rec_in _ _ W1 F)).
  Qed.

  Theorem backup_restore_into_empty uidA uidB d dest :
    wf_db d -> get_user_id d = uidA -> is_user_db d = true ->
    find mk_db_name (meta d) = Some dict_name -> data dest = [] ->
    let snap := snd (um_backup uidA dict_name d) in
    let res := um_restore uidB dict_name snap dest in
    snd res = RestoreOk /\
    forall k, match find k (data d) with
              | Some v => exists s, find k (data (fst res)) = Some s /\ commits (unpack O s) = commits (unpack O v)
              | None => find k (data (fst res)) = None
              end.
  Proof.
    intros W Hu Ht Hn He. cbn zeta.
    unfold Manager.um_backup. rewrite Hu, bytes_eqb_refl. cbn [snd].
    destruct (restore_snapshot uidB d dest W Ht Hn) as (temp & -> & NDt & Q). cbn [fst snd].
    split; [reflexivity|]. intro k. rewrite merge_find, Q, data_open_rw, He by exact NDt. cbn [find].
    destruct (find k (data d)) as [v|]; [|reflexivity]. eexists. split; [reflexivity|].
    rewrite (proj1 (merged_value_obs O dee_ok _ _ None v)). apply merged_commits_zero.
  Qed.

  Definition wf_export_rec (kv : bytes * bytes) : bool := wf_export_key (fst kv).

  Definition nonneg (kv : bytes * bytes) : bool := negb (commits (unpack O (snd kv)) <? 0)%Z.

  Definition exported (m : amap) : amap :=
    map (fun kv => (fst kv, exported_value O (snd kv))) (filter nonneg m).

  Definition imports (l : amap) (d : db) : db := fold_left (fun d kv => imp_put O d (fst kv) (snd kv)) l d.

  Lemma import_steps l : forall st,
    r_sink (fold_left (import_step O) l st) = imports (exported l) (r_sink st) /\
    r_count (fold_left (import_step O) l st) = (r_count st + length (exported l))%nat.
  Proof.
    induction l as [|[k v] l IH]; intro st; [cbn; split; [reflexivity|lia]|].
    cbn [fold_left]. destruct (IH (import_step O st (k, v))) as [A B]. rewrite A, B.
    unfold import_step, exported, nonneg. cbn [fst snd filter].
    destruct (commits (unpack O v) <? 0)%Z; cbn [negb map imports fold_left fst snd r_sink r_count length]; split; try reflexivity; lia.
  Qed.

  Lemma keys_exported m : keys (exported m) = keys (filter nonneg m).
  Proof. unfold exported, keys. rewrite map_map. reflexivity. Qed.

  Lemma find_exported k m : NoDup (keys m) ->
    find k (exported m) = match find k m with
                          | Some v => if (commits (unpack O v) <? 0)%Z then None else Some (exported_value O v)
                          | None => None
                          end.
  Proof.
    intro ND. unfold exported. rewrite find_map_values, find_filter by exact ND.
    destruct (find k m) as [v|]; [|reflexivity]. unfold nonneg. cbn [snd]. now destruct (_ <? _)%Z.
  Qed.

  Lemma imports_spec l : forall d,
    meta (imports l d) = meta d /\ data (imports l d) = upd_fold (import_rule O) l (data d).
  Proof.
    induction l as [|kv l IH]; intro d; [now split|]. exact (IH (imp_put O d (fst kv) (snd kv))).
  Qed.

  Lemma exported_value_commits v : commits (unpack O (exported_value O v)) = commits (unpack O v).
  Proof.
    unfold exported_value.
    refine (proj1 (unpack_pack_commits O {| commits := commits (unpack O v); dee := d_of_commits O (commits (unpack O v)); tick := 0 |} dee_ok _)).
    split; cbn [commits tick]; [apply unpack_value_ok | unfold ULONG_MAX; lia].
  Qed.

  Lemma um_export_file d : is_user_db d = true ->
    um_export O d = Some (tsv_write s_descr_export (table_formatter O) (meta d) (query_all (data d)),
                          tsv_write_count (table_formatter O) (query_all (data d))).
  Proof. intro H. unfold um_export. now rewrite H. Qed.

  (** Export of a well-formed dictionary whose keys survive the table format, then Import into
      any user dictionary: metadata untouched; every non-deleted entry is imported under the
      import rule with the importer's own tick kept (0 for a new entry); deleted entries
      (negative count) are not exported; comments and "#@" lines change nothing. *)
  Theorem export_import_file uid d d0 :
    wf_db d -> forallb wf_export_rec (data d) = true -> is_user_db d = true ->
    is_user_db (open_rw ver uid dict_name d0) = true ->
    exists f n, um_export O d = Some (f, n) /\
      let res := um_import uid dict_name f d0 in
      snd res = Some (length (filter nonneg (data d))) /\
      meta (fst res) = meta (open_rw ver uid dict_name d0) /\
      forall k, match find k (data d) with
                | Some v =>
                    if (commits (unpack O v) <? 0)%Z then find k (data (fst res)) = find k (data d0)
                    else exists s, find k (data (fst res)) = Some s
                           /\ commits (unpack O s) = imported_commits (our_commits O d0 k) (commits (unpack O v))
                           /\ tick (unpack O s) = match find k (data d0) with Some s0 => tick (unpack O s0) | None => 0%N end
                | None => find k (data (fst res)) = find k (data d0)
                end.
  Proof.
    intros (N1 & W1 & N2 & W2) We Hu Hu0.
    eexists. eexists. split; [apply um_export_file; exact Hu|]. cbn zeta.
    unfold Manager.um_import. rewrite Hu0. cbn [fst snd].
    rewrite query_all_wf by exact W1.
    change (fun (d1 : db) (_ _ : bytes) => (d1, true)) with imp_sink_meta.
    change (fun (d1 : db) (k v : bytes) => (imp_put O d1 k v, true)) with (imp_sink_put O).
    rewrite (tsv_read_write db (table_parser O) imp_sink_meta (imp_sink_put O) (table_formatter O) (fun st _ => st) (import_step O)
               s_descr_export s_descr_export); try reflexivity.
    2:{ revert W2. apply forallb_Forall. intros kv W. destruct (wf_meta_rec_spec _ W) as (_ & Lk & _ & Lv & _).
        now apply import_meta_ok. }
    2:{ revert We. apply forallb_Forall. intro kv. apply table_line_ok. }
    rewrite fold_left_const.
    destruct (import_steps (data d) {| r_sink := open_rw ver uid dict_name d0; r_comment := true; r_count := 0 |}) as [-> ->].
    cbn [r_sink r_count]. destruct (imports_spec (exported (data d)) (open_rw ver uid dict_name d0)) as [-> ->].
    split; [|split; [reflexivity|]].
    - f_equal. unfold exported. now rewrite map_length.
    - intro k.
      rewrite find_upd_fold, find_exported, data_open_rw by (rewrite ?keys_exported; try apply nodup_filter_keys; exact N1).
      destruct (find k (data d)) as [v|]; [|reflexivity].
      destruct (commits (unpack O v) <? 0)%Z; [reflexivity|]. eexists. split; [reflexivity|].
      rewrite <- (exported_value_commits v). apply (import_rule_obs O dee_ok).
  Qed.

  (** into an empty dictionary: exactly the non-deleted entries, each with its commit count *)
  Corollary export_import_into_empty uid d d0 :
    wf_db d -> forallb wf_export_rec (data d) = true -> is_user_db d = true ->
    is_user_db (open_rw ver uid dict_name d0) = true -> data d0 = [] ->
    exists f n, um_export O d = Some (f, n) /\
      forall k, match find k (data d) with
                | Some v =>
                    if (commits (unpack O v) <? 0)%Z then find k (data (fst (um_import uid dict_name f d0))) = None
                    else exists s, find k (data (fst (um_import uid dict_name f d0))) = Some s
                           /\ commits (unpack O s) = commits (unpack O v) /\ tick (unpack O s) = 0%N
                | None => find k (data (fst (um_import uid dict_name f d0))) = None
                end.
  Proof.
    intros W We Hu Hu0 He. destruct (export_import_file uid d d0 W We Hu Hu0) as (f & n & E & _ & _ & H).
    exists f, n. split; [exact E|]. intro k. specialize (H k).
    destruct (find k (data d)) as [v|]; [|now rewrite He in H].
    destruct (commits (unpack O v) <? 0)%Z eqn:Ec; [now rewrite He in H|].
    destruct H as (s & Fs & Cs & Ts). exists s. split; [exact Fs|]. unfold our_commits in Cs. rewrite He in Cs, Ts. cbn [find] in Cs, Ts.
    split; [|exact Ts]. rewrite Cs. unfold imported_commits. rewrite Ec.
    destruct (Z.ltb_spec 0 (commits (unpack O v))); [|apply Z.ltb_ge in Ec]; lia.
  Qed.

  Definition mag_le (m1 m2 : amap) : Prop :=
    forall k s1, find k m1 = Some s1 ->
    exists s2, find k m2 = Some s2 /\ (Z.abs (commits (unpack O s1)) <= Z.abs (commits (unpack O s2)))%Z.

  Lemma mag_le_refl m : mag_le m m.
  Proof. intros k s H. exists s. split; [exact H|lia]. Qed.

  Lemma mag_le_trans m1 m2 m3 : mag_le m1 m2 -> mag_le m2 m3 -> mag_le m1 m3.
  Proof.
    intros H1 H2 k s F. destruct (H1 _ _ F) as (s2 & F2 & L2). destruct (H2 _ _ F2) as (s3 & F3 & L3).
    exists s3. split; [exact F3|lia].
  Qed.

  Lemma mag_le_upd m k s :
    (forall s0, find k m = Some s0 -> Z.abs (commits (unpack O s0)) <= Z.abs (commits (unpack O s)))%Z ->
    mag_le m (upd k s m).
  Proof.
    intros H k' s1 F. destruct (bytes_eqb k' k) eqn:E.
    - apply bytes_eqb_eq in E. subst k'. rewrite find_upd_same. exists s. split; [reflexivity | now apply H].
    - apply bytes_eqb_neq in E. rewrite find_upd_other by exact E. exists s1. split; [exact F|lia].
  Qed.

  Theorem merge_mag_le uid src dst : mag_le (data dst) (data (merge_db O inits g uid src dst)).
  Proof.
    rewrite merge_data. apply (upd_fold_ind (mag_le (data dst))); [|apply mag_le_refl].
    intros m k v _ H. apply (mag_le_trans _ _ _ H), mag_le_upd. intros s0 F.
    rewrite (proj1 (merged_value_obs O dee_ok src dst (find k m) v)), F, merged_commits_abs. cbn [commits_of]. lia.
  Qed.

  Lemma restore_mag_le uid name f dest : mag_le (data dest) (data (fst (um_restore uid name f dest))).
  Proof.
    unfold Manager.um_restore.
    destruct (negb (is_user_db _)); [apply mag_le_refl|].
    destruct (is_empty _); [apply mag_le_refl|].
    destruct (negb (bytes_eqb _ _)); [apply mag_le_refl|]. cbn [fst].
    rewrite <- (data_open_rw uid name dest) at 1. apply merge_mag_le.
  Qed.

  Lemma backup_data uid name d : data (fst (um_backup uid name d)) = data d.
  Proof.
    unfold Manager.um_backup. destruct (bytes_eqb _ _); cbn [fst]; [reflexivity|].
    now rewrite data_create_metadata, data_open_rw.
  Qed.

  Lemma restores_mag_le uid name snaps : forall d,
    mag_le (data d) (data (fold_left (fun d f => fst (um_restore uid name f d)) snaps d)).
  Proof.
    induction snaps as [|f snaps IH]; intro d; [apply mag_le_refl|].
    cbn [fold_left]. eapply mag_le_trans; [apply restore_mag_le | apply IH].
  Qed.

  Lemma sync_mag_le uid name snaps d : mag_le (data d) (data (fst (um_sync uid name snaps d))).
  Proof. unfold Manager.um_sync. rewrite backup_data. apply restores_mag_le. Qed.

  (** the operations of the sync family (import may resurrect a deleted entry with a smaller
      count; a direct UniformRestore overwrites) *)
  Definition sync_op (o : op) : bool :=
    match o with OImport _ _ | OURestore _ _ => false | _ => true end.

  Lemma nth_set_nth {A} (l : list A) : forall i j x dflt,
    nth j (set_nth i x l) dflt = if Nat.eqb i j && Nat.ltb i (length l) then x else nth j l dflt.
  Proof.
    induction l as [|a l IH]; intros i j x dflt.
    - replace (Nat.ltb i (length (@nil A))) with false by (symmetry; apply Nat.ltb_ge; cbn; lia).
      rewrite andb_false_r. destruct i; reflexivity.
    - destruct i as [|i]; destruct j as [|j]; cbn [set_nth nth length]; try reflexivity.
      rewrite IH. reflexivity.
  Qed.

  Lemma get_set_db w i d j :
    get_db (set_db w i d) j = if Nat.eqb i j && Nat.ltb i (length (w_dbs w)) then d else get_db w j.
  Proof. unfold get_db, set_db. cbn [w_dbs]. apply nth_set_nth. Qed.

  Lemma set_db_mag_le w i d j : mag_le (data (get_db w i)) (data d) ->
    mag_le (data (get_db w j)) (data (get_db (set_db w i d) j)).
  Proof.
    intro H. rewrite get_set_db. destruct (Nat.eqb i j) eqn:E; cbn [andb]; [|apply mag_le_refl].
    apply Nat.eqb_eq in E. subst j. destruct (Nat.ltb i _); [exact H | apply mag_le_refl].
  Qed.

  (** a step touches at most one dictionary, and replaces it by the outcome of a merge, a
      restore, a synchronize or a backup *)
  Lemma step_mag_le w o j : sync_op o = true ->
    mag_le (data (get_db w j)) (data (get_db (step w o) j)).
  Proof.
    intro Hs. unfold Manager.step.
    destruct o as [i|i x|i s|i order|i s|i s|i x|i s|i s|i|i x]; try discriminate Hs; cbn [step_ret].
    - rewrite (surjective_pairing (um_backup _ _ _)). apply set_db_mag_le. rewrite backup_data. apply mag_le_refl.
    - destruct (nth x (w_snaps w) None) as [f|]; [|apply mag_le_refl].
      rewrite (surjective_pairing (um_restore _ _ _ _)). apply set_db_mag_le, restore_mag_le.
    - destruct (nth s (w_files w) None) as [f|]; [|apply mag_le_refl].
      rewrite (surjective_pairing (um_restore _ _ _ _)). apply set_db_mag_le, restore_mag_le.
    - rewrite (surjective_pairing (um_sync _ _ _ _)). apply set_db_mag_le, sync_mag_le.
    - destruct (um_export O (get_db w i)) as [[f n]|]; apply mag_le_refl.
    - apply set_db_mag_le, merge_mag_le.
    - apply mag_le_refl.
    - apply set_db_mag_le, mag_le_refl.
    - destruct (nth x (w_snaps w) None); apply mag_le_refl.
  Qed.

  Theorem history_never_loses ops : forall w j, forallb sync_op ops = true ->
    mag_le (data (get_db w j)) (data (get_db (run ops w) j)).
  Proof.
    induction ops as [|o ops IH]; intros w j H; [apply mag_le_refl|].
    cbn [forallb] in H. apply andb_true_iff in H. destruct H as [H1 H2].
    unfold Manager.run. cbn [fold_left]. eapply mag_le_trans; [apply (step_mag_le w o j H1)|]. apply IH. exact H2.
  Qed.
End ManagerProofs.
