(** C18 – the executable round-trip check [roundtrips] on the finite family
    [sweep_trees], as a corollary of [tree_roundtrip]: the family is built from
    a few texts and keys of the scalar domain by forming short lists and maps
    with increasing keys, so every tree of it is in the theorem's domain. *)
From Coq Require Import List NArith Bool Lia.
From Coq.Strings Require Import Byte.
From RimeV Require Import Base.Bytes Cfg.Tree Cfg.PathProofs Cfg.Yaml Cfg.YamlProofs Cfg.TreeProofs Cfg.RoundTrip.
Import ListNotations.
Local Open Scope N_scope.

Lemma item_eqb_refl t : item_eqb t t = true.
Proof.
  induction t using item_ind'; cbn [item_eqb].
  - reflexivity.
  - apply bytes_eqb_refl.
  - induction H as [|x r E _ IH]; [reflexivity|]. now rewrite E, IH.
  - induction H as [|[k x] r E _ IH]; [reflexivity|]. cbn [snd] in E. now rewrite bytes_eqb_refl, E, IH.
Qed.

Lemma roundtrips_domain t : tree_ok t -> wf_item t && roundtrips t = true.
Proof.
  intros T. unfold roundtrips. rewrite (tree_ok_wf t T), (domain_roundtrip t T). apply item_eqb_refl.
Qed.

Lemma Forall_map_of {A B} (P : A -> Prop) (Q : B -> Prop) (f : A -> B) l :
  (forall x, P x -> Q (f x)) -> Forall P l -> Forall Q (map f l).
Proof. intros PQ F. apply Forall_map. eapply Forall_impl; [exact PQ|exact F]. Qed.

Lemma Forall_flat_map_of {A B} (P : A -> Prop) (Q : B -> Prop) (f : A -> list B) l :
  (forall x, P x -> Forall Q (f x)) -> Forall P l -> Forall Q (flat_map f l).
Proof. intros PQ F. apply Forall_flat_map. eapply Forall_impl; [exact PQ|exact F]. Qed.

Lemma sw_scalar_ok s : In s sw_scalars -> tree_ok (Scalar s).
Proof.
  intros [<-|[<-|[<-|[<-|[]]]]]; constructor; [wf_ex [97]|wf_ex (@nil N)|wf_ex [97; 10]|wf_ex [45; 32; 120]].
Qed.

Lemma sw_leaves_ok : Forall tree_ok sw_leaves.
Proof. constructor; [constructor|]. apply Forall_map, Forall_forall. exact sw_scalar_ok. Qed.

Lemma sw_entry_ok k t : In k [sw_k1; sw_k2; sw_k3] -> tree_ok t -> entry_ok (k, t).
Proof.
  intros [<-|[<-|[<-|[]]]] T; (split; [|split; [cbn; lia|exact T]]);
    [wf_ex [97; 10]|wf_ex [107]|wf_ex [120; 32; 121]].
Qed.

Ltac each_elem := repeat apply Forall_cons; try apply Forall_nil; try apply sw_entry_ok; cbn [In]; auto.

(** the two-entry maps have their keys in increasing order: [keys_sorted]
    evaluates on the concrete keys *)
Lemma sw_wrap_ok t : tree_ok t -> Forall tree_ok (sw_wrap t).
Proof.
  intros T.
  assert (tree_ok (Scalar ["a"]%byte)) as A by (apply sw_scalar_ok; cbn; auto).
  assert (tree_ok (Scalar ["a"; x0a]%byte)) as AL by (apply sw_scalar_ok; cbn; auto).
  repeat apply Forall_cons; try apply Forall_nil.
  - apply ok_lst. each_elem.
  - apply ok_lst. each_elem.
  - apply ok_map; [reflexivity|]. each_elem.
  - apply ok_map; [reflexivity|]. each_elem.
Qed.

Lemma sw_level1_ok : Forall tree_ok sw_level1.
Proof.
  pose proof sw_leaves_ok as L. unfold sw_level1. rewrite !Forall_app. repeat split.
  - exact L.
  - each_elem. apply ok_lst. each_elem.
  - apply (Forall_map_of tree_ok); [|exact L]. intros x X. apply ok_lst. each_elem.
  - apply (Forall_flat_map_of tree_ok); [|exact L]. intros x X.
    apply (Forall_map_of tree_ok); [|exact L]. intros y Y. apply ok_lst. each_elem.
  - each_elem. apply ok_map; [reflexivity|]. each_elem.
  - apply (Forall_flat_map_of (fun k => In k [sw_k1; sw_k2; sw_k3])); [|apply Forall_forall; auto]. intros k K.
    apply (Forall_map_of tree_ok); [|exact L]. intros x X. apply ok_map; [reflexivity|]. each_elem.
  - apply (Forall_flat_map_of tree_ok); [|exact L]. intros x X.
    apply (Forall_flat_map_of tree_ok); [|exact L]. intros y Y.
    each_elem; (apply ok_map; [reflexivity|]); each_elem.
Qed.

Lemma sweep_trees_ok : Forall tree_ok sweep_trees.
Proof.
  assert (forall l, Forall tree_ok l -> Forall tree_ok (flat_map sw_wrap l)) as W
    by (intros l; apply Forall_flat_map_of; exact sw_wrap_ok).
  pose proof sw_level1_ok as L1. unfold sweep_trees. cbv zeta.
  rewrite !Forall_app. repeat split; auto 6.
Qed.

Theorem tree_roundtrip_sweep : forallb (fun t => wf_item t && roundtrips t) sweep_trees = true.
Proof.
  apply forallb_forall, Forall_forall. eapply Forall_impl; [exact roundtrips_domain|exact sweep_trees_ok].
Qed.
