(** C18 – proofs about the scalar codec: every scalar of the property's domain
    is read back from what [EmitScalar] + yaml-cpp write for it, in block and in
    flow context; the code before the repair is refuted. *)
From Coq Require Import List NArith Bool Arith Lia ZArith ZifyBool ZifyNat ZifyN.
From RimeV Require Import Base.Bytes Cfg.Tree Cfg.Yaml.
Import ListNotations.
Local Open Scope N_scope.

(** * the domain *)

(** a Unicode scalar value that is not a noncharacter *)
Definition ok_cp (cp : N) : bool :=
  (cp <=? 1114111) && negb ((55296 <=? cp) && (cp <=? 57343))
  && negb ((cp mod 65536) / 2 =? 32767) && negb ((64976 <=? cp) && (cp <=? 65007)).

Definition utf8 (cps : list N) : octs := flat_map encode cps.

(** "multi-line text provided it ends in exactly one line break".  Line breaks
    are LF, CR LF and a lone CR.  A text with a line break is in the domain when
    it ends in LF, that LF optionally preceded by one CR (a final CR LF pair is
    ONE line break), and what precedes this final break does not itself end in
    LF or CR.  So "one" CR LF, "a" LF "b" CR LF, "a" CR "b" LF are in; a text
    whose last byte is a lone CR, or that has a break but no final one, or that
    ends in two breaks ("a" LF CR LF, "a" CR CR LF) is out. *)
Definition head_is_break (r : octs) : bool := match r with c :: _ => is_break c | [] => false end.

Definition ends_in_one_break (s : octs) : bool :=
  match rev s with
  | 10 :: 13 :: r => negb (head_is_break r)
  | 10 :: r => negb (head_is_break r)
  | _ => false
  end.

Definition multi_line_ok (s : octs) : Prop :=
  existsb is_break s = true -> ends_in_one_break s = true.

Definition valid_text (s : octs) : Prop := exists cps, forallb ok_cp cps = true /\ s = utf8 cps.

Definition wf_scalar (s : octs) : Prop := valid_text s /\ multi_line_ok s.

Definition wf_ctx (c : sctx) : Prop :=
  match c with CtxBlock li minlit => (minlit <= li)%nat | CtxFlow => True end.

(** * UTF-8 *)

Lemma ok_cp_fix cp : ok_cp cp = true -> fix_cp cp = cp /\ cp <= 1114111 /\ ~ (55296 <= cp <= 57343).
Proof.
  unfold ok_cp, fix_cp. intros H.
  replace (1114111 <? cp) with false by lia. replace ((55296 <=? cp) && (cp <=? 57343)) with false by lia.
  replace (cp mod 65536 / 2 =? 32767) with false by lia. replace ((64976 <=? cp) && (cp <=? 65007)) with false by lia.
  lia.
Qed.

Lemma lead1 b : b < 128 -> lead_len b = 1%nat.
Proof. intros H. unfold lead_len. now replace (b / 16 <? 8) with true by lia. Qed.

Lemma lead2 h : h < 32 -> lead_len (192 + h) = 2%nat.
Proof. intros H. unfold lead_len. assert ((192 + h) / 16 = 12 \/ (192 + h) / 16 = 13) as [-> | ->] by lia; reflexivity. Qed.

Lemma lead3 h : h < 16 -> lead_len (224 + h) = 3%nat.
Proof. intros H. unfold lead_len. assert ((224 + h) / 16 = 14) as -> by lia. reflexivity. Qed.

Lemma lead4 h : h < 8 -> lead_len (240 + h) = 4%nat.
Proof. intros H. unfold lead_len. assert ((240 + h) / 16 = 15) as -> by lia. reflexivity. Qed.

Lemma trail_ok x : x < 64 -> is_trail (128 + x) = true.
Proof. unfold is_trail. lia. Qed.

(** masking a byte [tag + h] leaves the payload [h]: 192 = 6 * 32, 224 = 14 * 16, 240 = 30 * 8, 128 = 2 * 64 *)
Lemma payload k m h : h < m -> (k * m + h) mod m = h.
Proof. intros H. rewrite N.add_comm, N.mod_add by lia. now apply N.mod_small. Qed.

Lemma sextets n : n / 64 * 64 + n mod 64 = n.
Proof. rewrite N.mul_comm. symmetry. apply N.div_mod. discriminate. Qed.

Lemma encode_cases cp : cp <= 1114111 ->
  (cp <= 127 /\ encode cp = [cp]) \/
  (127 < cp <= 2047 /\ encode cp = [192 + cp / 64; 128 + cp mod 64]) \/
  (2047 < cp <= 65535 /\ encode cp = [224 + cp / 4096; 128 + (cp / 64) mod 64; 128 + cp mod 64]) \/
  (65535 < cp /\ encode cp = [240 + cp / 262144; 128 + (cp / 4096) mod 64; 128 + (cp / 64) mod 64; 128 + cp mod 64]).
Proof.
  intros H. unfold encode. replace (1114111 <? cp) with false by lia.
  destruct (N.leb_spec cp 127); [left; split; [lia|reflexivity]|].
  destruct (N.leb_spec cp 2047); [right; left; split; [lia|reflexivity]|].
  destruct (N.leb_spec cp 65535); [right; right; left; split; [lia|reflexivity]|].
  right; right; right. split; [lia|reflexivity].
Qed.

(** What [decode] reads from a well-formed sequence of each length.  The tail is
    a variable while [decode] is unfolded: on a literal [_ :: _ :: _] every
    fallback branch would unfold again. *)
Lemma decode_1 b r : lead_len b = 1%nat -> decode (b :: r) = b :: decode r.
Proof. intros L. cbn [decode]. now rewrite L. Qed.

Lemma decode_2 b b2 r : lead_len b = 2%nat -> is_trail b2 = true ->
  decode (b :: b2 :: r) = fix_cp (b mod 32 * 64 + b2 mod 64) :: decode r.
Proof.
  intros L T2.
  enough (forall t, t = b2 :: r -> decode (b :: t) = fix_cp (b mod 32 * 64 + b2 mod 64) :: decode r) as G
    by exact (G _ eq_refl).
  intros t E. cbn [decode]. rewrite L. subst t. cbv iota. now rewrite T2.
Qed.

Lemma decode_3 b b2 b3 r : lead_len b = 3%nat -> is_trail b2 = true -> is_trail b3 = true ->
  decode (b :: b2 :: b3 :: r) = fix_cp ((b mod 16 * 64 + b2 mod 64) * 64 + b3 mod 64) :: decode r.
Proof.
  intros L T2 T3.
  enough (forall t, t = b2 :: b3 :: r ->
            decode (b :: t) = fix_cp ((b mod 16 * 64 + b2 mod 64) * 64 + b3 mod 64) :: decode r) as G
    by exact (G _ eq_refl).
  intros t E. cbn [decode]. rewrite L. subst t. cbv iota. now rewrite T2, T3.
Qed.

Lemma decode_4 b b2 b3 b4 r : lead_len b = 4%nat -> is_trail b2 = true -> is_trail b3 = true -> is_trail b4 = true ->
  decode (b :: b2 :: b3 :: b4 :: r) = fix_cp (((b mod 8 * 64 + b2 mod 64) * 64 + b3 mod 64) * 64 + b4 mod 64) :: decode r.
Proof.
  intros L T2 T3 T4.
  enough (forall t, t = b2 :: b3 :: b4 :: r ->
            decode (b :: t) = fix_cp (((b mod 8 * 64 + b2 mod 64) * 64 + b3 mod 64) * 64 + b4 mod 64) :: decode r) as G
    by exact (G _ eq_refl).
  intros t E. cbn [decode]. rewrite L. subst t. cbv iota. now rewrite T2, T3, T4.
Qed.

Lemma decode_encode cp r : ok_cp cp = true -> decode (encode cp ++ r) = cp :: decode r.
Proof.
  intros OK. destruct (ok_cp_fix _ OK) as (FX & LE & NS).
  assert (forall n, n mod 64 < 64) as M by (intros n; apply N.mod_lt; discriminate).
  destruct (encode_cases cp LE) as [[R ->] | [[R ->] | [[R ->] | [R ->]]]]; cbn [app].
  - apply decode_1, lead1. lia.
  - assert (cp / 64 < 32) as H by (apply N.div_lt_upper_bound; lia).
    rewrite decode_2 by (apply lead2, H || apply trail_ok, M).
    rewrite (payload 6 32), (payload 2 64) by (exact H || apply M).
    now rewrite sextets, FX.
  - assert (cp / 4096 < 16) as H by (apply N.div_lt_upper_bound; lia).
    rewrite decode_3 by (apply lead3, H || apply trail_ok, M).
    rewrite (payload 14 16), !(payload 2 64) by (exact H || apply M).
    change 4096 with (64 * 64). rewrite <- N.div_div by discriminate.
    now rewrite !sextets, FX.
  - assert (cp / 262144 < 8) as H by (apply N.div_lt_upper_bound; lia).
    rewrite decode_4 by (apply lead4, H || apply trail_ok, M).
    rewrite (payload 30 8), !(payload 2 64) by (exact H || apply M).
    change 262144 with (64 * 64 * 64). change 4096 with (64 * 64). rewrite <- !N.div_div by discriminate.
    now rewrite !sextets, FX.
Qed.

Lemma decode_utf8 cps : forallb ok_cp cps = true -> decode (utf8 cps) = cps.
Proof.
  induction cps as [|cp cps IH]; intros H; [reflexivity|].
  cbn [forallb] in H. apply andb_true_iff in H. destruct H as [H1 H2].
  unfold utf8. cbn [flat_map]. rewrite decode_encode by exact H1. f_equal. now apply IH.
Qed.

Lemma eqb_false a b : a <> b -> (a =? b) = false.
Proof. apply N.eqb_neq. Qed.

Lemma encode_bytes (P : N -> Prop) cp :
  cp <= 1114111 -> P cp -> (forall b, 128 <= b -> P b) -> Forall P (encode cp).
Proof.
  intros LE A H. destruct (encode_cases cp LE) as [[R ->] | [[R ->] | [[R ->] | [R ->]]]];
    repeat constructor; try exact A; apply H; lia.
Qed.

Lemma encode_not_nil cp : encode cp <> [].
Proof. unfold encode. destruct (_ <=? 127); [|destruct (_ <=? 2047); [|destruct (_ <=? 65535)]]; discriminate. Qed.

(** * plain words *)
Lemma span_plain_app s rest : forallb plain_class s = true ->
  match rest with [] => True | c :: _ => plain_class c = false end -> span_plain (s ++ rest) = (s, rest).
Proof.
  intros PL R. induction s as [|c s IH]; cbn [app].
  - destruct rest as [|c r]; [reflexivity|]. cbn [span_plain]. now rewrite R.
  - cbn [forallb] in PL. apply andb_true_iff in PL. destruct PL as [P1 P2]. cbn [span_plain]. rewrite P1, IH by exact P2. reflexivity.
Qed.

Lemma span_plain_all s : forallb plain_class s = true -> span_plain s = (s, []).
Proof. intros H. rewrite <- (app_nil_r s) at 1. now apply span_plain_app. Qed.

Lemma plain_first_not_special s : forallb plain_class s = true ->
  match s with c :: _ => c <> 124 /\ c <> 34 /\ plain_class c = true | [] => True end.
Proof.
  destruct s as [|c s]; [trivial|]. cbn [forallb]. intros H. apply andb_true_iff in H. destruct H as [H _].
  repeat split; [| |exact H]; intros ->; discriminate H.
Qed.

(** * double-quoted scalars *)
Lemma hex_of_hexdigit d : d < 16 -> hex_of (hexdigit d) = Some d.
Proof.
  intros H. unfold hexdigit, hex_of. destruct (N.ltb_spec d 10).
  - replace ((48 <=? 48 + d) && (48 + d <=? 57)) with true by lia. f_equal. lia.
  - replace ((48 <=? 87 + d) && (87 + d <=? 57)) with false by lia.
    replace ((65 <=? 87 + d) && (87 + d <=? 70)) with false by lia.
    replace ((97 <=? 87 + d) && (87 + d <=? 102)) with true by lia. f_equal. lia.
Qed.

Lemma esc_encode_eq v : v <= 1114111 -> ~ (55296 <= v <= 57343) -> esc_encode v = Some (encode v).
Proof.
  intros LE NS. unfold esc_encode, encode.
  replace (1114111 <? v) with false by lia. replace ((55296 <=? v) && (v <=? 57343)) with false by lia.
  cbn [orb]. destruct (v <=? 127); [reflexivity|]. destruct (v <=? 2047); [reflexivity|]. destruct (v <=? 65535); reflexivity.
Qed.

Lemma esc_x_roundtrip cp r : cp < 255 ->
  unescape 120 (hexdigit (cp / 16 mod 16) :: hexdigit (cp mod 16) :: r) = Some (encode cp, r).
Proof.
  intros H. change (unescape 120 ?l) with (esc_hex 2 l). unfold esc_hex. cbn [parse_hex].
  rewrite !hex_of_hexdigit by (apply N.mod_lt; lia).
  replace ((0 * 16 + cp / 16 mod 16) * 16 + cp mod 16) with cp by lia.
  rewrite esc_encode_eq by lia. reflexivity.
Qed.

(** a byte the scanner copies verbatim *)
Definition raw_ok (b : N) : bool := negb (b =? 34) && negb (b =? 92) && negb (b =? 10) && negb (b =? 13) && negb (b =? 4).

Lemma high_raw_ok b : 128 <= b -> raw_ok b = true.
Proof. unfold raw_ok. lia. Qed.

Lemma dq_scan_raw bs : Forall (fun b => raw_ok b = true) bs ->
  forall fuel acc tail, (length bs <= fuel)%nat ->
  dq_scan fuel (bs ++ tail) acc = dq_scan (fuel - length bs) tail (rev_append bs acc).
Proof.
  induction 1 as [|b bs B F IH]; intros fuel acc tail L; cbn [length app rev_append].
  - now rewrite Nat.sub_0_r.
  - destruct fuel as [|f]; [cbn in L; lia|]. cbn [dq_scan]. unfold raw_ok in B.
    replace (b =? 34) with false by lia. replace (b =? 92) with false by lia.
    replace ((b =? 10) || (b =? 13) || (b =? 4)) with false by lia.
    cbn [length] in L. rewrite IH by lia. reflexivity.
Qed.

Lemma dq_scan_escape f e r acc bs r' :
  unescape e r = Some (bs, r') -> dq_scan (S f) (92 :: e :: r) acc = dq_scan f r' (rev_append bs acc).
Proof. intros U. cbn [dq_scan]. change (92 =? 34) with false. change (92 =? 92) with true. cbv iota. now rewrite U. Qed.

(** [WriteDoubleQuotedString] writes a code point either as an escape that the
    reader's table inverts, or raw *)
Lemma dq_cp_cases cp : ok_cp cp = true ->
  (exists e args, dq_cp cp = 92 :: e :: args /\ forall tail, unescape e (args ++ tail) = Some (encode cp, tail)) \/
  (dq_cp cp = encode cp /\ Forall (fun b => raw_ok b = true) (encode cp)).
Proof.
  intros OK. destruct (ok_cp_fix _ OK) as (_ & LE & _). unfold dq_cp.
  destruct (N.eqb_spec cp 34) as [->|N34]; [left; now exists 34, []|].
  destruct (N.eqb_spec cp 92) as [->|N92]; [left; now exists 92, []|].
  destruct (N.eqb_spec cp 10) as [->|N10]; [left; now exists 110, []|].
  destruct (N.eqb_spec cp 9) as [->|N9]; [left; now exists 116, []|].
  destruct (N.eqb_spec cp 13) as [->|N13]; [left; now exists 114, []|].
  destruct (N.eqb_spec cp 8) as [->|N8]; [left; now exists 98, []|].
  destruct (N.eqb_spec cp 12) as [->|N12]; [left; now exists 102, []|].
  destruct ((cp <? 32) || ((128 <=? cp) && (cp <=? 160))) eqn:C.
  - left. assert (cp < 255) as S by lia. unfold esc_seq. replace (cp <? 255) with true by lia.
    exists 120, [hexdigit (cp / 16 mod 16); hexdigit (cp mod 16)]. split; [reflexivity|].
    intros tail. now apply esc_x_roundtrip.
  - destruct (N.eqb_spec cp 65279) as [->|NB]; [left; now exists 117, [102; 101; 102; 102]|].
    right. split; [reflexivity|]. apply encode_bytes; [exact LE|unfold raw_ok; lia|exact high_raw_ok].
Qed.

Lemma dq_cp_scan cp : ok_cp cp = true ->
  forall fuel acc tail, (length (dq_cp cp) <= fuel)%nat ->
  exists fuel', (fuel - length (dq_cp cp) <= fuel')%nat /\
  dq_scan fuel (dq_cp cp ++ tail) acc = dq_scan fuel' tail (rev_append (encode cp) acc).
Proof.
  intros OK fuel acc tail L. destruct (dq_cp_cases cp OK) as [(e & args & E & U) | [E RAW]]; rewrite E in *.
  - destruct fuel as [|f]; [cbn in L; lia|]. exists f. split; [cbn [length]; lia|]. cbn [app]. now apply dq_scan_escape.
  - exists (fuel - length (encode cp))%nat. split; [lia|]. now apply dq_scan_raw.
Qed.

Lemma dq_scan_cps cps : forallb ok_cp cps = true ->
  forall fuel acc rest, (length (flat_map dq_cp cps) < fuel)%nat ->
  dq_scan fuel (flat_map dq_cp cps ++ 34 :: rest) acc = Some (rev acc ++ utf8 cps, rest).
Proof.
  induction cps as [|cp cps IH]; intros OK fuel acc rest L.
  - cbn [flat_map app utf8] in *. destruct fuel as [|f]; [cbn in L; lia|]. cbn [dq_scan].
    change (34 =? 34) with true. cbv iota. now rewrite app_nil_r.
  - cbn [forallb] in OK. apply andb_true_iff in OK. destruct OK as [O1 O2].
    cbn [flat_map] in *. rewrite app_length in L. rewrite <- app_assoc.
    destruct (dq_cp_scan cp O1 fuel acc (flat_map dq_cp cps ++ 34 :: rest)) as (f' & Lf & E); [lia|].
    rewrite E, IH by (assumption || lia).
    unfold utf8. cbn [flat_map]. rewrite rev_append_rev, rev_app_distr, rev_involutive, <- app_assoc. reflexivity.
Qed.

Theorem dq_roundtrip cps rest c : forallb ok_cp cps = true ->
  flow_scalar (dq_write (utf8 cps) ++ rest) c = Some (utf8 cps, rest, (c + length (dq_write (utf8 cps)))%nat).
Proof.
  intros OK. unfold dq_write. rewrite decode_utf8 by exact OK.
  cbn [app flow_scalar]. change (34 =? 34) with true. cbv iota.
  rewrite <- app_assoc. cbn [app].
  rewrite dq_scan_cps; [|exact OK|rewrite !app_length; cbn [length]; lia].
  cbn [rev app length]. rewrite !app_length. cbn [length]. f_equal. f_equal. lia.
Qed.

(** * literal block scalars *)

Fixpoint lit_bytes (li : nat) (bol : bool) (s : octs) : octs :=
  match s with
  | [] => []
  | b :: r =>
      if b =? 10 then 10 :: lit_bytes li true r
      else (if bol then repeat SP li else []) ++ b :: lit_bytes li false r
  end.

Lemma lit_bytes_no_lf li bs r : Forall (fun b => b <> 10) bs -> lit_bytes li false (bs ++ r) = bs ++ lit_bytes li false r.
Proof.
  induction 1 as [|b bs B F IH]; [reflexivity|]. cbn [app lit_bytes]. rewrite (eqb_false _ _ B). cbn [app]. now rewrite IH.
Qed.

Lemma lit_body_bytes li cps : forallb ok_cp cps = true ->
  forall bol, lit_body li bol cps = lit_bytes li bol (utf8 cps).
Proof.
  induction cps as [|cp cps IH]; intros OK bol; [reflexivity|].
  cbn [forallb] in OK. apply andb_true_iff in OK. destruct OK as [O1 O2].
  destruct (ok_cp_fix _ O1) as (_ & LE & _).
  unfold utf8. cbn [flat_map lit_body]. fold (utf8 cps).
  destruct (N.eqb_spec cp 10) as [->|N10].
  - cbn [encode app lit_bytes]. change (10 =? 10) with true. cbv iota. cbn. f_equal. now apply IH.
  - assert (Forall (fun b => b <> 10) (encode cp)) as F by (apply encode_bytes; [exact LE|exact N10|lia]).
    pose proof (encode_not_nil cp) as NE. destruct (encode cp) as [|b bs]; [congruence|]. inversion F as [|? ? B F']; subst.
    cbn [app lit_bytes]. rewrite (eqb_false _ _ B), lit_bytes_no_lf, IH by assumption. reflexivity.
Qed.

Lemma lit_scan_spaces k : forall l indent detect past c acc,
  (detect = true \/ (c + k <= indent)%nat) ->
  lit_scan (repeat SP k ++ l) indent detect past true c acc = lit_scan l indent detect past true (c + k)%nat acc.
Proof.
  induction k as [|k IH]; intros l indent detect past c acc H; cbn [repeat app].
  - now rewrite Nat.add_0_r.
  - cbn [lit_scan]. change (SP =? 32) with true.
    replace ((c <? indent)%nat || detect) with true by (destruct H as [->|H]; [now rewrite orb_true_r|lia]).
    cbn [andb]. rewrite IH by (destruct H; [now left|right; lia]). f_equal. lia.
Qed.

Definition lit_byte_ok (b : N) : Prop := b <> 13 /\ b <> 0 /\ b <> 4.

Lemma lit_char_ok_byte b : lit_char_ok b = true -> lit_byte_ok b.
Proof. unfold lit_char_ok, lit_byte_ok. lia. Qed.

Lemma bad_false b : lit_byte_ok b -> (b =? 13) || (b =? 0) || (b =? 4) = false.
Proof. unfold lit_byte_ok. lia. Qed.

Lemma lit_scan_empty_line r indent acc :
  lit_scan (10 :: r) indent false true true 0%nat acc = lit_scan r indent false true true 0%nat (10 :: acc).
Proof. reflexivity. Qed.

(** the body of the block after its first byte, read from a line start ([bol]: the LF before it is still owed
    to the text) or from inside a line *)
Lemma lit_scan_body li tail body : Forall lit_byte_ok body ->
  forall (bol : bool) c acc,
  lit_scan (lit_bytes li bol (body ++ [10]) ++ tail) li false true bol (if bol then 0%nat else c) acc
  = lit_scan tail li false true true 0%nat (rev_append body (if bol then 10 :: acc else acc)).
Proof.
  induction 1 as [|b body B F IH]; intros bol c acc; [now destruct bol|].
  pose proof (bad_false _ B) as BF. cbn [app lit_bytes rev_append]. destruct (N.eqb_spec b 10) as [->|N10].
  - (* after an LF the scanner stands at a line start *)
    rewrite <- (IH true 0%nat). now destruct bol.
  - (* after any other byte it stands inside the line *)
    rewrite <- (IH false (if bol then S li else S c)). destruct bol.
    + rewrite <- app_assoc, lit_scan_spaces by (right; lia). cbn [app lit_scan Nat.add].
      now rewrite Nat.ltb_irrefl, !andb_false_r, BF, (eqb_false _ _ N10).
    + cbn [app lit_scan]. now rewrite (eqb_false _ _ N10), BF.
Qed.

Lemma lit_scan_block li minlit b0 body tail :
  (minlit <= li)%nat -> b0 <> 10 -> b0 <> 32 -> Forall lit_byte_ok (b0 :: body) ->
  lit_scan (lit_bytes li true (b0 :: body ++ [10]) ++ tail) minlit true false true 0%nat [] =
  lit_scan tail li false true true 0%nat (rev_append body [b0]).
Proof.
  intros ML N10 N32 FB. inversion FB as [|? ? B0 FB']; subst.
  cbn [lit_bytes]. rewrite (eqb_false _ _ N10), <- app_assoc.
  rewrite lit_scan_spaces by (now left). cbn [app lit_scan Nat.add].
  rewrite (eqb_false _ _ N32). cbn [andb].
  replace (Nat.max minlit li) with li by lia. rewrite Nat.ltb_irrefl, andb_false_r.
  rewrite (bad_false _ B0), (eqb_false _ _ N10). apply (lit_scan_body li tail body FB' false).
Qed.

Lemma repeat_cons_app {A} (x : A) n l : repeat x n ++ x :: l = x :: repeat x n ++ l.
Proof. induction n as [|n IH]; [reflexivity|]. cbn [repeat app]. now rewrite IH. Qed.

(** after the block: [j] empty lines, then a line indented by [k] < [li] blanks *)
Lemma lit_scan_tail li j : forall k c0 r acc,
  (k < li)%nat -> c0 <> 32 -> c0 <> 10 -> c0 <> 9 -> lit_byte_ok c0 ->
  lit_scan (repeat 10 j ++ repeat SP k ++ c0 :: r) li false true true 0%nat acc = Some (repeat 10 (S j) ++ acc, c0 :: r, k).
Proof.
  induction j as [|j IH]; intros k c0 r acc K N32 N10 N9 B.
  - cbn [repeat app]. rewrite lit_scan_spaces by (right; lia). cbn [lit_scan Nat.add].
    rewrite (eqb_false _ _ N32), (eqb_false _ _ N9). cbn [andb]. rewrite (bad_false _ B), (eqb_false _ _ N10).
    now replace (k <? li)%nat with true by lia.
  - cbn [repeat app]. rewrite lit_scan_empty_line, IH by assumption. cbn [repeat app]. now rewrite repeat_cons_app.
Qed.

Lemma drop_lfs_head x r : x <> 10 -> drop_lfs (x :: r) = x :: r.
Proof. intros H. cbn. now rewrite (eqb_false _ _ H). Qed.

Lemma drop_lfs_repeat n x xs : x <> 10 -> drop_lfs (repeat 10 n ++ x :: xs) = x :: xs.
Proof.
  intros H. induction n as [|n IH]; cbn [repeat app]; [now apply drop_lfs_head|].
  cbn [drop_lfs]. change (10 =? 10) with true. cbv iota. exact IH.
Qed.

Lemma clip_block j p x : x <> 10 -> clip (repeat 10 (S j) ++ rev (p ++ [x])) = p ++ [x; 10].
Proof.
  intros X. rewrite rev_app_distr. cbn [rev app]. unfold clip. rewrite drop_lfs_repeat by exact X.
  cbn [repeat app]. change (10 =? 10) with true. cbv iota. cbn [rev]. now rewrite rev_involutive, <- app_assoc.
Qed.

Lemma ends_in_one_lf_inv s : ends_in_one_lf s = true ->
  s = [10] \/ exists p x, s = p ++ [x; 10] /\ x <> 10.
Proof.
  induction s as [|a s IH]; [discriminate|]. destruct s as [|b [|c s]].
  - cbn. intros H. apply N.eqb_eq in H. subst a. now left.
  - cbn [ends_in_one_lf]. intros H. apply andb_true_iff in H. destruct H as [H1 H2].
    apply negb_true_iff, N.eqb_neq in H1. apply N.eqb_eq in H2. subst b. right. now exists [], a.
  - intros H. right. destruct (IH H) as [E|(p & x & E & X)]; [discriminate E|].
    exists (a :: p), x. split; [cbn [app]; now rewrite E|exact X].
Qed.

(** what [IsSafeForLiteralStyle] guarantees *)
Lemma literal_safe_inv s : literal_safe s = true ->
  exists b0 body p x, s = b0 :: body ++ [10] /\ b0 <> 10 /\ b0 <> 32 /\ Forall lit_byte_ok (b0 :: body) /\
                      b0 :: body = p ++ [x] /\ x <> 10.
Proof.
  unfold literal_safe. destruct s as [|b0 s0]; [discriminate|]. intros SAFE.
  apply andb_true_iff in SAFE. destruct SAFE as [SAFE CH]. apply andb_true_iff in SAFE. destruct SAFE as [SAFE E1].
  apply andb_true_iff in SAFE. destruct SAFE as [NL NS]. apply negb_true_iff, N.eqb_neq in NL, NS.
  destruct (ends_in_one_lf_inv _ E1) as [E|(p & x & E & X)]; [inversion E; congruence|].
  change (p ++ [x; 10]) with (p ++ [x] ++ [10]) in E. rewrite app_assoc in E.
  destruct (p ++ [x]) as [|b0' body] eqn:P; [destruct p; discriminate P|].
  inversion E; subst b0' s0. exists b0, body, p, x. repeat split; try assumption; [|now symmetry].
  rewrite app_comm_cons, forallb_app in CH. apply andb_true_iff in CH. destruct CH as [CH _].
  apply Forall_forall. intros b I. apply lit_char_ok_byte. rewrite forallb_forall in CH. now apply CH.
Qed.

Theorem lit_load_block li minlit cps tail j rest k :
  (minlit <= li)%nat -> forallb ok_cp cps = true -> literal_safe (utf8 cps) = true ->
  (forall acc, lit_scan tail li false true true 0%nat acc = Some (repeat 10 (S j) ++ acc, rest, k)) ->
  lit_load (10 :: lit_body li true (decode (utf8 cps)) ++ tail) minlit = Some (utf8 cps, rest, k).
Proof.
  intros ML OK SAFE T. rewrite decode_utf8, lit_body_bytes by exact OK.
  destruct (literal_safe_inv _ SAFE) as (b0 & body & p & x & E & N10 & N32 & FB & P & X). rewrite E.
  unfold lit_load. change (10 =? 10) with true. cbv iota.
  rewrite lit_scan_block, T by assumption.
  rewrite rev_append_rev. change (rev body ++ [b0]) with (rev (b0 :: body)).
  change (b0 :: body ++ [10]) with ((b0 :: body) ++ [10]). rewrite P, clip_block, <- app_assoc by exact X. reflexivity.
Qed.

Lemma load_scalar_lit li minlit cps tail j rest k :
  (minlit <= li)%nat -> forallb ok_cp cps = true -> literal_safe (utf8 cps) = true ->
  (forall acc, lit_scan tail li false true true 0%nat acc = Some (repeat 10 (S j) ++ acc, rest, k)) ->
  load_scalar (CtxBlock li minlit) (lit_write li (utf8 cps) ++ tail) = Some (utf8 cps, rest).
Proof. intros ML OK SAFE T. unfold lit_write. cbn [app load_scalar]. now rewrite (lit_load_block li minlit cps tail j rest k). Qed.

(** * the scalar codec as a whole *)

(** what may follow a scalar of each style, and where the reader stands afterwards *)
Inductive follows (li : nat) : fmt -> octs -> octs -> Prop :=
| FollowPlain rest : match rest with [] => True | c :: _ => plain_class c = false end -> follows li FPlain rest rest
| FollowDouble rest : follows li FDouble rest rest
| FollowLiteralEnd : follows li FLiteral [] []
| FollowLiteral j k c0 r :
    (k < li)%nat -> c0 <> 32 -> c0 <> 10 -> c0 <> 9 -> lit_byte_ok c0 ->
    follows li FLiteral (repeat 10 j ++ repeat SP k ++ c0 :: r) (c0 :: r).

Lemma follows_nil li f : follows li f [] [].
Proof. destruct f; constructor. exact I. Qed.

(** the style [EmitScalar] and [ComputeStringFormat] settle on, by what it says about the text *)
Lemma scalar_fmt_cases flow s :
  match scalar_fmt flow s with
  | FPlain => forallb plain_class s = true /\ three_dots s = false /\ is_null_word s = false
  | FDouble => True
  | FLiteral => existsb is_break s = true /\ literal_safe s = true /\ flow = false
  end.
Proof.
  unfold scalar_fmt, compute_fmt, style_request, style_request_fixed.
  destruct (existsb is_break s).
  - destruct (literal_safe s); [destruct flow|]; auto.
  - destruct (forallb plain_class s); [|exact I]. destruct (three_dots s); [exact I|].
    cbn [andb negb]. destruct (is_null_word s); auto.
Qed.

Lemma load_scalar_inline ctx c l : c <> 124 ->
  load_scalar ctx (c :: l) = match flow_scalar (c :: l) 0%nat with Some (s, rest, _) => Some (s, rest) | None => None end.
Proof.
  intros H. unfold load_scalar. destruct c as [|p]; [reflexivity|].
  do 7 (destruct p as [p|p|]; try reflexivity). congruence.
Qed.

Lemma load_scalar_plain ctx s rest :
  forallb plain_class s = true -> is_null_word s = false ->
  match rest with [] => True | c :: _ => plain_class c = false end ->
  load_scalar ctx (s ++ rest) = Some (s, rest).
Proof.
  intros PL NW R. pose proof (plain_first_not_special _ PL) as F.
  destruct s as [|c r]; [discriminate NW|]. destruct F as (F1 & F2 & F3).
  cbn [app]. rewrite load_scalar_inline by exact F1. unfold flow_scalar. rewrite (eqb_false _ _ F2), F3.
  change (c :: r ++ rest) with ((c :: r) ++ rest). now rewrite span_plain_app.
Qed.

Lemma load_scalar_dq_ctx ctx cps rest : forallb ok_cp cps = true ->
  load_scalar ctx (dq_write (utf8 cps) ++ rest) = Some (utf8 cps, rest).
Proof.
  intros OK. pose proof (dq_roundtrip cps rest 0 OK) as H.
  unfold load_scalar. unfold dq_write in *. cbn [app] in *. rewrite H. reflexivity.
Qed.

(** The property's condition on line breaks is not needed: a text the literal
    style cannot carry (with CR, without or with several final breaks) is
    double-quoted. *)
Theorem scalar_reads_back s ctx rest rest' :
  valid_text s -> wf_ctx ctx -> follows (ctx_li ctx) (scalar_fmt (ctx_flow ctx) s) rest rest' ->
  load_scalar ctx (emit_scalar ctx s ++ rest) = Some (s, rest').
Proof.
  intros (cps & OK & ->) WC FO. unfold emit_scalar, scalar_bytes.
  pose proof (scalar_fmt_cases (ctx_flow ctx) (utf8 cps)) as C.
  destruct FO as [rest R | rest | | j k c0 r K N32 N10 N9 BC]; cbn [scalar_bytes_f].
  - destruct C as (PL & _ & NW). now apply load_scalar_plain.
  - now apply load_scalar_dq_ctx.
  - destruct C as (_ & SAFE & FL). destruct ctx as [li minlit|]; [|discriminate FL]. now apply (load_scalar_lit li minlit cps [] 0 [] 0).
  - destruct C as (_ & SAFE & FL). destruct ctx as [li minlit|]; [|discriminate FL].
    apply (load_scalar_lit li minlit cps _ j (c0 :: r) k); try assumption. intros acc. now apply lit_scan_tail.
Qed.

Theorem scalar_roundtrip_in_context s ctx rest rest' :
  wf_scalar s -> wf_ctx ctx -> follows (ctx_li ctx) (scalar_fmt (ctx_flow ctx) s) rest rest' ->
  load_scalar ctx (emit_scalar ctx s ++ rest) = Some (s, rest').
Proof. intros [V _]. now apply scalar_reads_back. Qed.

Theorem scalar_roundtrip_any_text s ctx :
  valid_text s -> wf_ctx ctx -> load_scalar ctx (emit_scalar ctx s) = Some (s, []).
Proof.
  intros V WC. rewrite <- (app_nil_r (emit_scalar ctx s)). apply scalar_reads_back; [exact V|exact WC|apply follows_nil].
Qed.

Theorem scalar_roundtrip s ctx :
  wf_scalar s -> wf_ctx ctx -> load_scalar ctx (emit_scalar ctx s) = Some (s, []).
Proof. intros [V _]. now apply scalar_roundtrip_any_text. Qed.

Lemma forallb_cr (P : N -> bool) s : existsb (fun c => c =? 13) s = true -> forallb P s = true -> P 13 = true.
Proof.
  intros H F. apply existsb_exists in H. destruct H as (x & I & X). apply N.eqb_eq in X. subst x.
  rewrite forallb_forall in F. now apply F.
Qed.

Lemma cr_not_literal_safe s : existsb (fun c => c =? 13) s = true -> literal_safe s = false.
Proof.
  intros H. unfold literal_safe. destruct s as [|c s]; [reflexivity|].
  destruct (forallb lit_char_ok (c :: s)) eqn:F; [discriminate (forallb_cr _ _ H F)|apply andb_false_r].
Qed.

Theorem cr_text_is_double_quoted s ctx :
  existsb (fun c => c =? 13) s = true -> emit_scalar ctx s = dq_write s.
Proof.
  intros H. unfold emit_scalar, scalar_bytes. pose proof (scalar_fmt_cases (ctx_flow ctx) s) as C.
  destruct (scalar_fmt (ctx_flow ctx) s); [|reflexivity|].
  - destruct C as [PL _]. discriminate (forallb_cr _ _ H PL).
  - destruct C as (_ & SAFE & _). rewrite (cr_not_literal_safe _ H) in SAFE. discriminate SAFE.
Qed.

(** the statement is not vacuous: texts written double-quoted (empty, null-like, leading blank, quote and control
    characters) and texts written as literal blocks are in the domain *)
Ltac wf_ex cps :=
  split; [exists cps; split; reflexivity
         | unfold multi_line_ok; intros H; first [discriminate H | reflexivity]].

Example wf_scalar_examples :
  wf_scalar [] /\ wf_scalar [32; 97; 10] /\ wf_scalar [97; 10; 98; 10] /\ wf_scalar [110; 117; 108; 108] /\
  wf_scalar [228; 184; 173; 10] /\ wf_scalar [45; 32; 34; 92; 1].
Proof.
  split; [wf_ex (@nil N)|]. split; [wf_ex [32; 97; 10]|]. split; [wf_ex [97; 10; 98; 10]|].
  split; [wf_ex [110; 117; 108; 108]|]. split; [wf_ex [20013; 10]|wf_ex [45; 32; 34; 92; 1]].
Qed.

Example wf_scalar_cr_examples :
  wf_scalar [111; 110; 101; 13; 10] /\ wf_scalar [97; 13; 10; 98; 13; 10] /\ wf_scalar [97; 10; 98; 13; 10] /\
  wf_scalar [97; 13; 98; 10] /\ wf_scalar [13; 10] /\
  ~ multi_line_ok [97; 13] /\ ~ multi_line_ok [97; 10; 13; 10] /\ ~ multi_line_ok [97; 13; 13; 10] /\ ~ multi_line_ok [97; 13; 98].
Proof.
  split; [wf_ex [111; 110; 101; 13; 10]|]. split; [wf_ex [97; 13; 10; 98; 13; 10]|]. split; [wf_ex [97; 10; 98; 13; 10]|].
  split; [wf_ex [97; 13; 98; 10]|]. split; [wf_ex [13; 10]|].
  repeat split; intros H; specialize (H eq_refl); discriminate H.
Qed.

(** * the code before the repair loses data inside the domain *)
Theorem scalar_roundtrip_v0_refuted :
  exists s ctx, wf_scalar s /\ wf_ctx ctx /\ load_scalar ctx (emit_scalar_v0 ctx s) <> Some (s, []).
Proof.
  exists [32; 97; 10], (CtxBlock 2 1). split; [|split].
  - wf_ex [32; 97; 10].
  - cbn. lia.
  - vm_compute. discriminate.
Qed.

(** what it reads back instead: the leading blank is gone *)
Example v0_witness_reads : load_scalar (CtxBlock 2 1) (emit_scalar_v0 (CtxBlock 2 1) [32; 97; 10]) = Some ([97; 10], []).
Proof. vm_compute. reflexivity. Qed.

(** * noncharacters: valid UTF-8 that yaml-cpp's emitter replaces by U+FFFD (known finding).
    [239; 191; 190] is U+FFFE. *)
Theorem scalar_roundtrip_noncharacter_refuted :
  exists s ctx, wf_ctx ctx /\ s = encode 65534 /\ load_scalar ctx (emit_scalar ctx s) <> Some (s, []).
Proof.
  exists [239; 191; 190], CtxFlow. split; [exact I|]. split; [reflexivity|]. vm_compute. discriminate.
Qed.

Example noncharacter_reads : load_scalar CtxFlow (emit_scalar CtxFlow [239; 191; 190]) = Some ([239; 191; 189], []).
Proof. vm_compute. reflexivity. Qed.
