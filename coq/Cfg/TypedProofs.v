(** C18 – proofs about typed access: [GetX (SetX v) = v], and conversions
    between types that succeed as documented or fail. *)
From Coq Require Import List NArith ZArith Bool Lia ZifyBool.
From Coq.Strings Require Import Byte.
From RimeV Require Import Base.Bytes Cfg.Tree Cfg.Path Cfg.Typed.
Import ListNotations.
Local Open Scope N_scope.

Lemma bN_byte_of_N n : n < 256 -> bN (byte_of_N n) = n.
Proof.
  intros H. unfold bN, byte_of_N. destruct (Byte.of_N n) eqn:E.
  - now apply Byte.to_of_N.
  - apply Byte.of_N_None_iff in E. lia.
Qed.

Lemma is_digit_range d : is_digit d = true <-> 48 <= bN d <= 57.
Proof. unfold is_digit. lia. Qed.

(** a digit is no other character; [is_digit c = false] is closed by evaluation for a given [c] *)
Lemma digit_neq d c : is_digit d = true -> is_digit c = false -> byte_eqb c d = false.
Proof. unfold is_digit, byte_eqb. change Byte.to_N with bN. lia. Qed.

Lemma digit_neq' d c : is_digit d = true -> is_digit c = false -> byte_eqb d c = false.
Proof. unfold is_digit, byte_eqb. change Byte.to_N with bN. lia. Qed.

Lemma is_digit_not_space d : is_digit d = true -> is_space d = false.
Proof. unfold is_digit, is_space. lia. Qed.

Lemma is_digit_not_sign d : is_digit d = true -> byte_eqb d "-"%byte = false /\ byte_eqb d "+"%byte = false.
Proof. intros D. split; now apply digit_neq'. Qed.

Lemma to_lower_digit d : is_digit d = true -> to_lower d = d.
Proof. unfold is_digit, to_lower. intros D. now replace (N.leb 65 (bN d) && N.leb (bN d) 90)%bool with false by lia. Qed.

Definition dstep (a : N) (d : byte) : N := a * 10 + (bN d - 48).
Definition dval (ds : bytes) (a : N) : N := fold_left dstep ds a.

Lemma digits_val_app ds r a :
  Forall (fun d => is_digit d = true) ds -> digits_val a (ds ++ r) = digits_val (dval ds a) r.
Proof.
  revert a. induction ds as [|d ds IH]; intros a F; [reflexivity|].
  inversion F as [|? ? D F']; subst. cbn [app digits_val]. rewrite D. unfold dval. cbn [fold_left]. apply IH, F'.
Qed.

Lemma digits_val_stop a r : has_digit r = false -> digits_val a r = a.
Proof. destruct r as [|c r]; [reflexivity|]. cbn. now intros ->. Qed.

Lemma digit_char d : d < 10 -> is_digit (byte_of_N (48 + d)) = true /\ bN (byte_of_N (48 + d)) - 48 = d.
Proof.
  intros H. unfold is_digit. rewrite bN_byte_of_N by lia. split; [|lia].
  apply andb_true_iff. split; apply N.leb_le; lia.
Qed.

Lemma dec_digits_app f : forall n acc, dec_digits f n acc = dec_digits f n [] ++ acc.
Proof.
  induction f as [|f IH]; intros n acc; cbn [dec_digits]; [reflexivity|].
  destruct (N.eqb (n / 10) 0); [reflexivity|].
  rewrite IH. rewrite (IH _ [_]). now rewrite <- app_assoc.
Qed.

Lemma dec_digits_S f n acc :
  dec_digits (S f) n acc =
  if N.eqb (n / 10) 0 then byte_of_N (48 + n mod 10) :: acc else dec_digits f (n / 10) (byte_of_N (48 + n mod 10) :: acc).
Proof. reflexivity. Qed.

Lemma dec_digits_spec f : forall n, n < 2 ^ N.of_nat f ->
  Forall (fun d => is_digit d = true) (dec_digits (S f) n []) /\ dval (dec_digits (S f) n []) 0 = n /\
  dec_digits (S f) n [] <> [].
Proof.
  induction f as [|f IH]; intros n H.
  - cbn in H. assert (n = 0) by lia. subst n. cbn. repeat split; [repeat constructor|discriminate].
  - rewrite (dec_digits_S (S f)). assert (n mod 10 < 10) as D by (apply N.mod_lt; lia).
    destruct (digit_char _ D) as [D1 D2].
    destruct (N.eqb (n / 10) 0) eqn:Q.
    + apply N.eqb_eq in Q. repeat split; [repeat constructor; exact D1| |discriminate].
      unfold dval. cbn [fold_left]. unfold dstep. rewrite D2.
      pose proof (N.div_mod n 10). lia.
    + assert (n / 10 < 2 ^ N.of_nat f) as H'.
      { rewrite Nat2N.inj_succ, N.pow_succ_r' in H. apply N.div_lt_upper_bound; lia. }
      destruct (IH _ H') as (F & V & NE). rewrite dec_digits_app. repeat split.
      * apply Forall_app. split; [exact F|repeat constructor; exact D1].
      * unfold dval in *. rewrite fold_left_app, V. cbn [fold_left]. unfold dstep. rewrite D2.
        pose proof (N.div_mod n 10). lia.
      * destruct (dec_digits (S f) (n / 10) []); [congruence|discriminate].
Qed.

Lemma dec_spec n :
  Forall (fun d => is_digit d = true) (dec n) /\ dval (dec n) 0 = n /\ dec n <> [].
Proof.
  unfold dec. apply dec_digits_spec. rewrite N2Nat.id. apply N.size_gt.
Qed.

Lemma dec_head n : exists d ds, dec n = d :: ds /\ is_digit d = true.
Proof.
  destruct (dec_spec n) as (F & _ & NE). destruct (dec n) as [|d ds]; [congruence|].
  inversion F; subst. eauto.
Qed.

Lemma digits_val_dec n r : has_digit r = false -> digits_val 0 (dec n ++ r) = n.
Proof.
  intros H. destruct (dec_spec n) as (F & V & _). rewrite digits_val_app by exact F. now rewrite digits_val_stop, V.
Qed.

Lemma strtoul10_dec n r : n < two64 -> has_digit r = false -> strtoul10 (dec n ++ r) = n.
Proof.
  intros H R. destruct (dec_head n) as (d & ds & E & D). unfold strtoul10.
  rewrite E. cbn [app skip_spaces]. rewrite (is_digit_not_space _ D).
  destruct (is_digit_not_sign _ D) as [-> ->].
  change (d :: ds ++ r) with ((d :: ds) ++ r). rewrite <- E, digits_val_dec by exact R.
  now replace (N.leb two64 n) with false by lia.
Qed.

Lemma stoi_dec (neg : bool) n :
  stoi ((if neg then ["-"%byte] else []) ++ dec n) =
  let z := if neg then (- Z.of_N n)%Z else Z.of_N n in
  if (Z.leb int_min z && Z.leb z int_max)%bool then Some z else None.
Proof.
  destruct (dec_head n) as (d & ds & E & D). destruct (is_digit_not_sign _ D) as [S1 S2].
  assert (has_digit (dec n) = true) as HD by (rewrite E; exact D).
  assert (digits_val 0 (dec n) = n) as DV by (rewrite <- (app_nil_r (dec n)); now apply digits_val_dec).
  unfold stoi. destruct neg; cbn [app skip_spaces].
  - change (is_space "-"%byte) with false. cbv iota. change (byte_eqb "-"%byte "-"%byte) with true. cbv iota.
    now rewrite HD, DV.
  - rewrite E. cbn [skip_spaces]. rewrite (is_digit_not_space _ D), S1, S2, <- E. now rewrite HD, DV.
Qed.

Theorem get_set_bool b : get_bool (set_bool b) = Some b.
Proof. destruct b; reflexivity. Qed.

Lemma cstr_no_nul s : Forall (fun b => bN b <> 0) s -> cstr s = s.
Proof.
  induction s as [|c s IH]; intros F; [reflexivity|]. inversion F; subst. cbn [cstr].
  replace (N.eqb (bN c) 0) with false by lia. now rewrite IH.
Qed.

Lemma digits_no_nul ds : Forall (fun d => is_digit d = true) ds -> Forall (fun b => bN b <> 0) ds.
Proof. apply Forall_impl. intros d D. apply is_digit_range in D. lia. Qed.

Lemma dec_not_hex n : starts_with ["0"; "x"]%byte (dec n) = false.
Proof.
  destruct (dec_spec n) as (F & _ & _). destruct (dec n) as [|a [|b r]]; [reflexivity|cbn; now rewrite andb_false_r|].
  inversion F as [|? ? _ F']; subst. inversion F' as [|? ? D _]; subst.
  cbn [starts_with]. rewrite (digit_neq b "x"%byte) by (exact D || reflexivity). now rewrite andb_false_r.
Qed.

Lemma set_int_text z : set_int z = (if (z <? 0)%Z then ["-"%byte] else []) ++ dec (Z.abs_N z).
Proof. destruct z; reflexivity. Qed.

Lemma get_int_dec (neg : bool) n :
  get_int ((if neg then ["-"%byte] else []) ++ dec n) = stoi ((if neg then ["-"%byte] else []) ++ dec n).
Proof.
  destruct (dec_spec n) as (F & _ & NE). apply digits_no_nul in F.
  unfold get_int. rewrite cstr_no_nul by (destruct neg; [constructor; [discriminate|exact F]|exact F]).
  destruct neg; cbn [app]; [reflexivity|]. rewrite dec_not_hex. destruct (dec n); [congruence|reflexivity].
Qed.

Theorem get_set_int z : (int_min <= z <= int_max)%Z -> get_int (set_int z) = Some z.
Proof.
  intros R. rewrite set_int_text, get_int_dec, stoi_dec. cbv zeta.
  replace (if (z <? 0)%Z then (- Z.of_N (Z.abs_N z))%Z else Z.of_N (Z.abs_N z)) with z by (destruct z; reflexivity).
  now replace (Z.leb int_min z && Z.leb z int_max)%bool with true by lia.
Qed.

Theorem get_bool_of_int z : get_bool (set_int z) = None.
Proof.
  assert (forall n, get_bool (dec n) = None) as P.
  { intros n. destruct (dec_head n) as (d & ds & -> & D). unfold get_bool. cbn [map]. rewrite (to_lower_digit _ D).
    cbn [bytes_eqb s_true s_false]. now rewrite !(digit_neq' d) by (exact D || reflexivity). }
  unfold set_int. destruct z; [apply P|apply P|reflexivity].
Qed.

Theorem get_int_of_bool b : get_int (set_bool b) = None.
Proof. destruct b; reflexivity. Qed.

(** a string is read as the int it spells, e.g. hexadecimal *)
Example get_int_hex_text : get_int ["0"; "x"; "1"; "F"]%byte = Some 31%Z.
Proof. reflexivity. Qed.
Example get_int_hex_wraps : get_int ["0"; "x"; "F"; "F"; "F"; "F"; "F"; "F"; "F"; "F"]%byte = Some (-1)%Z.
Proof. reflexivity. Qed.
Example get_int_trailing_junk : get_int [" "; "4"; "2"; "a"; "b"; "c"]%byte = Some 42%Z.
Proof. reflexivity. Qed.
Example get_int_out_of_range : get_int ["2"; "1"; "4"; "7"; "4"; "8"; "3"; "6"; "4"; "8"]%byte = None.
Proof. reflexivity. Qed.
Example get_int_not_a_number : get_int ["t"; "r"; "u"; "e"]%byte = None.
Proof. reflexivity. Qed.
Example get_bool_case_insensitive : get_bool ["T"; "r"; "U"; "e"]%byte = Some true.
Proof. reflexivity. Qed.
