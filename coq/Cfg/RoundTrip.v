(** C18 – the tree round trip [tree_roundtrip]: loading the emitted document
    yields the tree without its null entries.
    What [emit_node] writes for an item is described as a text appended to the
    stream ([put]); the text reads back as the pruned item in flow context
    ([FlowReads]: before anything that a plain word would not swallow) or in
    block context ([BlockReads]: before the end of the document or a line
    indented less).  A collection is treated once per style ([flow_style],
    [block_style]), sequences and maps being the two instances; [flow_all] and
    [block_all] are the two inductions over items, the second using the first
    from depth 3 on. *)
From Coq Require Import List NArith Bool Arith Lia.
From Coq.Strings Require Import Byte.
From RimeV Require Import Base.Bytes Cfg.Tree Cfg.Yaml Cfg.YamlProofs Cfg.TreeProofs.
Import ListNotations.
Local Open Scope N_scope.

Section ItemInd.
  Variable P : item -> Prop.
  Hypothesis HN : P Null.
  Hypothesis HS : forall s, P (Scalar s).
  Hypothesis HL : forall l, Forall P l -> P (Lst l).
  Hypothesis HM : forall m, Forall (fun kv => P (snd kv)) m -> P (Map m).
  Fixpoint item_ind' (t : item) : P t :=
    match t with
    | Null => HN
    | Scalar s => HS s
    | Lst l => HL l ((fix go (l : list item) : Forall P l :=
                        match l with [] => Forall_nil _ | x :: r => Forall_cons x (item_ind' x) (go r) end) l)
    | Map m => HM m ((fix go (m : list (bytes * item)) : Forall (fun kv => P (snd kv)) m :=
                        match m with [] => Forall_nil _ | kv :: r => Forall_cons kv (item_ind' (snd kv)) (go r) end) m)
    end.
End ItemInd.

Inductive tree_ok : item -> Prop :=
| ok_null : tree_ok Null
| ok_scalar s : wf_scalar (nums s) -> tree_ok (Scalar s)
| ok_lst l : Forall tree_ok l -> tree_ok (Lst l)
| ok_map m : keys_sorted m = true ->
             Forall (fun kv => wf_scalar (nums (fst kv)) /\ (length (fst kv) < 256)%nat /\ tree_ok (snd kv)) m ->
             tree_ok (Map m).

Definition entry_ok (kv : bytes * item) : Prop :=
  wf_scalar (nums (fst kv)) /\ (length (fst kv) < 256)%nat /\ tree_ok (snd kv).

Lemma tree_ok_of t : wf_item t = true -> scalars_wf t -> tree_ok t.
Proof.
  induction t using item_ind'; cbn [wf_item scalars_wf]; intros W S.
  - constructor.
  - now constructor.
  - apply ok_lst. induction H as [|x r IX _ IH]; [constructor|].
    cbn [forallb] in W. apply andb_true_iff in W. destruct W as [WX WR], S as [SX SR]. constructor; auto.
  - apply andb_true_iff in W. destruct W as [K W]. apply ok_map; [exact K|]. clear K.
    induction H as [|[k x] r IX _ IH]; [constructor|].
    cbn [forallb fst snd] in *. apply andb_true_iff in W. destruct W as [WX WR], S as (WK & LK & SX & SR). constructor; auto.
Qed.

Lemma tree_ok_wf t : tree_ok t -> wf_item t = true.
Proof.
  induction t using item_ind'; intros T; cbn [wf_item]; [reflexivity|reflexivity| |]; inversion T as [| |? F|? K F]; subst.
  - apply forallb_forall. rewrite Forall_forall in *. auto.
  - rewrite K. apply forallb_forall. rewrite Forall_forall in *. intros kv I. apply (H kv I), (F kv I).
Qed.

(** * the output stream *)
Lemma put_put o a b : put (put o a) b = put o (a ++ b).
Proof. unfold put. rewrite !rev_append_rev, rev_app_distr, app_assoc. reflexivity. Qed.

Lemma put_nil o : put o [] = o.
Proof. reflexivity. Qed.

Lemma rev_put o a : rev (put o a) = rev o ++ a.
Proof. unfold put. rewrite rev_append_rev, rev_app_distr, rev_involutive. reflexivity. Qed.

Lemma col_put_char o c : c <> 10 -> col (put o [c]) = S (col o).
Proof. intros H. unfold put. cbn [rev_append col]. now rewrite (eqb_false _ _ H). Qed.

Lemma col_put_app_char o w c : c <> 10 -> col (put o (w ++ [c])) = S (col (put o w)).
Proof. intros H. rewrite <- put_put. now apply col_put_char. Qed.

Lemma col_put_lf o : col (put o [LF]) = 0%nat.
Proof. reflexivity. Qed.

Lemma col_put_spaces o k : col (put o (repeat SP k)) = (col o + k)%nat.
Proof.
  revert o. induction k as [|k IH]; intros o; [cbn; lia|].
  cbn [repeat]. change (SP :: repeat SP k) with ([SP] ++ repeat SP k). rewrite <- put_put, IH, col_put_char by discriminate. lia.
Qed.

Lemma indent_to_put o n : indent_to o n = put o (repeat SP (n - col o)).
Proof. reflexivity. Qed.

Lemma space_or_indent_put o b n :
  space_or_indent o b n = put o ((if (Nat.ltb 0 (col o) && b)%bool then [SP] else []) ++
                                 repeat SP (n - col (if (Nat.ltb 0 (col o) && b)%bool then put o [SP] else o))).
Proof.
  unfold space_or_indent. destruct (Nat.ltb 0 (col o) && b)%bool; [|reflexivity].
  rewrite indent_to_put, put_put. reflexivity.
Qed.

Lemma skip_sp_repeat p l c : skip_sp (repeat SP p ++ l) c = skip_sp l (c + p)%nat.
Proof.
  revert c. induction p as [|p IH]; intros c; cbn [repeat app]; [f_equal; lia|].
  cbn [skip_sp]. change (SP =? 32) with true. cbv iota. rewrite IH. f_equal. lia.
Qed.

Lemma skip_sp_stop l c : match l with x :: _ => x <> 32 | [] => True end -> skip_sp l c = (l, c).
Proof. destruct l as [|x l]; [reflexivity|]. intros H. cbn. now rewrite (eqb_false _ _ H). Qed.

Definition tok_head (w : octs) : Prop :=
  match w with c :: _ => c = 91 \/ c = 123 \/ c = 34 \/ plain_class c = true | [] => False end.

Lemma tok_head_facts w : tok_head w ->
  match w with c :: _ => c <> 32 /\ c <> 93 /\ c <> 125 /\ c <> 63 /\ c <> 10 | [] => False end.
Proof.
  destruct w as [|c w]; [trivial|]. cbn. intros [->|[->|[->|H]]]; repeat split; try discriminate; intros ->; discriminate H.
Qed.

Definition rest_ok (rest : octs) : Prop := match rest with [] => True | c :: _ => plain_class c = false end.

(** * inline scalars (plain and double-quoted) at any column *)
Lemma dq_roundtrip_col cps rest c : forallb ok_cp cps = true ->
  flow_scalar (dq_write (utf8 cps) ++ rest) c = Some (utf8 cps, rest, (c + length (dq_write (utf8 cps)))%nat).
Proof.
  intros OK. unfold dq_write. rewrite decode_utf8 by exact OK.
  cbn [app flow_scalar]. change (34 =? 34) with true. cbv iota.
  rewrite <- app_assoc. cbn [app].
  rewrite dq_scan_cps; [|exact OK|rewrite !app_length; cbn [length]; lia].
  cbn [rev app length]. rewrite !app_length. cbn [length]. f_equal. f_equal. lia.
Qed.

Lemma dq_cp_len cp : ok_cp cp = true -> (length (dq_cp cp) <= 4 * length (encode cp))%nat.
Proof.
  intros OK. destruct (ok_cp_fix _ OK) as (_ & LE & _).
  assert (1 <= length (encode cp))%nat as L1 by (destruct (encode_cases cp LE) as [[_ ->]|[[_ ->]|[[_ ->]|[_ ->]]]]; cbn; lia).
  clear OK LE. destruct (N.eqb_spec cp 65279) as [->|NB]; [cbn; lia|].
  (* the seven two-byte escapes; then "\xNN" for a control character; else the encoding itself *)
  unfold dq_cp. repeat (destruct (cp =? _); [cbn [length]; lia|]).
  destruct ((cp <? 32) || ((128 <=? cp) && (cp <=? 160))) eqn:B; [|rewrite (eqb_false _ _ NB); lia].
  assert (cp < 255) as S by (apply orb_true_iff in B; rewrite andb_true_iff in B; lia).
  unfold esc_seq. rewrite (proj2 (N.ltb_lt _ _) S). cbn [length]. lia.
Qed.

Lemma dq_cps_len cps : forallb ok_cp cps = true -> (length (flat_map dq_cp cps) <= 4 * length (utf8 cps))%nat.
Proof.
  induction cps as [|cp cps IH]; intros OK; [cbn; lia|]. cbn [forallb] in OK. apply andb_true_iff in OK. destruct OK as [O1 O2].
  unfold utf8 in *. cbn [flat_map]. rewrite !app_length. pose proof (dq_cp_len _ O1). specialize (IH O2). lia.
Qed.

Lemma length_nums s : length (nums s) = length s.
Proof. apply map_length. Qed.

Lemma unnums_nums s : unnums (nums s) = s.
Proof. unfold unnums, nums. rewrite map_map. rewrite <- (map_id s) at 2. apply map_ext. apply byte_of_N_of_byte. Qed.

Definition inline_fmt (f : fmt) : Prop := f <> FLiteral.

Lemma inline_or_literal f : inline_fmt f \/ f = FLiteral.
Proof. destruct f; [left; discriminate|left; discriminate|right; reflexivity]. Qed.

Definition inline_token (w s : octs) : Prop :=
  tok_head w /\
  forall rest c, rest_ok rest -> flow_scalar (w ++ rest) c = Some (s, rest, (c + length w)%nat).

Lemma inline_scalar_reads flow li s : valid_text s -> inline_fmt (scalar_fmt flow s) ->
  inline_token (scalar_bytes flow li s) s /\ (length (scalar_bytes flow li s) <= 4 * length s + 2)%nat.
Proof.
  intros (cps & OK & ->) IF. unfold scalar_bytes. destruct (scalar_fmt flow (utf8 cps)) eqn:F; [| |congruence]; cbn [scalar_bytes_f].
  - pose proof (scalar_fmt_cases flow (utf8 cps)) as C. rewrite F in C. destruct C as (PL & _ & NW).
    pose proof (plain_first_not_special _ PL) as FS.
    destruct (utf8 cps) as [|x r] eqn:E; [discriminate NW|]. destruct FS as (F1 & F2 & F3).
    split; [split; [cbn; auto|]|lia]. intros rest c R.
    unfold flow_scalar. cbn [app]. rewrite (eqb_false _ _ F2), F3.
    change (x :: r ++ rest) with ((x :: r) ++ rest). rewrite span_plain_app by assumption. reflexivity.
  - split; [split; [cbn; auto|intros rest c _; now apply dq_roundtrip_col]|].
    unfold dq_write. rewrite decode_utf8 by exact OK. cbn [length]. rewrite app_length. cbn [length].
    pose proof (dq_cps_len _ OK). lia.
Qed.

(** VerifySimpleKey accepts an implicit key of at most 1024 bytes *)
Definition simple_key (w s : octs) : Prop := inline_token w s /\ (length w <= 1024)%nat.

(** the loader measures the key by the columns before and after it *)
Lemma simple_key_fits w s c : simple_key w s -> Nat.ltb 1024 (c + length w - c) = false.
Proof. intros [_ L]. apply Nat.ltb_ge. lia. Qed.

(** a key of the domain is shorter than 256 bytes: written inline it takes at most 4*255+2 bytes (each byte as "\xNN",
    and the quotes), within the 1024 of a simple key *)
Lemma key_token flow li key x : entry_ok (key, x) -> inline_fmt (scalar_fmt flow (nums key)) ->
  long_key (scalar_fmt flow (nums key)) (nums key) = false /\ simple_key (scalar_bytes flow li (nums key)) (nums key).
Proof.
  intros ([VK _] & LK & _) IF. cbn [fst] in *.
  destruct (inline_scalar_reads flow li (nums key) VK IF) as [T L]. rewrite length_nums in L.
  split; [|split; [exact T|lia]].
  unfold long_key. destruct (scalar_fmt flow (nums key)); [| |now destruct IF]; apply Nat.ltb_ge; rewrite length_nums; lia.
Qed.

Definition live (l : list item) : list item := filter (fun x => negb (is_nullb x)) l.
Definition live_entries (m : list (bytes * item)) : list (bytes * item) := filter (fun kv => negb (is_nullb (snd kv))) m.

Fixpoint children {A} (F : nat -> A -> out -> out) (es : list A) (k : nat) (o : out) : out :=
  match es with
  | [] => o
  | x :: r => children F r (S k) (F k x o)
  end.

Definition close_group {A} (flow : bool) (opn cls : N) (gi : nat) (es : list A) (o : out) : out :=
  match es with
  | [] => put (indent_to o gi) [opn; cls]
  | _ => if flow then put (indent_to o gi) [cls] else o
  end.

Definition seq_child (d gi : nat) (k : nat) (x : item) (o : out) : out :=
  emit_node (S d) (gi + 2) (gi + 2) (if Nat.leb 3 d then prep_fseq (gi - 2) k else prep_bseq gi k) x o.

Definition map_child (d gi : nat) (k : nat) (kv : bytes * item) (o : out) : out :=
  let flow := Nat.leb 3 d in
  let ks := nums (fst kv) in
  let f := scalar_fmt flow ks in
  let long := long_key f ks in
  let ok := put (if flow then prep_fmap_key (gi - 2) k long o else prep_bmap_key gi k long o) (scalar_bytes_f f (gi + 2) ks) in
  emit_node (S d) (gi + 2) (gi + 2) (if flow then prep_fmap_val (gi - 2) else prep_bmap_val gi long) (snd kv) ok.

Lemma children_loop {A} (g : A -> item) (F : nat -> A -> out -> out) (go : list A -> nat -> out -> out * nat) :
  (forall k o, go [] k o = (o, k)) ->
  (forall x r k o, go (x :: r) k o = if is_nullb (g x) then go r k o else go r (S k) (F k x o)) ->
  forall l k o, let es := filter (fun x => negb (is_nullb (g x))) l in go l k o = (children F es k o, (k + length es)%nat).
Proof.
  intros G0 GS. induction l as [|x r IH]; intros k o; cbn [filter]; [rewrite G0; cbn; f_equal; lia|].
  rewrite GS. destruct (is_nullb (g x)); cbn [negb children length]; rewrite IH; [reflexivity|]. f_equal. lia.
Qed.

Lemma emit_node_lst d li gi prep l o :
  emit_node d li gi prep (Lst l) o =
  let flow := Nat.leb 3 d in
  close_group flow 91 93 gi (live l) (children (seq_child d gi) (live l) 0 (prep (if flow then CInline else CBSeq) o)).
Proof.
  cbn [emit_node]. cbv zeta. rewrite (children_loop (fun x => x) (seq_child d gi)) by reflexivity.
  unfold close_group. fold (live l). now destruct (live l).
Qed.

Lemma emit_node_map d li gi prep m o :
  emit_node d li gi prep (Map m) o =
  let flow := Nat.leb 3 d in
  close_group flow 123 125 gi (live_entries m)
    (children (map_child d gi) (live_entries m) 0 (prep (if flow then CInline else CBMap) o)).
Proof.
  cbn [emit_node]. cbv zeta. rewrite (children_loop snd (map_child d gi)) by (reflexivity || (intros [key x]; reflexivity)).
  unfold close_group. fold (live_entries m). now destruct (live_entries m).
Qed.

Definition prune_entry (kv : bytes * item) : bytes * item := (fst kv, prune (snd kv)).

Lemma is_null_nullb x : is_null x = is_nullb x.
Proof. destruct x; reflexivity. Qed.

Lemma prune_lst l : prune (Lst l) = Lst (map prune (live l)).
Proof.
  cbn [prune]. f_equal. induction l as [|x r IH]; [reflexivity|].
  cbn [live filter]. rewrite is_null_nullb. destruct (is_nullb x); cbn [negb map]; now rewrite IH.
Qed.

Lemma prune_map m : prune (Map m) = Map (map prune_entry (live_entries m)).
Proof.
  cbn [prune]. f_equal. induction m as [|[k x] r IH]; [reflexivity|].
  cbn [live_entries filter snd]. rewrite is_null_nullb. destruct (is_nullb x); cbn [negb map]; now rewrite IH.
Qed.

(** [g]: the item of an entry; [P]: the induction hypothesis; [T]: the domain *)
Lemma Forall_live {A} (g : A -> item) (P T Q : A -> Prop) l :
  (forall x, P x -> T x -> g x <> Null -> Q x) ->
  Forall P l -> Forall T l -> Forall Q (filter (fun x => negb (is_nullb (g x))) l).
Proof.
  intros PQ FP FT. rewrite Forall_forall in *. intros x I. apply filter_In in I. destruct I as [I NB].
  apply PQ; [now apply FP|now apply FT|]. intros E. rewrite E in NB. discriminate NB.
Qed.

(** * flow collections: the parser's steps *)
Definition seq_after (f : nat) (x : item) (acc : list item) (r : octs) (c1 : nat) : option (item * octs * nat) :=
  let '(r1, c2) := skip_sp r c1 in
  match r1 with
  | 44 :: r2 => let '(r3, c3) := skip_sp r2 (S c2) in flow_seq_items f r3 c3 (x :: acc)
  | 93 :: r2 => Some (Lst (rev (x :: acc)), r2, S c2)
  | _ => None
  end.

Lemma flow_seq_items_S f l c acc :
  flow_seq_items (S f) l c acc =
  match flow_node f l c with Some (x, r, c1) => seq_after f x acc r c1 | None => None end.
Proof. reflexivity. Qed.

Definition map_after (f : nat) (e : bytes * item) (acc : list (bytes * item)) (r4 : octs) (c4 : nat)
  : option (item * octs * nat) :=
  let '(r5, c5) := skip_sp r4 c4 in
  match r5 with
  | 44 :: r6 => let '(r7, c7) := skip_sp r6 (S c5) in flow_map_items f r7 c7 (e :: acc)
  | 125 :: r6 => Some (build_map (rev (e :: acc)), r6, S c5)
  | _ => None
  end.

(** The model matches on byte literals, which are nested matches on the binary
    digits: to learn which branch a byte [x] takes, split it down to the depth
    of the literal.  Goals that compute are closed; the one left is the literal
    itself. *)
Ltac split_byte x := destruct x as [|x]; [reflexivity|]; repeat (destruct x as [x|x|]; try reflexivity).

Lemma no_explicit_mark (l : octs) (c : nat) :
  match l with x :: _ => x <> 63 | [] => True end ->
  match l with
  | 63 :: 32 :: r => let '(l1, c1) := skip_sp r (c + 2)%nat in (l1, c1, true)
  | _ => (l, c, false)
  end = (l, c, false).
Proof.
  destruct l as [|x l]; [reflexivity|]. intros H. split_byte x. congruence.
Qed.

Lemma flow_map_items_entry f ktok k a b vw aft c acc :
  simple_key ktok k -> tok_head vw ->
  exists c3,
  flow_map_items (S f) (ktok ++ repeat SP a ++ 58 :: 32 :: repeat SP b ++ vw ++ aft) c acc =
  match flow_node f (vw ++ aft) c3 with
  | Some (v, r4, c4) => map_after f (unnums k, v) acc r4 c4
  | None => None
  end.
Proof.
  intros SK HV. pose proof (simple_key_fits _ _ c SK) as LK. destruct SK as [[HK FS] _].
  pose proof (tok_head_facts _ HK) as KF. pose proof (tok_head_facts _ HV) as VF.
  eexists. cbn [flow_map_items]. rewrite no_explicit_mark.
  2:{ destruct ktok as [|k0 kt]; [contradiction|]. cbn [app]. tauto. }
  rewrite FS by (destruct a; reflexivity). rewrite skip_sp_repeat. rewrite skip_sp_stop by (cbn; discriminate).
  cbn [negb andb]. rewrite LK.
  rewrite skip_sp_repeat. rewrite skip_sp_stop.
  2:{ destruct vw as [|v0 vt]; [contradiction|]. cbn [app]. tauto. }
  reflexivity.
Qed.

(** * sorted keys: loading the entries in order rebuilds the map *)
Lemma bytes_cmp_antisym a : forall b, bytes_cmp b a = CompOpp (bytes_cmp a b).
Proof.
  induction a as [|x a IH]; intros [|y b]; try reflexivity. cbn [bytes_cmp].
  rewrite (N.compare_antisym (Byte.to_N x) (Byte.to_N y)).
  destruct (N.compare (Byte.to_N x) (Byte.to_N y)); cbn [CompOpp]; auto.
Qed.

Lemma bytes_cmp_trans a : forall b c, bytes_cmp a b = Lt -> bytes_cmp b c = Lt -> bytes_cmp a c = Lt.
Proof.
  induction a as [|x a IH]; intros [|y b] [|z c]; cbn [bytes_cmp]; try congruence.
  destruct (N.compare_spec (Byte.to_N x) (Byte.to_N y)) as [E1|L1|G1]; try discriminate;
  destruct (N.compare_spec (Byte.to_N y) (Byte.to_N z)) as [E2|L2|G2]; try discriminate; intros H1 H2.
  - rewrite E1, E2, N.compare_refl. eapply IH; eauto.
  - rewrite E1. now apply N.compare_lt_iff in L2 as ->.
  - rewrite <- E2. now apply N.compare_lt_iff in L1 as ->.
  - assert (Byte.to_N x < Byte.to_N z) as L by lia. now apply N.compare_lt_iff in L as ->.
Qed.

Definition key_lt (k : bytes) (m : list (bytes * item)) : Prop := Forall (fun kv => bytes_cmp k (fst kv) = Lt) m.

Lemma keys_sorted_head k v r : keys_sorted ((k, v) :: r) = true -> key_lt k r /\ keys_sorted r = true.
Proof.
  revert k v. induction r as [|[k' v'] r IH]; intros k v H; [split; [constructor|reflexivity]|].
  cbn [keys_sorted] in H. destruct (bytes_cmp k k') eqn:E; try discriminate.
  destruct (IH k' v' H) as [L S]. split; [|exact H].
  constructor; [exact E|]. eapply Forall_impl; [|exact L]. cbn. intros kv Q. eapply bytes_cmp_trans; eauto.
Qed.

Lemma map_set_append m k v : Forall (fun kv => bytes_cmp (fst kv) k = Lt) m -> map_set m k v = m ++ [(k, v)].
Proof.
  induction 1 as [|[k' v'] m H F IH]; [reflexivity|]. cbn [map_set app fst] in *.
  rewrite (bytes_cmp_antisym k' k), H. cbn [CompOpp]. now rewrite IH.
Qed.

Inductive incr : list (bytes * item) -> Prop :=
| incr_nil : incr []
| incr_cons k v r : key_lt k r -> incr r -> incr ((k, v) :: r).

Lemma fold_map_set_incr es : incr es -> forall m0,
  Forall (fun kv => key_lt (fst kv) es) m0 ->
  fold_left (fun m kv => map_set m (fst kv) (snd kv)) es m0 = m0 ++ es.
Proof.
  induction 1 as [|k v r L I IH]; intros m0 F; [now rewrite app_nil_r|].
  cbn [fold_left fst snd]. rewrite map_set_append.
  - rewrite IH; [now rewrite <- app_assoc|]. apply Forall_app. split.
    + eapply Forall_impl; [|exact F]. cbn. intros kv Q. inversion Q; subst. assumption.
    + constructor; [exact L|constructor].
  - eapply Forall_impl; [|exact F]. cbn. intros kv Q. inversion Q; subst. assumption.
Qed.

Lemma build_map_incr es : incr es -> build_map es = Map es.
Proof. intros I. unfold build_map. rewrite (fold_map_set_incr es I []); [reflexivity|constructor]. Qed.

Lemma incr_pruned m : keys_sorted m = true -> incr (map prune_entry (live_entries m)).
Proof.
  induction m as [|[k v] r IH]; intros S; [constructor|].
  destruct (keys_sorted_head _ _ _ S) as [L S']. cbn [live_entries filter snd].
  destruct (is_nullb v); cbn [negb map]; [now apply IH|].
  constructor; [|now apply IH]. unfold key_lt in *. rewrite Forall_forall in *.
  intros kv I. apply in_map_iff in I. destruct I as (kv' & <- & I'). apply filter_In in I'. cbn [fst prune_entry]. apply L. tauto.
Qed.

(** * what the flow Prepare functions write *)
Lemma flow_sep_put o li (br : N) (b : bool) : br <> 10 ->
  exists p1 p2, space_or_indent (put (indent_to o li) [br]) b li =
                put o (repeat SP p1 ++ br :: (if b then [SP] else []) ++ repeat SP p2).
Proof.
  intros B. rewrite space_or_indent_put, col_put_char, indent_to_put, !put_put by exact B. cbn [Nat.ltb Nat.leb andb].
  do 2 eexists. reflexivity.
Qed.

Definition fsep (opn : N) (k : nat) : N := if Nat.eqb k 0 then opn else 44.

Lemma flow_sep_child o li opn k : opn <> 10 ->
  exists p1 p2, space_or_indent (put (indent_to o li) [fsep opn k]) (Nat.ltb 0 k) li = put o (repeat SP p1 ++ fsep opn k :: repeat SP p2).
Proof.
  intros B. destruct (flow_sep_put o li (fsep opn k) (Nat.ltb 0 k)) as (p1 & p2 & E); [unfold fsep; destruct (Nat.eqb k 0); congruence|].
  exists p1. destruct (Nat.ltb 0 k); [exists (S p2)|exists p2]; exact E.
Qed.

Lemma prep_fseq_put li k ck o : exists p1 p2, prep_fseq li k ck o = put o (repeat SP p1 ++ fsep 91 k :: repeat SP p2).
Proof. apply flow_sep_child. discriminate. Qed.

Lemma prep_fmap_key_put li k o : exists p1 p2, prep_fmap_key li k false o = put o (repeat SP p1 ++ fsep 123 k :: repeat SP p2).
Proof. apply flow_sep_child. discriminate. Qed.

Lemma prep_fmap_val_put li ck o :
  exists a b, prep_fmap_val li ck o = put o (repeat SP a ++ 58 :: 32 :: repeat SP b).
Proof. apply (flow_sep_put o li 58 true). discriminate. Qed.

(** appends associated to the right, conses in front: the form in which the readers' lemmas are stated *)
Ltac right_assoc := cbn [app]; repeat (rewrite <- app_assoc; cbn [app]).

Ltac text_length H := repeat progress (rewrite ?app_length, ?repeat_length in H; cbn [length] in H).

(** * flow collections read back *)
Definition FlowReads (t : item) (w : octs) : Prop :=
  tok_head w /\
  forall fuel rest c, (length w < fuel)%nat -> rest_ok rest -> exists c', flow_node fuel (w ++ rest) c = Some (t, rest, c').

Definition bracket_head (w : octs) : Prop := match w with x :: _ => x = 91 \/ x = 123 | [] => False end.

(** every non-null item, emitted where the flow style applies, is a padded flow
    token that reads back; the token of a collection starts with its bracket *)
Definition P_flow (t : item) : Prop :=
  forall d li gi prep o, (3 <= d)%nat -> (match t with Scalar _ => (4 <= d)%nat | _ => True end) ->
  tree_ok t -> t <> Null ->
  exists p w, emit_node d li gi prep t o = put (prep CInline o) (repeat SP p ++ w) /\ FlowReads (prune t) w /\
              match t with Scalar _ => True | _ => bracket_head w end.

Lemma flow_fmt_inline s : inline_fmt (scalar_fmt true s).
Proof.
  unfold inline_fmt, scalar_fmt, compute_fmt. destruct (style_request s); [destruct (is_null_word s)| |]; discriminate.
Qed.

Lemma flow_node_scalar f l c s r c' :
  flow_scalar l c = Some (s, r, c') -> flow_node (S f) l c = Some (Scalar (unnums s), r, c').
Proof.
  intros H. destruct l as [|x l]; [discriminate H|]. cbn [flow_node].
  destruct (N.eqb_spec x 91) as [->|N1]; [discriminate H|].
  destruct (N.eqb_spec x 123) as [->|N2]; [discriminate H|].
  now rewrite H.
Qed.

Lemma flow_scalar_reads s li : wf_scalar (nums s) -> FlowReads (Scalar s) (scalar_bytes true li (nums s)).
Proof.
  intros [V _]. destruct (inline_scalar_reads true li (nums s) V (flow_fmt_inline _)) as [[TH RD] _]. split; [exact TH|].
  intros fuel rest c L R. destruct fuel as [|f]; [lia|]. eexists. rewrite (flow_node_scalar _ _ _ _ _ _ (RD rest c R)). now rewrite unnums_nums.
Qed.

Lemma tok_head_nonblank w tail : tok_head w -> match w ++ tail with y :: _ => y <> 32 | [] => True end.
Proof. intros H. pose proof (tok_head_facts _ H) as F. destruct w as [|y w]; [contradiction|]. cbn [app]. tauto. Qed.

(** A collection in flow style: opening bracket, elements separated by
    commas, closing bracket.  [items] reads the elements one by one into the
    accumulator, [after] is what it does when it has read one.  Sequences and
    maps differ in the brackets and in what an element is ([A]: an item, or a
    key with its item). *)
Record flow_style {A : Type} : Type := {
  fmk : list A -> item;
  opn : N;
  cls : N;
  items : nat -> octs -> nat -> list A -> option (item * octs * nat);
  after : nat -> A -> list A -> octs -> nat -> option (item * octs * nat);
  brackets : (opn = 91 /\ cls = 93) \/ (opn = 123 /\ cls = 125);
  node_empty : forall f rest c, exists c', flow_node (S f) (opn :: cls :: rest) c = Some (fmk [], rest, c');
  node_open : forall f r c r1 c1,
    skip_sp r (S c) = (r1, c1) -> match r1 with x :: _ => x <> cls | [] => True end ->
    flow_node (S f) (opn :: r) c = items f r1 c1 [];
  after_comma : forall f e acc p1 p l c,
    match l with y :: _ => y <> 32 | [] => True end ->
    after f e acc (repeat SP p1 ++ 44 :: repeat SP p ++ l) c = items f l (S (c + p1) + p)%nat (e :: acc);
  after_close : forall f e acc q rest c,
    after f e acc (repeat SP q ++ cls :: rest) c = Some (fmk (rev (e :: acc)), rest, S (c + q))
}.
Arguments flow_style : clear implicits.

Section FlowGroup.
  Context {A B : Type} (Y : flow_style A).

  Definition elem_reads (e : A) (E : octs) : Prop :=
    tok_head E /\
    forall f c acc aft, (length E < f)%nat -> rest_ok aft ->
      exists c', items Y (S f) (E ++ aft) c acc = after Y f e acc aft c'.

  Definition flow_child (F : nat -> out -> out) (e : A) : Prop :=
    forall k o, exists p1 p2 E,
      F k o = put o (repeat SP p1 ++ fsep (opn Y) k :: repeat SP p2 ++ E) /\ elem_reads e E.

  Lemma rest_ok_close q rest : rest_ok (repeat SP q ++ cls Y :: rest).
  Proof. destruct q; [|reflexivity]. cbn. destruct (brackets Y) as [[_ ->]|[_ ->]]; reflexivity. Qed.

  Lemma tok_head_not_close E tail : tok_head E -> match E ++ tail with x :: _ => x <> cls Y | [] => True end.
  Proof.
    intros H. pose proof (tok_head_facts _ H) as Q. destruct E as [|y E]; [contradiction|]. cbn [app].
    destruct (brackets Y) as [[_ ->]|[_ ->]]; tauto.
  Qed.

  Lemma opn_bracket r : bracket_head (opn Y :: r).
  Proof. destruct (brackets Y) as [[-> _]|[-> _]]; cbn; auto. Qed.

  Lemma flow_empty : FlowReads (fmk Y []) [opn Y; cls Y].
  Proof.
    split; [destruct (brackets Y) as [[-> _]|[-> _]]; cbn; auto|].
    intros fuel rest c L _. destruct fuel as [|f]; [cbn in L; lia|]. apply node_empty.
  Qed.

  Variables (F : nat -> B -> out -> out) (pr : B -> A).

  (** the children from the [k]-th on: their text [T] starts behind the first
      separator, which is where [items] begins to read them *)
  Lemma flow_items r : forall x0, Forall (fun x => flow_child (fun k => F k x) (pr x)) (x0 :: r) ->
    forall k o, exists p1 p2 T,
      children F (x0 :: r) k o = put o (repeat SP p1 ++ fsep (opn Y) k :: repeat SP p2 ++ T) /\ tok_head T /\
      forall q f acc rest c, (length T < f)%nat ->
        exists c', items Y (S f) (T ++ repeat SP q ++ cls Y :: rest) c acc = Some (fmk Y (rev acc ++ map pr (x0 :: r)), rest, c').
  Proof.
    induction r as [|y r IH]; intros x0 FC k o; inversion FC as [|? ? C0 FC']; subst;
      change (children F (x0 :: ?l) k o) with (children F l (S k) (F k x0 o));
      destruct (C0 k o) as (p1 & p2 & E & EM & TH & RD); rewrite EM.
    - exists p1, p2, E. split; [reflexivity|]. split; [exact TH|]. intros q f acc rest c L.
      destruct (RD f c acc (repeat SP q ++ cls Y :: rest) L (rest_ok_close q rest)) as (c1 & E1).
      rewrite E1, after_close. eauto.
    - destruct (IH y FC' (S k) (put o (repeat SP p1 ++ fsep (opn Y) k :: repeat SP p2 ++ E))) as (p1' & p2' & T' & EL & TH' & R').
      cbn [fsep Nat.eqb] in EL. rewrite EL, put_put.
      exists p1, p2, (E ++ repeat SP p1' ++ 44 :: repeat SP p2' ++ T'). split; [f_equal; right_assoc; reflexivity|].
      split; [destruct E; [contradiction|exact TH]|]. intros q f acc rest c L. right_assoc. text_length L.
      destruct (RD f c acc (repeat SP p1' ++ 44 :: repeat SP p2' ++ T' ++ repeat SP q ++ cls Y :: rest)) as (c1 & E1);
        [lia|destruct p1'; reflexivity|].
      rewrite E1, after_comma by (apply tok_head_nonblank; exact TH'). destruct f as [|f]; [lia|].
      destruct (R' q f (pr x0 :: acc) rest (S (c1 + p1') + p2')%nat) as (c' & E'); [lia|]. exists c'. rewrite E'.
      cbn [rev map]. now rewrite <- app_assoc.
  Qed.

  Lemma flow_group es gi o : Forall (fun x => flow_child (fun k => F k x) (pr x)) es ->
    exists p w, close_group true (opn Y) (cls Y) gi es (children F es 0 o) = put o (repeat SP p ++ w) /\
                FlowReads (fmk Y (map pr es)) w /\ bracket_head w.
  Proof.
    intros FC. destruct es as [|x0 r]; cbn [close_group].
    - cbn [children]. rewrite indent_to_put, put_put. exists (gi - col o)%nat, [opn Y; cls Y]. split; [reflexivity|]. split; [apply flow_empty|apply opn_bracket].
    - destruct (flow_items r x0 FC 0%nat o) as (p1 & p2 & T & EL & TH & R). cbn [fsep Nat.eqb] in EL.
      rewrite EL, indent_to_put, !put_put. set (q := (gi - col _)%nat).
      exists p1, (opn Y :: repeat SP p2 ++ T ++ repeat SP q ++ [cls Y]). split; [f_equal; right_assoc; reflexivity|].
      split; [|apply opn_bracket]. split; [exact (proj1 flow_empty)|]. intros fuel rest c L RO. text_length L. destruct fuel as [|[|f]]; [lia|lia|].
      replace ((opn Y :: repeat SP p2 ++ T ++ repeat SP q ++ [cls Y]) ++ rest)
        with (opn Y :: repeat SP p2 ++ T ++ repeat SP q ++ cls Y :: rest) by (right_assoc; reflexivity).
      rewrite (node_open Y (S f) _ c (T ++ repeat SP q ++ cls Y :: rest) (S c + p2)%nat);
        [|rewrite skip_sp_repeat; apply skip_sp_stop; now apply tok_head_nonblank|now apply tok_head_not_close].
      apply R. lia.
  Qed.
End FlowGroup.

Lemma flow_node_open_seq f r c r1 c1 :
  skip_sp r (S c) = (r1, c1) -> match r1 with x :: _ => x <> 93 | [] => True end ->
  flow_node (S f) (91 :: r) c = flow_seq_items f r1 c1 [].
Proof.
  intros E H. cbn [flow_node]. change (91 =? 91) with true. cbv iota. rewrite E.
  destruct r1 as [|x r1]; [reflexivity|]. split_byte x. congruence.
Qed.

Lemma seq_after_comma f x acc p1 p l c :
  match l with y :: _ => y <> 32 | [] => True end ->
  seq_after f x acc (repeat SP p1 ++ 44 :: repeat SP p ++ l) c = flow_seq_items f l (S (c + p1) + p)%nat (x :: acc).
Proof.
  intros H. unfold seq_after. rewrite skip_sp_repeat. cbn [skip_sp]. change (44 =? 32) with false. cbv iota.
  rewrite skip_sp_repeat. now rewrite skip_sp_stop.
Qed.

Lemma seq_after_close f x acc q rest c :
  seq_after f x acc (repeat SP q ++ 93 :: rest) c = Some (Lst (rev (x :: acc)), rest, S (c + q)).
Proof. unfold seq_after. rewrite skip_sp_repeat. reflexivity. Qed.

Definition seq_style : flow_style item := {|
  fmk := Lst; opn := 91; cls := 93; items := flow_seq_items; after := seq_after;
  brackets := or_introl (conj eq_refl eq_refl);
  node_empty := fun f rest c => ex_intro _ _ eq_refl;
  node_open := flow_node_open_seq; after_comma := seq_after_comma; after_close := seq_after_close |}.

Lemma flow_seq_child d gi x : (3 <= d)%nat -> P_flow x -> tree_ok x -> x <> Null ->
  flow_child seq_style (fun k => seq_child d gi k x) (prune x).
Proof.
  intros D PX TX NX k o. unfold seq_child. rewrite (proj2 (Nat.leb_le _ _) D).
  destruct (PX (S d) (gi + 2)%nat (gi + 2)%nat (prep_fseq (gi - 2) k) o) as (p & w & EM & [TH FR] & _);
    [lia|destruct x; auto; lia|exact TX|exact NX|].
  destruct (prep_fseq_put (gi - 2) k CInline o) as (p1 & p2 & EP). rewrite EM, EP, put_put.
  exists p1, (p2 + p)%nat, w. split; [f_equal; right_assoc; rewrite repeat_app; right_assoc; reflexivity|].
  split; [exact TH|]. intros f c acc aft L R. cbn [items after seq_style]. rewrite flow_seq_items_S.
  destruct (FR f aft c L R) as (c' & E). rewrite E. eauto.
Qed.

Lemma flow_node_open_map f r c r1 c1 :
  skip_sp r (S c) = (r1, c1) -> match r1 with x :: _ => x <> 125 | [] => True end ->
  flow_node (S f) (123 :: r) c = flow_map_items f r1 c1 [].
Proof.
  intros E H. cbn [flow_node]. change (123 =? 91) with false. change (123 =? 123) with true. cbv iota. rewrite E.
  destruct r1 as [|x r1]; [reflexivity|]. split_byte x. congruence.
Qed.

Lemma map_after_comma f e acc p1 p l c :
  match l with y :: _ => y <> 32 | [] => True end ->
  map_after f e acc (repeat SP p1 ++ 44 :: repeat SP p ++ l) c = flow_map_items f l (S (c + p1) + p)%nat (e :: acc).
Proof.
  intros H. unfold map_after. rewrite skip_sp_repeat. cbn [skip_sp]. change (44 =? 32) with false. cbv iota.
  rewrite skip_sp_repeat. now rewrite skip_sp_stop.
Qed.

Lemma map_after_close f e acc q rest c :
  map_after f e acc (repeat SP q ++ 125 :: rest) c = Some (build_map (rev (e :: acc)), rest, S (c + q)).
Proof. unfold map_after. rewrite skip_sp_repeat. reflexivity. Qed.

Definition map_style : flow_style (bytes * item) := {|
  fmk := build_map; opn := 123; cls := 125; items := flow_map_items; after := map_after;
  brackets := or_intror (conj eq_refl eq_refl);
  node_empty := fun f rest c => ex_intro _ _ eq_refl;
  node_open := flow_node_open_map; after_comma := map_after_comma; after_close := map_after_close |}.

Lemma flow_map_child d gi kv : (3 <= d)%nat -> P_flow (snd kv) -> entry_ok kv -> snd kv <> Null ->
  flow_child map_style (fun k => map_child d gi k kv) (prune_entry kv).
Proof.
  destruct kv as [key x]. intros D PX EO NX k o. pose proof EO as (_ & _ & TX). cbn [fst snd] in *.
  unfold map_child. rewrite (proj2 (Nat.leb_le _ _) D). cbv zeta. cbn [fst snd].
  destruct (key_token true (gi + 2) key x EO (flow_fmt_inline _)) as (-> & KT).
  change (scalar_bytes_f (scalar_fmt true (nums key)) (gi + 2) (nums key)) with (scalar_bytes true (gi + 2) (nums key)).
  set (ktok := scalar_bytes true (gi + 2) (nums key)) in *.
  destruct (prep_fmap_key_put (gi - 2) k o) as (p1 & p2 & EK). rewrite EK, put_put.
  set (ok := put o _).
  destruct (PX (S d) (gi + 2)%nat (gi + 2)%nat (prep_fmap_val (gi - 2)) ok) as (p & vw & EM & [TH FR] & _);
    [lia|destruct x; auto; lia|exact TX|exact NX|].
  destruct (prep_fmap_val_put (gi - 2) CInline ok) as (a & b & EV). rewrite EM, EV, put_put. subst ok. rewrite put_put.
  exists p1, p2, (ktok ++ repeat SP a ++ 58 :: 32 :: repeat SP (b + p) ++ vw). split; [|split].
  - f_equal. right_assoc. rewrite repeat_app. right_assoc. reflexivity.
  - destruct KT as [[HK _] _]. destruct ktok; [contradiction|exact HK].
  - intros f c acc aft L R. cbn [items after map_style].
    destruct (flow_map_items_entry f ktok (nums key) a (b + p) vw aft c acc KT TH) as (c3 & E3).
    right_assoc. rewrite E3. text_length L.
    destruct (FR f aft c3) as (c4 & E4); [lia|exact R|]. rewrite E4, unnums_nums. eauto.
Qed.

Theorem flow_all t : P_flow t.
Proof.
  induction t using item_ind'; intros d li gi prep o D DS TO NN.
  - congruence.
  - inversion TO; subst. exists 0%nat, (scalar_bytes true li (nums s)). split; [|split; [now apply flow_scalar_reads|exact I]].
    cbn [emit_node repeat app]. now rewrite (proj2 (Nat.leb_le _ _) DS).
  - inversion TO as [| |? FT|]; subst. rewrite emit_node_lst, prune_lst.
    rewrite (proj2 (Nat.leb_le _ _) D). cbv zeta.
    apply (flow_group seq_style), (Forall_live (fun x => x) P_flow tree_ok); [|exact H|exact FT].
    intros x PX TX NX. now apply flow_seq_child.
  - inversion TO as [| | |? KS FT]; subst. rewrite emit_node_map, prune_map.
    rewrite (proj2 (Nat.leb_le _ _) D). cbv zeta.
    rewrite <- (build_map_incr _ (incr_pruned _ KS)).
    apply (flow_group map_style), (Forall_live snd (fun kv => P_flow (snd kv)) entry_ok); [|exact H|exact FT].
    intros kv PX EO NX. now apply flow_map_child.
Qed.

(** * block context *)

Definition ok_start (c0 : N) : Prop := c0 <> 32 /\ c0 <> 10 /\ c0 <> 9 /\ lit_byte_ok c0.

Definition ok_head (E : octs) : Prop := match E with x :: _ => ok_start x | [] => False end.

Lemma plain_class_ok_start c : plain_class c = true -> ok_start c.
Proof.
  intros H. unfold ok_start, lit_byte_ok. repeat split; intros ->; discriminate H.
Qed.

Lemma tok_head_ok_head w : tok_head w -> ok_head w.
Proof.
  destruct w as [|x w]; [trivial|]. cbn. intros [->|[->|[->|H]]]; try (unfold ok_start, lit_byte_ok; repeat split; discriminate).
  now apply plain_class_ok_start.
Qed.

(** what follows a node in block context: the end of the document, or a line
    feed and a line indented by [k] < [b] blanks; [rest'] is where the reader
    stands afterwards (line-start form) *)
Inductive follows_b (b : nat) : octs -> octs -> nat -> Prop :=
| fb_end c : follows_b b [] [] c
| fb_line k c0 r : (k < b)%nat -> ok_start c0 -> follows_b b (10 :: repeat SP k ++ c0 :: r) (c0 :: r) k.

Lemma follows_b_weaken b b' rest rest' k : (b <= b')%nat -> follows_b b rest rest' k -> follows_b b' rest rest' k.
Proof. intros L H. destruct H; constructor; auto; lia. Qed.

Lemma next_line_spaces k : forall c c0 r, c0 <> 32 -> c0 <> 10 ->
  next_line (repeat SP k ++ c0 :: r) c true = Some (c0 :: r, (c + k)%nat).
Proof.
  induction k as [|k IH]; intros c c0 r N1 N2; cbn [repeat app next_line].
  - rewrite (eqb_false _ _ N1), (eqb_false _ _ N2). f_equal. f_equal. lia.
  - change (SP =? 10) with false. change (SP =? 32) with true. cbv iota. rewrite IH by assumption. f_equal. f_equal. lia.
Qed.

Lemma to_ls_follows b rest rest' k c : follows_b b rest rest' k ->
  exists c', to_ls rest c = Some (rest', c') /\ (rest' <> [] -> c' = k).
Proof.
  intros H. destruct H as [c1|k c0 r K (N1 & N2 & _)].
  - exists c. split; [reflexivity|congruence].
  - exists k. split; [|reflexivity]. unfold to_ls. cbn [next_line]. change (10 =? 10) with true. cbv iota.
    now rewrite next_line_spaces.
Qed.

Lemma follows_b_not_value b rest rest' k : follows_b b rest rest' k -> is_value_mark rest = false.
Proof. intros H. destruct H; reflexivity. Qed.

Definition BlockReads (t : item) (w : octs) (c minlit : nat) (akey : bool) (b : nat) : Prop :=
  forall fuel rest rest' k, (length w + 2 < fuel)%nat -> follows_b b rest rest' k ->
  exists c', block_node fuel (w ++ rest) c minlit akey = Some (t, rest', c') /\ (rest' <> [] -> c' = k).

Lemma is_seq_mark_other c r : c <> 45 -> is_seq_mark (c :: r) = false.
Proof. intros H. split_byte c. congruence. Qed.

Lemma is_longkey_mark_other c r : c <> 63 -> is_longkey_mark (c :: r) = false.
Proof. intros H. split_byte c. congruence. Qed.

Lemma block_node_word f l c minlit akey s r1 c1 : flow_scalar l c = Some (s, r1, c1) ->
  block_node (S f) l c minlit akey =
  if (is_value_mark r1 && akey)%bool then block_map f l c c []
  else match to_ls r1 c1 with Some (r2, c2) => Some (Scalar (unnums s), r2, c2) | None => None end.
Proof.
  intros E. destruct l as [|x l]; [discriminate E|].
  assert (x <> 91 /\ x <> 123 /\ x <> 124 /\ x <> 45 /\ x <> 63) as (N1 & N2 & N3 & N4 & N5)
    by (repeat split; intros ->; cbn in E; discriminate E).
  cbn [block_node]. rewrite (eqb_false _ _ N1), (eqb_false _ _ N2), (eqb_false _ _ N3). cbn [orb].
  rewrite is_seq_mark_other, is_longkey_mark_other by assumption. cbn [andb]. unfold key_scalar. now rewrite E.
Qed.

Lemma block_node_inline f l c minlit akey s rest c1 b rest' k :
  flow_scalar l c = Some (s, rest, c1) -> follows_b b rest rest' k ->
  exists c', block_node (S f) l c minlit akey = Some (Scalar (unnums s), rest', c') /\ (rest' <> [] -> c' = k).
Proof.
  intros E FO. rewrite (block_node_word _ _ _ _ _ _ _ _ E), (follows_b_not_value _ _ _ _ FO). cbn [andb].
  destruct (to_ls_follows _ _ _ _ c1 FO) as (c' & T & CK). rewrite T. eauto.
Qed.

Lemma follows_rest_ok b rest rest' k : follows_b b rest rest' k -> rest_ok rest.
Proof. intros H. destruct H; cbn; auto. Qed.

Lemma block_scalar_reads s li minlit b :
  wf_scalar (nums s) -> (minlit <= li)%nat -> (b <= li)%nat ->
  ok_head (scalar_bytes false li (nums s)) /\
  forall c akey, BlockReads (Scalar s) (scalar_bytes false li (nums s)) c minlit akey b.
Proof.
  intros [V _] ML BL. destruct (inline_or_literal (scalar_fmt false (nums s))) as [IF|F].
  - destruct (inline_scalar_reads false li (nums s) V IF) as [[TH RD] _]. split; [now apply tok_head_ok_head|].
    intros c akey fuel rest rest' k L FO. destruct fuel as [|f]; [lia|].
    destruct (block_node_inline f _ c minlit akey _ _ _ b rest' k (RD rest c (follows_rest_ok _ _ _ _ FO)) FO) as (c' & E' & CK).
    exists c'. rewrite E', unnums_nums. auto.
  - (* literal *)
    unfold scalar_bytes. rewrite F. cbn [scalar_bytes_f]. split; [cbn; unfold ok_start, lit_byte_ok; repeat split; discriminate|].
    pose proof (scalar_fmt_cases false (nums s)) as C. rewrite F in C. destruct C as (_ & SAFE & _).
    destruct V as (cps & OK & EV). rewrite EV in *.
    intros c akey fuel rest rest' k L FO. destruct fuel as [|f]; [lia|]. unfold lit_write. cbn [app block_node].
    change (124 =? 91) with false. change (124 =? 123) with false. change (124 =? 124) with true. cbn [orb]. cbv iota.
    destruct FO as [c1|k c0 r K (N32 & N10 & N9 & B)].
    + rewrite (lit_load_block li minlit cps [] 0 [] 0), <- EV, unnums_nums by (auto; reflexivity).
      exists 0%nat. split; [reflexivity|congruence].
    + rewrite (lit_load_block li minlit cps (10 :: repeat SP k ++ c0 :: r) 1 (c0 :: r) k), <- EV, unnums_nums
        by (auto; intros acc; apply (lit_scan_tail li 1); auto; lia).
      exists k. split; reflexivity.
Qed.

Lemma flow_in_block t w minlit b : FlowReads t w -> bracket_head w ->
  ok_head w /\ forall c akey, BlockReads t w c minlit akey b.
Proof.
  intros [TH FR] HD. destruct w as [|x w]; [contradiction|].
  split; [destruct HD as [->| ->]; cbn; unfold ok_start, lit_byte_ok; repeat split; discriminate|].
  intros c akey fuel rest rest' k L FO. destruct fuel as [|f]; [lia|]. cbn [app block_node].
  replace ((x =? 91) || (x =? 123)) with true by (destruct HD as [->| ->]; reflexivity).
  destruct (FR (S (length (x :: w ++ rest))) rest c) as (c1 & E); [cbn [length]; rewrite app_length; cbn [length]; lia|eapply follows_rest_ok; eauto|].
  cbn [app] in E. rewrite E. destruct (to_ls_follows _ _ _ _ c1 FO) as (c' & T & CK). rewrite T. eauto.
Qed.

Definition kindd (d : nat) (t : item) : ckind :=
  match t with
  | Lst _ => if Nat.leb 3 d then CInline else CBSeq
  | Map _ => if Nat.leb 3 d then CInline else CBMap
  | _ => CInline
  end.

Definition is_bgroup (d : nat) (t : item) : Prop :=
  match t with Lst _ | Map _ => (d <= 2)%nat | _ => False end.

(** every non-null item down to depth 3 is written as padding and a text [w]
    that [block_node] reads back.  A collection in block style ([is_bgroup])
    starts exactly in column [gi] and is read there, with keys allowed;
    anything else is read at any column.  [b] bounds the indentation of the
    line that follows the item. *)
Definition P_block (t : item) : Prop :=
  forall d li gi prep o minlit b,
  (d <= 3)%nat -> tree_ok t -> t <> Null -> (minlit <= li)%nat -> (b <= li)%nat -> (b <= gi)%nat ->
  (is_bgroup d t -> (col (prep (kindd d t) o) <= gi)%nat) ->
  exists p w, emit_node d li gi prep t o = put (prep (kindd d t) o) (repeat SP p ++ w) /\
    (is_bgroup d t -> (col (prep (kindd d t) o) + p = gi)%nat) /\ ok_head w /\
    forall c akey, (is_bgroup d t -> c = gi /\ akey = true) -> BlockReads (prune t) w c minlit akey b.

Lemma is_bgroup_kind d t : is_bgroup d t -> kindd d t = CBSeq \/ kindd d t = CBMap.
Proof. destruct t; cbn [is_bgroup kindd]; try tauto; intros H; rewrite (proj2 (Nat.leb_gt _ _)) by lia; auto. Qed.

Lemma not_bgroup_kind d t : ~ is_bgroup d t -> kindd d t = CInline.
Proof. destruct t; cbn [is_bgroup kindd]; try tauto; intros H; rewrite (proj2 (Nat.leb_le _ _)) by lia; auto. Qed.

Lemma is_bgroup_dec d t : is_bgroup d t \/ ~ is_bgroup d t.
Proof. destruct t; cbn [is_bgroup]; try tauto; lia. Qed.

Definition bsep (n k : nat) (o : out) : octs := if Nat.eqb k 0 then repeat SP (n - col o) else 10 :: repeat SP n.

Lemma col_bsep n k o : (k = 0%nat -> (col o <= n)%nat) -> col (put o (bsep n k o)) = n /\ indent_to (nl_if (Nat.ltb 0 k) o) n = put o (bsep n k o).
Proof.
  intros C. unfold bsep. destruct k as [|k]; cbn [Nat.eqb Nat.ltb Nat.leb nl_if].
  - specialize (C eq_refl). rewrite indent_to_put, col_put_spaces. split; [lia|reflexivity].
  - rewrite indent_to_put, col_put_lf, Nat.sub_0_r, put_put. split; [|reflexivity].
    change (10 :: repeat SP n) with ([10] ++ repeat SP n). rewrite <- put_put, col_put_spaces, col_put_lf. lia.
Qed.

(** A collection in block style: one element per line, each starting in
    column [n]; it ends where a line is indented less, or at the end.  [group]
    reads the elements one by one into the accumulator, [bafter] is what it
    does when it has read one, [ehead] how an element text begins (in a
    sequence, with the dash). *)
Record block_style {A : Type} : Type := {
  bmk : list A -> item;
  group : nat -> octs -> nat -> nat -> list A -> option (item * octs * nat);
  bafter : nat -> A -> list A -> octs -> nat -> nat -> option (item * octs * nat);
  ehead : octs -> Prop;
  ehead_ok : forall E, ehead E -> ok_head E;
  ehead_app : forall E W, ehead E -> ehead (E ++ W);
  after_stop : forall f e acc b n rest rest' kf c2,
    (b <= n)%nat -> follows_b b rest rest' kf -> (rest' <> [] -> c2 = kf) ->
    exists c', bafter f e acc rest' c2 n = Some (bmk (rev acc ++ [e]), rest', c') /\ (rest' <> [] -> c' = kf);
  after_next : forall f e acc E t n,
    ehead E -> bafter f e acc (E ++ t) n n = group f (E ++ t) n n (e :: acc);
  node_group : forall f f' E c minlit r,
    ehead E -> group (S f') E c c [] = Some r -> block_node (S f) E c minlit true = group f E c c []
}.
Arguments block_style : clear implicits.

Section BlockGroup.
  Context {A B : Type} (Y : block_style A) (n : nat) (F : nat -> B -> out -> out) (pr : B -> A).

  Definition block_elem_reads (e : A) (E : octs) : Prop :=
    forall f acc rest R2 K2, (length E < f)%nat -> follows_b (S n) rest R2 K2 ->
      exists c2, group Y (S f) (E ++ rest) n n acc = bafter Y f e acc R2 c2 n /\ (R2 <> [] -> c2 = K2).

  Definition block_child (x : B) : Prop :=
    forall k o, (k = 0%nat -> (col o <= n)%nat) ->
    exists E, F k x o = put o (bsep n k o ++ E) /\ ehead Y E /\ block_elem_reads (pr x) E.

  Lemma ehead_cons E : ehead Y E -> exists y E', E = y :: E' /\ ok_start y.
  Proof. intros H. apply ehead_ok in H. destruct E as [|y E']; [contradiction|eauto]. Qed.

  Lemma block_items b r : (b <= n)%nat -> forall x0, Forall block_child (x0 :: r) ->
    forall k o, (k = 0%nat -> (col o <= n)%nat) ->
    exists T, children F (x0 :: r) k o = put o (bsep n k o ++ T) /\ ehead Y T /\
      forall f acc rest rest' kf, (length T < f)%nat -> follows_b b rest rest' kf ->
        exists c', group Y (S f) (T ++ rest) n n acc = Some (bmk Y (rev acc ++ map pr (x0 :: r)), rest', c') /\ (rest' <> [] -> c' = kf).
  Proof.
    intros BN. induction r as [|y r IH]; intros x0 FC k o CK; inversion FC as [|? ? C0 FC']; subst;
      change (children F (x0 :: ?l) k o) with (children F l (S k) (F k x0 o));
      destruct (C0 k o CK) as (E & EM & EH & RD); rewrite EM.
    - exists E. split; [reflexivity|]. split; [exact EH|]. intros f acc rest rest' kf L FO.
      destruct (RD f acc rest rest' kf L) as (c2 & E2 & CK2); [eapply follows_b_weaken; [|exact FO]; lia|]. rewrite E2.
      apply (after_stop Y f (pr x0) acc b n rest rest' kf c2 BN FO CK2).
    - destruct (IH y FC' (S k) (put o (bsep n k o ++ E))) as (T' & EL & EH' & R'); [discriminate|].
      cbn [bsep Nat.eqb] in EL. rewrite EL, put_put. exists (E ++ 10 :: repeat SP n ++ T').
      split; [f_equal; right_assoc; reflexivity|]. split; [now apply ehead_app|].
      intros f acc rest rest' kf L FO. right_assoc. text_length L. destruct (ehead_cons _ EH') as (z & T0 & EZ & OZ).
      destruct (RD f acc (10 :: repeat SP n ++ T' ++ rest) (T' ++ rest) n) as (c2 & E2 & CK2);
        [lia|rewrite EZ; constructor; [lia|exact OZ]|].
      rewrite E2, CK2 by (rewrite EZ; discriminate). rewrite after_next by exact EH'. destruct f as [|f]; [lia|].
      destruct (R' f (pr x0 :: acc) rest rest' kf) as (c' & E' & CK'); [lia|exact FO|]. exists c'. rewrite E'.
      cbn [rev map]. rewrite <- app_assoc. auto.
  Qed.

  Lemma block_collection opn cls b es o minlit : (b <= n)%nat -> (col o <= n)%nat ->
    FlowReads (bmk Y []) [opn; cls] -> opn = 91 \/ opn = 123 -> Forall block_child es ->
    exists p w, close_group false opn cls n es (children F es 0 o) = put o (repeat SP p ++ w) /\ (col o + p = n)%nat /\ ok_head w /\
      forall c akey, c = n /\ akey = true -> BlockReads (bmk Y (map pr es)) w c minlit akey b.
  Proof.
    intros BN CO FE HD FC. exists (n - col o)%nat. destruct es as [|x0 r]; cbn [close_group].
    - exists [opn; cls]. cbn [children]. rewrite indent_to_put, put_put. split; [reflexivity|]. split; [lia|].
      destruct (flow_in_block _ _ minlit b FE HD) as [NB BR]. split; [exact NB|]. intros c akey _. apply BR.
    - destruct (block_items b r BN x0 FC 0%nat o (fun _ => CO)) as (E & EL & EH & R). exists E. split; [exact EL|]. split; [lia|].
      destruct (ehead_cons _ EH) as (y & E' & -> & OY). split; [exact OY|].
      intros c akey [-> ->] fuel rest rest' kf L FO. destruct fuel as [|[|f]]; [lia|lia|].
      destruct (R f [] rest rest' kf) as (c' & EB & CK); [lia|exact FO|].
      rewrite (node_group Y (S f) f _ n minlit _ (ehead_app Y _ rest EH) EB). eauto.
  Qed.
End BlockGroup.

(** What [block_seq] does at a dash and [block_map] at a colon, the mark being
    the first byte of [r] and standing in column [c]; [leaf] is applied to what
    [block_node] returns for the value. *)
Definition after_mark {R} (leaf : option (item * octs * nat) -> option R) (a : bool) (f : nat) (r : octs) (c m : nat) : option R :=
  match skipn 1 r with
  | (32 :: _) as r3 =>
      let '(r4, c4) := skip_sp r3 (S c) in
      match r4 with
      | [] => leaf (Some (Null, [], c4))
      | _ => leaf (block_node f r4 c4 (S m) a)
      end
  | r3 =>
      match to_ls r3 (S c) with
      | Some (r4, c4) =>
          match r4 with
          | [] => leaf (Some (Null, [], c4))
          | _ => if Nat.ltb m c4 then leaf (block_node f r4 c4 (S m) true) else leaf (Some (Null, r4, c4))
          end
      | None => None
      end
  end.

Lemma ok_head_split w rest : ok_head w -> exists x t, w ++ rest = x :: t /\ x <> 32 /\ x <> 10.
Proof. destruct w as [|x w]; [contradiction|]. intros (A & B & _). exists x, (w ++ rest). auto. Qed.

Lemma after_mark_inline {R} (leaf : option (item * octs * nat) -> option R) a f mk q w rest c m : ok_head w ->
  after_mark leaf a f (mk :: repeat SP (S q) ++ w ++ rest) c m = leaf (block_node f (w ++ rest) (S c + S q)%nat (S m) a).
Proof.
  intros NB. destruct (ok_head_split w rest NB) as (x & t & E & N1 & N2). unfold after_mark.
  change (repeat SP (S q)) with (32 :: repeat SP q). cbn [skipn app].
  change (32 :: repeat SP q ++ w ++ rest) with (repeat SP (S q) ++ w ++ rest).
  rewrite skip_sp_repeat, E, skip_sp_stop by exact N1. reflexivity.
Qed.

Lemma after_mark_nextline {R} (leaf : option (item * octs * nat) -> option R) a f mk p w rest c m : ok_head w -> (m < p)%nat ->
  after_mark leaf a f (mk :: 10 :: repeat SP p ++ w ++ rest) c m = leaf (block_node f (w ++ rest) p (S m) true).
Proof.
  intros NB MP. destruct (ok_head_split w rest NB) as (x & t & E & N1 & N2). unfold after_mark. cbn [skipn]. rewrite E.
  unfold to_ls. cbn [next_line]. change (10 =? 10) with true. cbv iota. rewrite next_line_spaces by assumption.
  cbn [Nat.add]. rewrite (proj2 (Nat.ltb_lt _ _) MP). reflexivity.
Qed.

(** A child of a block collection is emitted by a Prepare function [pv] that
    writes the mark [mk] and then, by the kind of the child ([g ck]): blanks for
    an inline node; for a block collection a line feed, or nothing when the
    mark stands in column [n] (the collection then starts two columns further
    on the same line).  The three places where this happens (after the dash,
    after the colon of a simple key, after that of a long key) are instances. *)
Lemma child_value {R} (leaf : option (item * octs * nat) -> option R)
      d n x (pv : ckind -> out -> out) o o' (g : ckind -> octs) mk cm a :
  (d <= 2)%nat -> P_block x -> tree_ok x -> x <> Null ->
  (forall ck, pv ck o = put o' (g ck)) ->
  (exists q, g CInline = repeat SP (S q)) ->
  (forall ck, ck <> CInline -> g ck = [10] \/ (g ck = [] /\ col o' = S n /\ cm = n /\ a = true)) ->
  exists V, emit_node (S d) (n + 2) (n + 2) pv x o = put o' V /\
    (forall t, starts_blank_or_end (V ++ t) = true) /\
    forall f rest R2 K2, (length V + 1 < f)%nat -> follows_b (S n) rest R2 K2 ->
      exists c2, after_mark leaf a f (mk :: V ++ rest) cm n = leaf (Some (prune x, R2, c2)) /\ (R2 <> [] -> c2 = K2).
Proof.
  intros D PX TX NX PV (q & G1) G2. remember (kindd (S d) x) as ck eqn:EK.
  assert (is_bgroup (S d) x -> ck <> CInline) as NI by (intros BG; destruct (is_bgroup_kind _ _ BG) as [Q|Q]; congruence).
  destruct (PX (S d) (n + 2)%nat (n + 2)%nat pv o (S n) (S n)) as (p & w & EM & CG & NB & BR);
    [lia|exact TX|exact NX|lia|lia|lia| |].
  { intros BG. rewrite <- EK, PV. destruct (G2 ck (NI BG)) as [-> | (-> & C & _)]; [cbn; lia|rewrite put_nil; lia]. }
  rewrite <- EK in EM, CG. rewrite EM, PV, put_put. exists (g ck ++ repeat SP p ++ w). split; [reflexivity|].
  destruct (is_bgroup_dec (S d) x) as [BG|NBG].
  - specialize (CG BG). rewrite PV in CG. destruct (G2 ck (NI BG)) as [G | (G & C & -> & ->)]; rewrite G in *.
    + (* on the next line *)
      assert (p = n + 2)%nat as -> by (cbn in CG; lia). split; [reflexivity|]. intros f rest R2 K2 L FO.
      cbn [app]. rewrite <- app_assoc, after_mark_nextline by (exact NB || lia). text_length L.
      destruct (BR (n + 2)%nat true ltac:(auto) f rest R2 K2) as (c2 & E2 & CK2); [lia|exact FO|]. rewrite E2. eauto.
    + (* on the same line, two columns after the mark *)
      rewrite put_nil in CG. assert (p = 1)%nat as -> by lia. split; [reflexivity|]. intros f rest R2 K2 L FO.
      cbn [app]. rewrite <- app_assoc, after_mark_inline by exact NB. text_length L.
      destruct (BR (S n + 1)%nat true ltac:(intros _; split; [lia|reflexivity]) f rest R2 K2) as (c2 & E2 & CK2); [lia|exact FO|].
      rewrite E2. eauto.
  - rewrite (not_bgroup_kind _ _ NBG) in EK. subst ck. rewrite G1. split; [reflexivity|]. intros f rest R2 K2 L FO.
    rewrite app_assoc, <- repeat_app, <- app_assoc. cbn [Nat.add]. rewrite after_mark_inline by exact NB. text_length L.
    destruct (BR (S cm + S (q + p))%nat a ltac:(tauto) f rest R2 K2) as (c2 & E2 & CK2); [lia|exact FO|]. rewrite E2. eauto.
Qed.

Definition block_seq_after (f : nat) (x : item) (acc : list item) (r2 : octs) (c2 m : nat) : option (item * octs * nat) :=
  match r2 with
  | [] => Some (Lst (rev (x :: acc)), [], c2)
  | _ =>
      if Nat.ltb c2 m then Some (Lst (rev (x :: acc)), r2, c2)
      else if (Nat.eqb c2 m && is_seq_mark r2)%bool then block_seq f r2 c2 m (x :: acc)
      else None
  end.

(** [block_seq] matches on the rest [r] where [block_map] matches on [skipn 1]
    of its input with an alias, so what it does behind the dash equals
    [after_mark] without being convertible to it: the first byte decides *)
Lemma block_seq_S f r c m acc :
  block_seq (S f) (45 :: r) c m acc =
  match after_mark (fun e => e) true f (45 :: r) c m with Some (x, r2, c2) => block_seq_after f x acc r2 c2 m | None => None end.
Proof. cbn [block_seq]. unfold after_mark. cbn [skipn]. destruct r as [|x r]; [reflexivity|]. split_byte x. Qed.

(** [BlockSeqPrepareNode] writes the separator, the dash and then, by kind of the child: *)
Definition glue (ck : ckind) : octs := match ck with CInline => [32] | CBSeq => [10] | CBMap => [] end.

Lemma prep_bseq_put n k ck o : (k = 0%nat -> (col o <= n)%nat) ->
  prep_bseq n k ck o = put (put o (bsep n k o ++ [45])) (glue ck) /\ col (put o (bsep n k o ++ [45])) = S n.
Proof.
  intros C. destruct (col_bsep n k o C) as [CN EI]. unfold prep_bseq. rewrite EI, put_put.
  assert (col (put o (bsep n k o ++ [45])) = S n) as C1 by (rewrite col_put_app_char, CN by discriminate; reflexivity).
  split; [|exact C1]. destruct ck; cbn [glue]; [|reflexivity|reflexivity].
  rewrite space_or_indent_put, andb_false_r, C1. replace (n + 2 - S n)%nat with 1%nat by lia. reflexivity.
Qed.

Definition seq_ehead (E : octs) : Prop := exists E0, E = 45 :: E0 /\ forall t, starts_blank_or_end (E0 ++ t) = true.

Lemma block_seq_after_stop f x acc b n rest rest' kf c2 :
  (b <= n)%nat -> follows_b b rest rest' kf -> (rest' <> [] -> c2 = kf) ->
  exists c', block_seq_after f x acc rest' c2 n = Some (Lst (rev acc ++ [x]), rest', c') /\ (rest' <> [] -> c' = kf).
Proof.
  intros BN FO CK. destruct FO as [c1|k c0 r K OS]; cbn [block_seq_after rev].
  - eauto.
  - specialize (CK ltac:(discriminate)). subst c2.
    rewrite (proj2 (Nat.ltb_lt _ _)) by lia. eauto.
Qed.

Lemma block_seq_after_next f x acc E t n :
  seq_ehead E -> block_seq_after f x acc (E ++ t) n n = block_seq f (E ++ t) n n (x :: acc).
Proof.
  intros (E0 & -> & SB). cbn [app block_seq_after]. rewrite Nat.ltb_irrefl, Nat.eqb_refl. cbn [andb is_seq_mark]. now rewrite SB.
Qed.

Lemma seq_ehead_ok E : seq_ehead E -> ok_head E.
Proof. intros (E0 & -> & _). cbn. unfold ok_start, lit_byte_ok. repeat split; discriminate. Qed.

Lemma seq_ehead_app E W : seq_ehead E -> seq_ehead (E ++ W).
Proof. intros (E0 & -> & SB). exists (E0 ++ W). split; [reflexivity|]. intros t. rewrite <- app_assoc. apply SB. Qed.

Lemma block_node_seq f f' E c minlit r :
  seq_ehead E -> block_seq (S f') E c c [] = Some r -> block_node (S f) E c minlit true = block_seq f E c c [].
Proof.
  intros (E0 & -> & SB) _. specialize (SB []). rewrite app_nil_r in SB.
  cbn [block_node]. change ((45 =? 91) || (45 =? 123)) with false. change (45 =? 124) with false. cbn [is_seq_mark]. now rewrite SB.
Qed.

Definition bseq_style : block_style item := {|
  bmk := Lst; group := block_seq; bafter := block_seq_after; ehead := seq_ehead;
  ehead_ok := seq_ehead_ok; ehead_app := seq_ehead_app;
  after_stop := block_seq_after_stop; after_next := block_seq_after_next; node_group := block_node_seq |}.

Lemma block_seq_child d n x : (d <= 2)%nat -> P_block x -> tree_ok x -> x <> Null ->
  block_child bseq_style n (seq_child d n) prune x.
Proof.
  intros D PX TX NX k o CK. unfold seq_child. rewrite (proj2 (Nat.leb_gt _ _)) by lia.
  destruct (prep_bseq_put n k CInline o CK) as [_ C1].
  destruct (child_value (fun e => e) d n x (prep_bseq n k) o (put o (bsep n k o ++ [45])) glue 45 n true)
    as (V & EM & SB & RD); auto.
  - intros ck. apply (prep_bseq_put n k ck o CK).
  - exists 0%nat. reflexivity.
  - intros [| |] NI; [congruence|left; reflexivity|right; auto].
  - exists (45 :: V). rewrite EM, put_put, <- app_assoc. split; [reflexivity|]. split; [exists V; auto|].
    intros f acc rest R2 K2 L FO. cbn [app group bafter bseq_style]. rewrite block_seq_S. cbn [length] in L.
    destruct (RD f rest R2 K2) as (c2 & E2 & CK2); [lia|exact FO|]. rewrite E2. eauto.
Qed.

Definition with_key (k : bytes) (x : option (item * octs * nat)) : option (bytes * item * octs * nat) :=
  match x with Some (v, r5, c5) => Some (k, v, r5, c5) | None => None end.

Definition map_entry (f : nat) (l : octs) (c m : nat) : option (bytes * item * octs * nat) :=
  if is_longkey_mark l then
    let '(r1, c1) := skip_sp (skipn 1 l) (S c) in
    match block_node f r1 c1 (S m) false with
    | Some (Scalar k, r2, c2) =>
        if (Nat.eqb c2 m && is_value_mark r2)%bool then after_mark (with_key k) true f r2 c2 m else None
    | _ => None
    end
  else
    match key_scalar l c with
    | Some (k, r1, c1) =>
        if Nat.ltb 1024 (c1 - c) then None
        else if is_value_mark r1 then after_mark (with_key (unnums k)) false f r1 c1 m else None
    | None => None
    end.

Definition block_map_after (f : nat) (e : bytes * item) (acc : list (bytes * item)) (r2 : octs) (c2 m : nat)
  : option (item * octs * nat) :=
  match r2 with
  | [] => Some (build_map (rev (e :: acc)), [], c2)
  | _ =>
      if Nat.ltb c2 m then Some (build_map (rev (e :: acc)), r2, c2)
      else if Nat.eqb c2 m then block_map f r2 c2 m (e :: acc)
      else None
  end.

Lemma block_map_S f l c m acc :
  block_map (S f) l c m acc =
  match map_entry f l c m with Some (k, v, r2, c2) => block_map_after f (k, v) acc r2 c2 m | None => None end.
Proof. cbn [block_map]. reflexivity. Qed.

Lemma map_entry_simple f ktok k r c m :
  simple_key ktok k -> starts_blank_or_end r = true ->
  map_entry f (ktok ++ 58 :: r) c m = after_mark (with_key (unnums k)) false f (58 :: r) (c + length ktok) m.
Proof.
  intros SK SB. pose proof (simple_key_fits _ _ c SK) as LK. destruct SK as [[HK FS] _]. unfold map_entry.
  assert (is_longkey_mark (ktok ++ 58 :: r) = false) as ->.
  { pose proof (tok_head_facts _ HK) as Q. destruct ktok as [|x kt]; [contradiction|]. cbn [app]. apply is_longkey_mark_other. tauto. }
  unfold key_scalar. rewrite FS by reflexivity. rewrite LK.
  cbn [is_value_mark]. now rewrite SB.
Qed.

Lemma map_entry_long f kw tailk k r c m :
  ok_head kw -> starts_blank_or_end r = true ->
  block_node f (kw ++ tailk) (S c + 1)%nat (S m) false = Some (Scalar k, 58 :: r, m) ->
  map_entry f (63 :: 32 :: kw ++ tailk) c m = after_mark (with_key k) true f (58 :: r) m m.
Proof.
  intros NK SB BK. unfold map_entry. cbn [is_longkey_mark skipn].
  destruct (ok_head_split kw tailk NK) as (x & t & E & N1 & N2).
  change (32 :: kw ++ tailk) with (repeat SP 1 ++ kw ++ tailk). rewrite skip_sp_repeat. rewrite E in *. rewrite skip_sp_stop by exact N1.
  rewrite BK, Nat.eqb_refl. cbn [is_value_mark andb]. now rewrite SB.
Qed.

(** what [BlockMapPrepare{Simple,Long}Key] and [...KeyValue] write *)
Lemma prep_bmap_key_put n k long o : (k = 0%nat -> (col o <= n)%nat) ->
  prep_bmap_key n k long o = put o (bsep n k o ++ (if long then [63; 32] else [])).
Proof.
  intros C. destruct (col_bsep n k o C) as [CN EI]. unfold prep_bmap_key. destruct long.
  - rewrite EI, space_or_indent_put, col_put_char, CN by discriminate. cbn [Nat.ltb Nat.leb andb].
    rewrite !col_put_char, CN by discriminate. replace (n + 1 - S (S n))%nat with 0%nat by lia.
    cbn [repeat app]. now rewrite !put_put.
  - rewrite space_or_indent_put, andb_false_r. cbn [app].
    change (put (nl_if (Nat.ltb 0 k) o) (repeat SP (n - col (nl_if (Nat.ltb 0 k) o)))) with (indent_to (nl_if (Nat.ltb 0 k) o) n).
    now rewrite EI, app_nil_r.
Qed.

Lemma prep_bmap_val_simple n o :
  exists q, forall ck, prep_bmap_val n false ck o = put (put o [58]) (match ck with CInline => repeat SP (S q) | _ => [10] end).
Proof.
  exists (n + 2 - col (put (put o [58%N]) [SP]))%nat. intros [| |]; [|reflexivity|reflexivity].
  unfold prep_bmap_val. rewrite space_or_indent_put, col_put_char by discriminate. reflexivity.
Qed.

Lemma prep_bmap_val_long n o :
  (forall ck, prep_bmap_val n true ck o = put (put o (10 :: repeat SP n ++ [58])) (match ck with CInline => [32] | _ => [] end)) /\
  col (put o (10 :: repeat SP n ++ [58])) = S n.
Proof.
  assert (col (put o (10 :: repeat SP n ++ [58])) = S n) as C1.
  { change (10 :: repeat SP n ++ [58]) with (([10] ++ repeat SP n) ++ [58]).
    rewrite col_put_app_char, <- put_put, col_put_spaces, col_put_lf by discriminate. reflexivity. }
  assert (put (indent_to (put o [LF]) n) [58] = put o (10 :: repeat SP n ++ [58])) as E1
    by (rewrite indent_to_put, col_put_lf, Nat.sub_0_r, !put_put; reflexivity).
  split; [|exact C1]. intros ck. unfold prep_bmap_val. rewrite E1. destruct ck; [|reflexivity|reflexivity].
  rewrite space_or_indent_put, C1. cbn [Nat.ltb Nat.leb andb]. rewrite col_put_char, C1 by discriminate.
  replace (n + 1 - S (S n))%nat with 0%nat by lia. reflexivity.
Qed.

Lemma block_map_after_stop f e acc b n rest rest' kf c2 :
  (b <= n)%nat -> follows_b b rest rest' kf -> (rest' <> [] -> c2 = kf) ->
  exists c', block_map_after f e acc rest' c2 n = Some (build_map (rev acc ++ [e]), rest', c') /\ (rest' <> [] -> c' = kf).
Proof.
  intros BN FO CK. destruct FO as [c1|k c0 r K OS]; cbn [block_map_after rev].
  - eauto.
  - specialize (CK ltac:(discriminate)). subst c2.
    rewrite (proj2 (Nat.ltb_lt _ _)) by lia. eauto.
Qed.

Lemma block_map_after_next f e acc E t n :
  ok_head E -> block_map_after f e acc (E ++ t) n n = block_map f (E ++ t) n n (e :: acc).
Proof. destruct E as [|y E]; [contradiction|]. intros _. cbn [app block_map_after]. now rewrite Nat.ltb_irrefl, Nat.eqb_refl. Qed.

Lemma ok_head_app E W : ok_head E -> ok_head (E ++ W).
Proof. destruct E; [contradiction|auto]. Qed.

Lemma longkey_inv l : is_longkey_mark l = true -> exists r, l = 63 :: 32 :: r.
Proof.
  destruct l as [|x l]; [discriminate|].
  destruct (N.eqb_spec x 63) as [->|N]; [|intros H; rewrite is_longkey_mark_other in H by exact N; discriminate].
  destruct l as [|y l]; [discriminate|]. destruct (N.eqb_spec y 32) as [->|N]; [eauto|]. intros H. exfalso.
  destruct y as [|p]; [discriminate H|]. repeat (destruct p as [p|p|]; try discriminate H). congruence.
Qed.

Lemma block_node_map f f' l c minlit r :
  ok_head l -> block_map (S f') l c c [] = Some r -> block_node (S f) l c minlit true = block_map f l c c [].
Proof.
  intros _. rewrite block_map_S. unfold map_entry. intros H. destruct (is_longkey_mark l) eqn:LM.
  - destruct (longkey_inv _ LM) as (t & ->). clear H.
    cbn [block_node]. change ((63 =? 91) || (63 =? 123)) with false. change (63 =? 124) with false.
    cbn [is_seq_mark]. rewrite LM. reflexivity.
  - destruct (key_scalar l c) as [[[k r1] c1]|] eqn:KS; [|discriminate H].
    destruct (Nat.ltb 1024 (c1 - c)); [discriminate H|].
    destruct (is_value_mark r1) eqn:VM; [|discriminate H].
    now rewrite (block_node_word _ _ _ _ _ _ _ _ KS), VM.
Qed.

Definition bmap_style : block_style (bytes * item) := {|
  bmk := build_map; group := block_map; bafter := block_map_after; ehead := ok_head;
  ehead_ok := fun E H => H; ehead_app := ok_head_app;
  after_stop := block_map_after_stop; after_next := block_map_after_next; node_group := block_node_map |}.

(** a key written plain or double-quoted is a simple key, a literal one takes the long form *)
Lemma block_map_child d n kv : (d <= 2)%nat -> P_block (snd kv) -> entry_ok kv -> snd kv <> Null ->
  block_child bmap_style n (map_child d n) prune_entry kv.
Proof.
  destruct kv as [key x]. intros D PX EO NX k o CK. pose proof EO as (WK & _ & TX). cbn [fst snd] in *.
  unfold map_child. rewrite (proj2 (Nat.leb_gt _ _)) by lia. cbv zeta. cbn [fst snd].
  change (scalar_bytes_f (scalar_fmt false (nums key)) (n + 2) (nums key)) with (scalar_bytes false (n + 2) (nums key)).
  set (ktok := scalar_bytes false (n + 2) (nums key)).
  destruct (inline_or_literal (scalar_fmt false (nums key))) as [IF|F0].
  - destruct (key_token false (n + 2) key x EO IF) as (-> & KT). fold ktok in KT.
    rewrite (prep_bmap_key_put n k false o CK), app_nil_r, put_put. set (ok := put o (bsep n k o ++ ktok)).
    destruct (prep_bmap_val_simple n ok) as (q & PV).
    destruct (child_value (with_key key) d n x (prep_bmap_val n false) ok (put ok [58])
                (fun ck => match ck with CInline => repeat SP (S q) | _ => [10] end) 58 (n + length ktok)%nat false)
      as (V & EM & SB & RD); auto.
    + eauto.
    + intros [| |] NI; [congruence|auto|auto].
    + exists (ktok ++ 58 :: V). rewrite EM. unfold ok. rewrite !put_put. split; [f_equal; right_assoc; reflexivity|].
      split; [apply ok_head_app, tok_head_ok_head, KT|].
      intros f acc rest R2 K2 L FO. cbn [group bafter bmap_style]. rewrite block_map_S, <- app_assoc. cbn [app].
      rewrite (map_entry_simple f ktok (nums key)), unnums_nums by auto.
      text_length L. destruct (RD f rest R2 K2) as (c2 & E2 & CK2); [lia|exact FO|]. rewrite E2. cbn [with_key]. eauto.
  - (* literal key: the long form *)
    destruct (block_scalar_reads key (n + 2) (S n) (S n) WK ltac:(lia) ltac:(lia)) as [NK BK]. fold ktok in BK, NK.
    rewrite F0. cbn [long_key]. rewrite (prep_bmap_key_put n k true o CK), put_put. set (ok := put o _).
    destruct (prep_bmap_val_long n ok) as [PV C1].
    destruct (child_value (with_key key) d n x (prep_bmap_val n true) ok (put ok (10 :: repeat SP n ++ [58]))
                (fun ck => match ck with CInline => [32] | _ => [] end) 58 n true)
      as (V & EM & SB & RD); auto.
    + exists 0%nat. reflexivity.
    + intros [| |] NI; [congruence|auto|auto].
    + exists (63 :: 32 :: ktok ++ 10 :: repeat SP n ++ 58 :: V). rewrite EM. unfold ok. rewrite !put_put.
      split; [f_equal; right_assoc; reflexivity|]. split; [cbn; unfold ok_start, lit_byte_ok; repeat split; discriminate|].
      intros f acc rest R2 K2 L FO. cbn [group bafter bmap_style]. rewrite block_map_S. right_assoc. text_length L.
      destruct (BK (S n + 1)%nat false f (10 :: repeat SP n ++ 58 :: V ++ rest) (58 :: V ++ rest) n) as (c' & E & C');
        [lia|constructor; [lia|unfold ok_start, lit_byte_ok; repeat split; discriminate]|].
      rewrite (map_entry_long f ktok _ key (V ++ rest)) by (auto; now rewrite E, C' by discriminate).
      destruct (RD f rest R2 K2) as (c2 & E2 & CK2); [lia|exact FO|]. rewrite E2. cbn [with_key]. eauto.
Qed.

Lemma flow_group_in_block t : match t with Lst _ | Map _ => True | _ => False end ->
  forall d li gi prep o minlit b, (3 <= d)%nat -> tree_ok t ->
  exists p w, emit_node d li gi prep t o = put (prep (kindd d t) o) (repeat SP p ++ w) /\
    (is_bgroup d t -> (col (prep (kindd d t) o) + p = gi)%nat) /\ ok_head w /\
    forall c akey, (is_bgroup d t -> c = gi /\ akey = true) -> BlockReads (prune t) w c minlit akey b.
Proof.
  intros G d li gi prep o minlit b D TO.
  assert (~ is_bgroup d t) as NBG by (destruct t; cbn; lia).
  destruct (flow_all t d li gi prep o D ltac:(destruct t; tauto) TO ltac:(destruct t; (contradiction || discriminate))) as (p & w & EM & FR & HD).
  rewrite (not_bgroup_kind _ _ NBG). exists p, w. split; [exact EM|]. split; [tauto|].
  destruct (flow_in_block _ _ minlit b FR) as [NB BR]; [destruct t; (contradiction || exact HD)|].
  split; [exact NB|]. intros c akey _. apply BR.
Qed.

Theorem block_all t : P_block t.
Proof.
  induction t using item_ind'; intros d li gi prep o minlit b D TO NN ML BL BG CO.
  - congruence.
  - inversion TO as [|? WS| |]; subst. exists 0%nat, (scalar_bytes false li (nums s)).
    destruct (block_scalar_reads s li minlit b WS ML BL) as [NB BR].
    split; [|split; [intros []|split; [exact NB|]]].
    + cbn [emit_node kindd repeat app]. now rewrite (proj2 (Nat.leb_gt _ _)) by lia.
    + intros c akey _. apply BR.
  - destruct (Nat.leb 3 d) eqn:FL; [apply Nat.leb_le in FL; now apply flow_group_in_block|].
    assert (d <= 2)%nat as D2 by (apply Nat.leb_gt in FL; lia). inversion TO as [| |? FT|]; subst. rewrite emit_node_lst, prune_lst.
    cbn [kindd is_bgroup] in *. rewrite FL in *. cbv zeta.
    destruct (block_collection bseq_style gi (seq_child d gi) prune 91 93 b (live l) (prep CBSeq o) minlit BG)
      as (p & w & E & CP & NB & BR); [lia|apply (flow_empty seq_style)|auto| |].
    + apply (Forall_live (fun x => x) P_block tree_ok); [|exact H|exact FT]. intros x PX TX NX. now apply block_seq_child.
    + exists p, w. split; [exact E|]. split; [intros _; exact CP|]. split; [exact NB|]. intros c akey CA. apply BR, CA, D2.
  - destruct (Nat.leb 3 d) eqn:FL; [apply Nat.leb_le in FL; now apply flow_group_in_block|].
    assert (d <= 2)%nat as D2 by (apply Nat.leb_gt in FL; lia). inversion TO as [| | |? KS FT]; subst. rewrite emit_node_map, prune_map.
    cbn [kindd is_bgroup] in *. rewrite FL in *. cbv zeta. rewrite <- (build_map_incr _ (incr_pruned _ KS)).
    destruct (block_collection bmap_style gi (map_child d gi) prune_entry 123 125 b (live_entries m) (prep CBMap o) minlit BG)
      as (p & w & E & CP & NB & BR); [lia|apply (flow_empty map_style)|auto| |].
    + apply (Forall_live snd (fun kv => P_block (snd kv)) entry_ok); [|exact H|exact FT]. intros kv PX EO NX. now apply block_map_child.
    + exists p, w. split; [exact E|]. split; [intros _; exact CP|]. split; [exact NB|]. intros c akey CA. apply BR, CA, D2.
Qed.

(** * the whole document *)
Lemma three_dots_inv w : three_dots w = true -> w = [46; 46; 46].
Proof.
  destruct w as [|a [|b' [|c [|d w]]]]; try discriminate. cbn. intros H.
  apply andb_true_iff in H. destruct H as [H H3]. apply andb_true_iff in H. destruct H as [H1 H2].
  apply N.eqb_eq in H1, H2, H3. now subst.
Qed.

(** a document that is exactly "..." holds no node, and is not what a tree is written as *)
Lemma load_block_reads t w :
  ok_head w -> BlockReads t w 0 1 true 0 -> (w = [46; 46; 46] -> t <> Scalar ["."; "."; "."]%byte) ->
  load_octs w = Some t.
Proof.
  intros NB BR ND. destruct (BR (2 * length w + 4)%nat [] [] 0%nat) as (c' & E & _); [lia|constructor|].
  rewrite app_nil_r in E. unfold load_octs. destruct w as [|x w']; [contradiction|].
  destruct (three_dots (x :: w')) eqn:TD; [|now rewrite E].
  apply three_dots_inv in TD. rewrite TD in E. vm_compute in E. injection E as <- _. now destruct (ND TD).
Qed.

Lemma group_roundtrip t : match t with Lst _ | Map _ => True | _ => False end -> tree_ok t ->
  load_octs (emit_octs t) = Some (prune t).
Proof.
  intros G TO.
  assert (is_bgroup 0 t /\ prep_top (kindd 0 t) [] = [] /\ t <> Null) as (BG & PT & NN)
    by (destruct t; try contradiction; repeat split; cbn; (lia || discriminate)).
  destruct (block_all t 0%nat 2%nat 0%nat prep_top [] 1%nat 0%nat) as (p & w & EM & CG & NB & BR);
    [lia|exact TO|exact NN|lia|lia|lia|intros _; rewrite PT; cbn; lia|].
  rewrite PT in *. specialize (CG BG). cbn [col Nat.add] in CG. subst p.
  unfold emit_octs. rewrite EM, rev_put. cbn [rev repeat app].
  apply load_block_reads; [exact NB|apply BR; auto|].
  intros _ Q. destruct t; try contradiction; [rewrite prune_lst in Q|rewrite prune_map in Q]; discriminate Q.
Qed.

Lemma emit_octs_scalar s : emit_octs (Scalar s) = scalar_bytes false 2 (nums s).
Proof. unfold emit_octs. cbn [emit_node Nat.leb]. now rewrite rev_put. Qed.

Theorem domain_roundtrip t : tree_ok t -> load_octs (emit_octs t) = Some (prune t).
Proof.
  intros TO. destruct t as [|s|l|m].
  - reflexivity.
  - inversion TO as [|? WS| |]; subst. rewrite emit_octs_scalar.
    destruct (block_scalar_reads s 2 1 0 WS) as [NB BR]; [lia|lia|].
    apply load_block_reads; [exact NB|apply BR|]. intros Q [= ->]. vm_compute in Q. discriminate Q.
  - now apply group_roundtrip.
  - now apply group_roundtrip.
Qed.

Theorem tree_roundtrip : tree_roundtrip_full.
Proof. intros t WI SW. apply domain_roundtrip, tree_ok_of; assumption. Qed.

(** non-vacuity: a tree of the domain with a literal (long-form) key, a null
    entry that is pruned, a text with a leading blank, and flow style from depth 3 *)
Definition ex_tree : item :=
  Map [ (["a"; x0a]%byte, Lst [Null; Scalar [" "; "a"; x0a]%byte; Lst [Lst [Map [(["k"]%byte, Scalar [])]]]]);
        (["k"]%byte, Scalar ["a"]%byte) ].

Example ex_tree_in_domain : wf_item ex_tree = true /\ scalars_wf ex_tree.
Proof.
  split; [reflexivity|]. cbn [scalars_wf ex_tree].
  repeat match goal with |- _ /\ _ => split end; try exact I; try (cbn; lia);
    first [wf_ex [97; 10] | wf_ex [32; 97; 10] | wf_ex [107] | wf_ex (@nil N) | wf_ex [97]].
Qed.

Example ex_tree_roundtrip :
  load_octs (emit_octs ex_tree) = Some (prune ex_tree) /\ prune ex_tree <> ex_tree /\
  unnums (emit_octs ex_tree) =
    ["?"; " "; "|"; x0a; " "; " "; "a"; x0a; x0a; ":"; " "; "-"; " "; """"; " "; "a"; "\"; "n"; """"; x0a;
     " "; " "; "-"; x0a; " "; " "; " "; " "; "-"; " "; "["; "{"; "k"; ":"; " "; """"; """"; "}"; "]"; x0a;
     "k"; ":"; " "; "a"]%byte.
Proof.
  split; [exact (tree_roundtrip _ (proj1 ex_tree_in_domain) (proj2 ex_tree_in_domain))|].
  split; [discriminate|vm_compute; reflexivity].
Qed.
