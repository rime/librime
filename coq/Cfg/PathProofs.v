(** C18 – proofs about key paths: reading back what a write stored, and the
    frame property. *)
From Coq Require Import List NArith Bool Arith Lia.
From Coq.Strings Require Import Byte.
From RimeV Require Import Base.Bytes Base.ListX Cfg.Tree Cfg.Path.
Import ListNotations.

Lemma byte_eqb_eq a b : byte_eqb a b = true <-> a = b.
Proof.
  unfold byte_eqb. rewrite N.eqb_eq. split; [|now intros ->].
  intros H. assert (Some a = Some b) as E.
  { rewrite <- (Byte.of_to_N a), <- (Byte.of_to_N b). now rewrite H. }
  now inversion E.
Qed.

Lemma byte_eqb_refl b : byte_eqb b b = true.
Proof. now apply byte_eqb_eq. Qed.

Lemma bytes_eqb_eq a b : bytes_eqb a b = true <-> a = b.
Proof.
  revert b. induction a as [|x a IH]; intros [|y b]; cbn; try (split; congruence).
  rewrite andb_true_iff, byte_eqb_eq, IH. split; [intros [-> ->]; reflexivity | intros E; inversion E; auto].
Qed.

Lemma bytes_eqb_refl a : bytes_eqb a a = true.
Proof. now apply bytes_eqb_eq. Qed.

Lemma bytes_eqb_neq a b : a <> b -> bytes_eqb a b = false.
Proof. intros H. destruct (bytes_eqb a b) eqn:E; [|reflexivity]. apply bytes_eqb_eq in E. contradiction. Qed.

Lemma bytes_cmp_eq a b : bytes_cmp a b = Eq <-> a = b.
Proof.
  revert b. induction a as [|x a IH]; intros [|y b]; cbn; try (split; congruence).
  destruct (N.compare (Byte.to_N x) (Byte.to_N y)) eqn:E.
  - apply N.compare_eq_iff in E. assert (x = y) as -> by (apply byte_eqb_eq; unfold byte_eqb; now apply N.eqb_eq).
    rewrite IH. split; [now intros ->|intros H; now inversion H].
  - split; [discriminate|]. intros H; inversion H; subst. rewrite N.compare_refl in E. discriminate.
  - split; [discriminate|]. intros H; inversion H; subst. rewrite N.compare_refl in E. discriminate.
Qed.

Lemma bytes_cmp_refl a : bytes_cmp a a = Eq.
Proof. now apply bytes_cmp_eq. Qed.

Lemma map_get_set_same m k v : map_get (map_set m k v) k = v.
Proof.
  induction m as [|[k' v'] m IH]; cbn.
  - now rewrite bytes_eqb_refl.
  - destruct (bytes_cmp k k') eqn:E; cbn.
    + now rewrite bytes_eqb_refl.
    + now rewrite bytes_eqb_refl.
    + assert (k <> k') as N by (intros ->; rewrite bytes_cmp_refl in E; discriminate).
      now rewrite (bytes_eqb_neq _ _ N).
Qed.

Lemma map_get_set_other m k v k2 : k2 <> k -> map_get (map_set m k v) k2 = map_get m k2.
Proof.
  intros N. induction m as [|[k' v'] m IH]; cbn.
  - now rewrite (bytes_eqb_neq _ _ N).
  - destruct (bytes_cmp k k') eqn:E; cbn.
    + apply bytes_cmp_eq in E. subst k'. now rewrite (bytes_eqb_neq _ _ N).
    + now rewrite (bytes_eqb_neq _ _ N).
    + destruct (bytes_eqb k2 k'); [reflexivity|apply IH].
Qed.

Lemma get_at_nth l i : get_at l i = nth i l Null.
Proof. reflexivity. Qed.

Lemma length_resize l n : length (resize l n) = n.
Proof. unfold resize. rewrite app_length, firstn_length, repeat_length. lia. Qed.

Lemma nth_resize l n j : nth j (resize l n) Null = if Nat.ltb j n then nth j l Null else Null.
Proof.
  unfold resize. destruct (Nat.ltb_spec j n) as [E|E].
  - destruct (Nat.lt_ge_cases j (length l)) as [H|H].
    + rewrite app_nth1 by (rewrite firstn_length; lia). apply nth_firstn_lt. lia.
    + rewrite app_nth2, nth_repeat by (rewrite firstn_length; lia). symmetry. now apply nth_overflow.
  - apply nth_overflow. rewrite app_length, firstn_length, repeat_length. lia.
Qed.

Lemma get_at_pad l n j : length l <= n -> get_at (resize l n) j = get_at l j.
Proof.
  intros H. unfold get_at. rewrite nth_resize. destruct (Nat.ltb_spec j n); [reflexivity|].
  symmetry. apply nth_overflow. lia.
Qed.

Lemma nth_splice (l : list item) i k v j :
  i <= length l ->
  nth j (firstn i l ++ v :: skipn k l) Null =
  if Nat.ltb j i then nth j l Null else if Nat.eqb j i then v else nth (k + (j - S i)) l Null.
Proof.
  intros H. destruct (Nat.ltb_spec j i) as [L|L].
  - rewrite app_nth1 by (rewrite firstn_length; lia). apply nth_firstn_lt. lia.
  - rewrite app_nth2 by (rewrite firstn_length; lia). rewrite firstn_length.
    replace (Nat.min i (length l)) with i by lia.
    destruct (Nat.eqb_spec j i) as [->|N]; [now rewrite Nat.sub_diag|].
    replace (j - i) with (S (j - S i)) by lia. cbn [nth]. apply nth_skipn.
Qed.

Lemma get_set_at l i v j : get_at (set_at l i v) j = if Nat.eqb j i then v else get_at l j.
Proof.
  unfold set_at. set (l' := if Nat.leb (length l) i then _ else l).
  assert (i < length l' /\ get_at l' j = get_at l j) as [I P].
  { subst l'. destruct (Nat.leb_spec (length l) i); [|now split]. rewrite length_resize, get_at_pad by lia. split; [lia|reflexivity]. }
  rewrite <- P. unfold get_at. rewrite nth_splice by lia.
  destruct (Nat.ltb_spec j i), (Nat.eqb_spec j i); try lia; try reflexivity. f_equal. lia.
Qed.

Lemma get_set_at_same l i v : get_at (set_at l i v) i = v.
Proof. rewrite get_set_at. now rewrite Nat.eqb_refl. Qed.

Lemma get_insert_at l i v j :
  get_at (insert_at l i v) j = if Nat.ltb j i then get_at l j else if Nat.eqb j i then v else get_at l (j - 1).
Proof.
  unfold insert_at. set (l' := if Nat.ltb (length l) i then _ else l).
  assert (i <= length l' /\ forall j, get_at l' j = get_at l j) as [I P].
  { subst l'. destruct (Nat.ltb_spec (length l) i); [|now split]. rewrite length_resize. split; [lia|].
    intros j'. apply get_at_pad. lia. }
  rewrite <- !P. unfold get_at. rewrite nth_splice by lia.
  destruct (Nat.ltb_spec j i), (Nat.eqb_spec j i); try reflexivity. f_equal. lia.
Qed.

Definition written_list (l : list item) (i : nat) (ins : bool) (child : item) : list item :=
  set_at (if ins then insert_at l i Null else l) i child.

(** where an element of the old list is found in the new one *)
Definition shift (i : nat) (ins : bool) (j : nat) : nat := if (ins && negb (Nat.ltb j i))%bool then S j else j.

Lemma get_written_other l i ins child j :
  (ins = false -> j <> i) ->
  get_at (written_list l i ins child) (shift i ins j) = get_at l j.
Proof.
  intros H. unfold written_list, shift. rewrite get_set_at. destruct ins; cbn [andb].
  - rewrite get_insert_at. destruct (Nat.ltb_spec j i); cbn [negb].
    + destruct (Nat.eqb_spec j i); [lia|]. destruct (Nat.ltb_spec j i); [reflexivity|lia].
    + destruct (Nat.eqb_spec (S j) i); [lia|]. destruct (Nat.ltb_spec (S j) i); [lia|]. f_equal. lia.
  - destruct (Nat.eqb_spec j i); [now elim H|reflexivity].
Qed.

Fixpoint resolve_r (t : item) (keys : list bytes) : list step :=
  match keys with
  | [] => []
  | k :: ks =>
      if is_list_ref k then
        match t with
        | Lst l => KIdx (resolve_index l k) :: resolve_r (get_at l (resolve_index l k)) ks
        | _ => [KIdx 0]
        end
      else
        match t with
        | Map m => KMap k :: resolve_r (map_get m k) ks
        | _ => [KMap k]
        end
  end.

Lemma traverse_resolved t keys : traverse t keys = traverse_r t (resolve_r t keys).
Proof.
  revert t. induction keys as [|k ks IH]; intros t; cbn; [reflexivity|].
  destruct (is_list_ref k); destruct t; cbn; auto.
Qed.

Lemma traverse_r_null_any ps : traverse_r Null ps = Null.
Proof. destruct ps as [|[k|i] r]; reflexivity. Qed.

Lemma traverse_r_idx t j q :
  traverse_r t (KIdx j :: q) = traverse_r (get_at (match t with Lst l => l | _ => [] end) j) q.
Proof. destruct t; cbn [traverse_r]; try reflexivity; destruct j; cbn; now rewrite traverse_r_null_any. Qed.

Lemma traverse_r_key t k q :
  traverse_r t (KMap k :: q) = traverse_r (map_get (match t with Map m => m | _ => [] end) k) q.
Proof. destruct t; cbn [traverse_r map_get]; try reflexivity; now rewrite traverse_r_null_any. Qed.

Lemma is_empty_false k : k <> [] -> is_empty k = false.
Proof. destruct k; [congruence|reflexivity]. Qed.

Theorem write_then_read_resolved t keys v :
  traverse_r (write_at t keys v) (map step_of (resolve_w t keys)) = v.
Proof.
  revert t. induction keys as [|k ks IH]; intros t; cbn [write_at resolve_w]; [reflexivity|].
  destruct (is_empty k); [apply IH|].
  destruct (is_list_ref k); cbn [map step_of traverse_r]; [rewrite get_set_at_same|rewrite map_get_set_same]; apply IH.
Qed.

(** [k'] names after the write the element that [k] named while writing *)
Definition reads_back (l : list item) (k k' : bytes) : Prop :=
  is_list_ref k' = true /\
  forall child, resolve_index (written_list l (resolve_index l k) (will_insert k) child) k' = resolve_index l k.

Fixpoint readable (t : item) (keys keys' : list bytes) : Prop :=
  match keys, keys' with
  | [], [] => True
  | k :: ks, k' :: ks' =>
      k <> [] /\
      if is_list_ref k then
        let l := match t with Lst l => l | _ => [] end in
        reads_back l k k' /\ readable (get_at l (resolve_index l k)) ks ks'
      else
        k' = k /\ readable (map_get (match t with Map m => m | _ => [] end) k) ks ks'
  | _, _ => False
  end.

Theorem write_then_traverse t keys keys' v :
  readable t keys keys' -> traverse (write_at t keys v) keys' = v.
Proof.
  revert t keys'. induction keys as [|k ks IH]; intros t [|k' ks']; cbn [readable]; try tauto; try (intros _; reflexivity).
  intros [NE H]. cbn [write_at]. rewrite (is_empty_false _ NE).
  destruct (is_list_ref k) eqn:LR.
  - destruct H as [[LR' RB] H]. cbn [traverse]. rewrite LR'. unfold written_list in RB.
    rewrite RB, get_set_at_same. now apply IH.
  - destruct H as [-> H]. cbn [traverse]. rewrite LR. rewrite map_get_set_same. now apply IH.
Qed.

Lemma length_set_at l i v : length (set_at l i v) = Nat.max (length l) (S i).
Proof.
  unfold set_at. destruct (Nat.leb (length l) i) eqn:E.
  - apply Nat.leb_le in E. rewrite app_length, firstn_length, length_resize. cbn [length]. rewrite skipn_length, length_resize. lia.
  - apply Nat.leb_gt in E. rewrite app_length, firstn_length. cbn [length]. rewrite skipn_length. lia.
Qed.

(** forms whose index does not depend on the list: @N, @before N, @after N *)
Definition fixed_form (rs : refspec) : Prop := rs_last rs = false /\ rs_base rs <> BNext.

Lemma index_of_fixed rs s1 s2 : fixed_form rs -> index_of rs s1 = index_of rs s2.
Proof. intros [L B]. unfold index_of. rewrite L. destruct (rs_base rs); congruence. Qed.

Lemma reads_back_fixed l k :
  is_list_ref k = true -> fixed_form (parse_ref k) -> reads_back l k k.
Proof.
  intros LR F. split; [exact LR|]. intros child. unfold resolve_index. f_equal. now apply index_of_fixed.
Qed.

Definition last_form (rs : refspec) : Prop := rs_last rs = true /\ rs_base rs = BPlain.

Lemma two32_pos : (0 < two32)%N. Proof. reflexivity. Qed.

Lemma index_of_last rs n :
  last_form rs -> (N.of_nat n < two32)%N -> N.to_nat (index_of rs (N.of_nat n)) = n - 1.
Proof.
  intros [L B] H. unfold index_of, u32. rewrite L, B. rewrite N.add_0_l, N.mod_small by exact H.
  destruct (N.eqb (N.of_nat n) 0) eqn:E.
  - apply N.eqb_eq in E. lia.
  - apply N.eqb_neq in E. lia.
Qed.

Lemma reads_back_last l k :
  is_list_ref k = true -> last_form (parse_ref k) -> (N.of_nat (length l) < two32)%N -> reads_back l k k.
Proof.
  intros LR F H. split; [exact LR|]. intros child. unfold resolve_index.
  assert (will_insert k = false) as W by (unfold will_insert, inserts; destruct F as [_ ->]; reflexivity).
  unfold written_list. rewrite W. rewrite (index_of_last _ _ F H).
  rewrite index_of_last; [|exact F|].
  - rewrite length_set_at. lia.
  - rewrite length_set_at. unfold two32 in *. lia.
Qed.

(** @next (optionally "@next N"): read back as @last *)
Definition next_form (rs : refspec) : Prop := rs_last rs = false /\ rs_base rs = BNext.

Lemma reads_back_next l k k' :
  next_form (parse_ref k) -> is_list_ref k' = true -> last_form (parse_ref k') ->
  (N.of_nat (length l) + rs_num (parse_ref k) + 1 < two32)%N -> reads_back l k k'.
Proof.
  intros [L B] LR' F' H. split; [exact LR'|]. intros child.
  assert (will_insert k = false) as W by (unfold will_insert, inserts; rewrite B; reflexivity).
  assert (resolve_index l k = length l + N.to_nat (rs_num (parse_ref k))) as I.
  { unfold resolve_index, index_of, u32. rewrite L, B.
    rewrite (N.mod_small (N.of_nat (length l))) by (unfold two32 in *; lia).
    rewrite N.mod_small by (unfold two32 in *; lia). lia. }
  unfold written_list. rewrite W. unfold resolve_index at 1.
  rewrite index_of_last; [|exact F'|].
  - rewrite length_set_at. lia.
  - rewrite length_set_at. unfold two32 in *. lia.
Qed.

(** [unrelated ws qs = Some qs'] when the resolved read path [qs] leaves the
    written path [ws] at some step; [qs'] is where the same node is found
    afterwards (list elements at or behind an insertion point move up by one). *)
Fixpoint unrelated (ws : list wstep) (qs : list step) : option (list step) :=
  match ws, qs with
  | [], _ => None
  | _ :: _, [] => None
  | WMap k :: ws', KMap k' :: qs' =>
      if bytes_eqb k' k then option_map (cons (KMap k')) (unrelated ws' qs') else Some qs
  | WIdx i ins :: ws', KIdx j :: qs' =>
      if (negb ins && Nat.eqb j i)%bool then option_map (cons (KIdx j)) (unrelated ws' qs')
      else Some (KIdx (shift i ins j) :: qs')
  | WMap _ :: _, KIdx _ :: _ => Some qs
  | WIdx _ _ :: _, KMap _ :: _ => Some qs
  end.

Theorem write_frame keys : forall t v qs qs',
  (forall k, In k keys -> k <> []) ->
  write_ok t keys = true ->
  unrelated (resolve_w t keys) qs = Some qs' ->
  traverse_r (write_at t keys v) qs' = traverse_r t qs.
Proof.
  (* the check, the write and the resolution skip an empty key alike: the first hypothesis is not used *)
  intros t v qs qs' _. revert t qs qs'.
  induction keys as [|k ks IH]; intros t qs qs' OK U; cbn [resolve_w write_at write_ok] in *; [discriminate|].
  destruct (is_empty k); [now apply IH|].
  destruct (is_list_ref k).
  - (* the node is null or a list; a read through a map key finds nothing before and after *)
    assert (forall k' q, traverse_r t (KMap k' :: q) = Null) as R2 by (destruct t; try discriminate; reflexivity).
    assert (write_ok (get_at (match t with Lst l => l | _ => [] end)
                             (resolve_index (match t with Lst l => l | _ => [] end) k)) ks = true) as OK'.
    { destruct t; try discriminate; cbn [get_at nth]; [|exact OK]. destruct (resolve_index [] k); exact OK. }
    set (l := match t with Lst l => l | _ => [] end) in *.
    cbn [unrelated] in U. destruct qs as [|[k'|j] qs0]; [discriminate| |].
    + inversion U; subst qs'. now rewrite R2.
    + rewrite traverse_r_idx. fold l. destruct (negb (will_insert k) && Nat.eqb j (resolve_index l k))%bool eqn:C.
      * apply andb_true_iff in C. destruct C as [C1 C2]. apply Nat.eqb_eq in C2. subst j.
        destruct (unrelated (resolve_w (get_at l (resolve_index l k)) ks) qs0) as [q0|] eqn:U0; [|discriminate].
        inversion U; subst qs'. cbn [traverse_r]. rewrite get_set_at_same.
        apply (IH _ _ _ OK' U0).
      * inversion U; subst qs'. cbn [traverse_r]. f_equal. apply get_written_other.
        intros W E. rewrite W, E, Nat.eqb_refl in C. discriminate.
  - assert (forall j q, traverse_r t (KIdx j :: q) = Null) as R2 by (destruct t; try discriminate; reflexivity).
    assert (write_ok (map_get (match t with Map m => m | _ => [] end) k) ks = true) as OK'
      by (destruct t; try discriminate; exact OK).
    set (m := match t with Map m => m | _ => [] end) in *.
    cbn [unrelated] in U. destruct qs as [|[k'|j] qs0]; [discriminate| |].
    + rewrite traverse_r_key. fold m. destruct (bytes_eqb k' k) eqn:E.
      * apply bytes_eqb_eq in E. subst k'.
        destruct (unrelated (resolve_w (map_get m k) ks) qs0) as [q0|] eqn:U0; [|discriminate].
        inversion U; subst qs'. cbn [traverse_r]. rewrite map_get_set_same.
        apply (IH _ _ _ OK' U0).
      * inversion U; subst qs'. cbn [traverse_r]. rewrite map_get_set_other; [reflexivity|].
        intros ->. now rewrite bytes_eqb_refl in E.
    + inversion U; subst qs'. now rewrite R2.
Qed.

Lemma traverse_null keys : traverse Null keys = Null.
Proof. destruct keys as [|k ks]; [reflexivity|]. cbn. destruct (is_list_ref k); reflexivity. Qed.

Theorem write_frame_other_key t k ks v k' qs :
  k <> [] -> is_list_ref k = false -> is_list_ref k' = false -> k' <> k ->
  write_ok t (k :: ks) = true ->
  traverse (write_at t (k :: ks) v) (k' :: qs) = traverse t (k' :: qs).
Proof.
  intros NE LR LR' D OK. cbn [write_at write_ok traverse] in *.
  rewrite (is_empty_false _ NE), LR in *. rewrite LR', map_get_set_other by exact D.
  destruct t; try discriminate OK; cbn [map_get]; [now rewrite traverse_null|reflexivity].
Qed.
