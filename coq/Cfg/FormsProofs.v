(** C18 – the textual forms of keys ("name", "@N", "@next", "@last",
    "@before N", "@after N"), what [ResolveListIndex] makes of them, the path a
    value written through them is read back at, and the API-level statements
    (path strings, typed setters and getters). *)
From Coq Require Import List NArith ZArith Bool Arith Lia.
From Coq.Strings Require Import Byte.
From RimeV Require Import Base.Bytes Cfg.Tree Cfg.Path Cfg.PathProofs Cfg.Typed Cfg.TypedProofs.
Import ListNotations.

Inductive keyform :=
| FKey (k : bytes)
| FIdx (n : N)
| FBefore (n : N)
| FAfter (n : N)
| FNext
| FLast.

Definition t_before : bytes := ["@"; "b"; "e"; "f"; "o"; "r"; "e"; " "]%byte.
Definition t_after : bytes := ["@"; "a"; "f"; "t"; "e"; "r"; " "]%byte.
Definition t_next : bytes := ["@"; "n"; "e"; "x"; "t"]%byte.
Definition t_last : bytes := ["@"; "l"; "a"; "s"; "t"]%byte.

Definition key_text (f : keyform) : bytes :=
  match f with
  | FKey k => k
  | FIdx n => at_sign :: dec n
  | FBefore n => t_before ++ dec n
  | FAfter n => t_after ++ dec n
  | FNext => t_next
  | FLast => t_last
  end.

Definition key_readback (f : keyform) : bytes :=
  match f with FNext => t_last | _ => key_text f end.

Definition no_slash (k : bytes) : Prop := Forall (fun c => byte_eqb c slash = false) k.

Definition wf_form (f : keyform) : Prop :=
  match f with
  | FKey k => k <> [] /\ no_slash k /\ is_list_ref k = false
  | _ => True
  end.

(** [parse_ref] after the "@" and the word "next" / "before" / "after": an
    optional blank, then "last" or a number *)
Definition ref_tail (b : ref_base) (r1 : bytes) : refspec :=
  let r2 := match r1 with c :: r' => if byte_eqb c " "%byte then r' else r1 | [] => r1 end in
  if starts_with (["l"; "a"; "s"; "t"]%byte) r2 then {| rs_base := b; rs_last := true; rs_num := 0 |}
  else {| rs_base := b; rs_last := false; rs_num := strtoul10 r2 |}.

Lemma ref_tail_num b (blank : bool) n :
  (n < two64)%N ->
  ref_tail b ((if blank then [" "%byte] else []) ++ dec n) = {| rs_base := b; rs_last := false; rs_num := n |}.
Proof.
  intros H. destruct (dec_head n) as (d & ds & E & D).
  assert (ref_tail b (dec n) = {| rs_base := b; rs_last := false; rs_num := n |}) as T.
  { unfold ref_tail. rewrite E, (digit_neq' d) by (exact D || reflexivity). cbn [starts_with].
    rewrite (digit_neq d) by (exact D || reflexivity). cbn [andb].
    rewrite <- E, <- (app_nil_r (dec n)), strtoul10_dec by (exact H || reflexivity). reflexivity. }
  destruct blank; [|exact T]. rewrite <- T. unfold ref_tail. cbn [app]. now rewrite E, (digit_neq' d) by (exact D || reflexivity).
Qed.

Definition form_spec (f : keyform) : refspec :=
  match f with
  | FKey k => parse_ref k
  | FIdx n => {| rs_base := BPlain; rs_last := false; rs_num := n |}
  | FBefore n => {| rs_base := BBefore; rs_last := false; rs_num := n |}
  | FAfter n => {| rs_base := BAfter; rs_last := false; rs_num := n |}
  | FNext => {| rs_base := BNext; rs_last := false; rs_num := 0 |}
  | FLast => {| rs_base := BPlain; rs_last := true; rs_num := 0 |}
  end.

Definition num_ok (f : keyform) : Prop :=
  match f with FIdx n | FBefore n | FAfter n => (n < two64)%N | _ => True end.

Lemma parse_ref_form f : num_ok f -> parse_ref (key_text f) = form_spec f.
Proof.
  destruct f as [k|n|n|n| |]; intros H; try reflexivity.
  - cbn [form_spec]. rewrite <- (ref_tail_num BPlain false n H). destruct (dec_head n) as (d & ds & E & D).
    unfold parse_ref. cbn [key_text app skipn]. rewrite E. cbn [starts_with].
    now rewrite !(digit_neq d) by (exact D || reflexivity).
  - exact (ref_tail_num BBefore true n H).
  - exact (ref_tail_num BAfter true n H).
Qed.

(** the meaning of the forms: "@N" is element N, "@before N" inserts before
    element N, "@after N" inserts before element N+1, "@next" is one past the
    end, "@last" the last element (element 0 of an empty list) *)
Theorem form_index l :
  (forall n, (n < two32)%N -> resolve_index l (key_text (FIdx n)) = N.to_nat n /\ will_insert (key_text (FIdx n)) = false) /\
  (forall n, (n < two32)%N -> resolve_index l (key_text (FBefore n)) = N.to_nat n /\ will_insert (key_text (FBefore n)) = true) /\
  (forall n, (n + 1 < two32)%N -> resolve_index l (key_text (FAfter n)) = S (N.to_nat n) /\ will_insert (key_text (FAfter n)) = true) /\
  ((N.of_nat (length l) < two32)%N -> resolve_index l (key_text FNext) = length l /\ will_insert (key_text FNext) = false) /\
  ((N.of_nat (length l) < two32)%N -> resolve_index l (key_text FLast) = length l - 1 /\ will_insert (key_text FLast) = false).
Proof.
  assert (forall n, (n < two32)%N -> (n < two64)%N) as W by (unfold two32, two64; lia).
  unfold resolve_index, will_insert.
  repeat split; intros; rewrite parse_ref_form by (exact I || (apply W; lia)); try reflexivity; cbn [form_spec];
    unfold index_of, u32; cbn [rs_base rs_last rs_num].
  - now rewrite N.mod_small.
  - now rewrite N.mod_small.
  - rewrite N.mod_small by lia. lia.
  - rewrite N.add_0_r, N.mod_mod, N.mod_small by (assumption || discriminate). lia.
  - apply (index_of_last (form_spec FLast)); [split; reflexivity|assumption].
Qed.

Lemma is_list_ref_form f : match f with FKey _ => True | _ => is_list_ref (key_text f) = true end.
Proof.
  destruct f; try exact I; try reflexivity; cbn [key_text].
  - destruct (dec_head n) as (d & ds & -> & D). cbn. unfold is_alnum. now rewrite D.
Qed.

Lemma is_list_ref_readback f : match f with FKey _ => True | _ => is_list_ref (key_readback f) = true end.
Proof. destruct f; try exact I; try reflexivity; apply (is_list_ref_form (FIdx n)). Qed.

(** the lists met along the written path are short enough for the 32-bit index arithmetic *)
Fixpoint sizes_ok (t : item) (fs : list keyform) : Prop :=
  match fs with
  | [] => True
  | f :: r =>
      match f with
      | FKey k => sizes_ok (map_get (match t with Map m => m | _ => [] end) k) r
      | _ =>
          let l := match t with Lst l => l | _ => [] end in
          (N.of_nat (length l) + 1 < two32)%N /\
          match f with
          | FIdx n | FBefore n | FAfter n => (n < two64)%N
          | _ => True
          end /\
          sizes_ok (get_at l (resolve_index l (key_text f))) r
      end
  end.

Lemma reads_back_form l f :
  (N.of_nat (length l) + 1 < two32)%N -> num_ok f ->
  match f with FKey _ => True | _ => reads_back l (key_text f) (key_readback f) end.
Proof.
  intros S N. pose proof (is_list_ref_form f) as LR. pose proof (parse_ref_form f N) as PR.
  destruct f as [k|n|n|n| |]; [exact I| | | | |]; cbn [key_readback].
  1-3: apply reads_back_fixed; [exact LR|]; rewrite PR; split; [reflexivity|discriminate].
  - apply reads_back_next; [split; reflexivity|reflexivity|split; reflexivity|]. rewrite PR. cbn [form_spec rs_num]. lia.
  - apply reads_back_last; [reflexivity|split; reflexivity|lia].
Qed.

Lemma readable_forms fs : forall t,
  Forall wf_form fs -> sizes_ok t fs -> readable t (map key_text fs) (map key_readback fs).
Proof.
  induction fs as [|f fs IH]; intros t WF SZ; [exact I|].
  inversion WF as [|? ? W WF']; subst. cbn [map readable].
  pose proof (is_list_ref_form f) as LR. pose proof (reads_back_form (match t with Lst l => l | _ => [] end) f) as RB.
  destruct f as [k|n|n|n| |]; cbn [sizes_ok] in SZ.
  1: { destruct W as (NE & _ & LRk). cbn [key_text key_readback]. rewrite LRk. repeat split; auto. }
  all: destruct SZ as (S1 & S2 & S3); rewrite LR; (split; [intros E; now rewrite E in LR|]); split; [now apply RB|now apply IH].
Qed.

Fixpoint join (keys : list bytes) : bytes :=
  match keys with
  | [] => []
  | [k] => k
  | k :: r => k ++ slash :: join r
  end.

Lemma split_on_slash_app k : no_slash k -> forall cur rest,
  split_on_slash cur (k ++ rest) = split_on_slash (rev k ++ cur) rest.
Proof.
  induction 1 as [|c k C F IH]; intros cur rest; [reflexivity|].
  cbn [app split_on_slash rev]. rewrite C, IH. now rewrite <- app_assoc.
Qed.

Lemma split_join keys : keys <> [] -> Forall no_slash keys -> split_on_slash [] (join keys) = keys.
Proof.
  induction keys as [|k r IH]; intros NE F; [congruence|]. inversion F as [|? ? K F']; subst.
  destruct r as [|k2 r].
  - cbn [join]. rewrite <- (app_nil_r k) at 1. rewrite split_on_slash_app by exact K.
    cbn [split_on_slash]. now rewrite app_nil_r, rev_involutive.
  - change (join (k :: k2 :: r)) with (k ++ slash :: join (k2 :: r)).
    rewrite split_on_slash_app by exact K. cbn [split_on_slash]. rewrite byte_eqb_refl.
    rewrite app_nil_r, rev_involutive. f_equal. apply IH; [discriminate|exact F'].
Qed.

Lemma path_keys_join keys : hd [] keys <> [] -> Forall no_slash keys -> path_keys (join keys) = keys.
Proof.
  intros NE F. destruct keys as [|k r]; [now elim NE|]. inversion F as [|? ? K F']; subst.
  destruct k as [|c k]; [now elim NE|]. inversion K as [|? ? C _]; subst.
  assert (exists rest, join ((c :: k) :: r) = c :: rest) as [rest E] by (destruct r; cbn; eauto).
  unfold path_keys, split_path. rewrite E.
  assert (is_root_path (c :: rest) = false) as ->.
  { destruct rest; [cbn; exact C|reflexivity]. }
  cbn [drop_slashes]. rewrite C. rewrite <- E. apply split_join; [discriminate|exact F].
Qed.

Lemma no_slash_text f : wf_form f -> no_slash (key_text f) /\ no_slash (key_readback f).
Proof.
  assert (forall n, no_slash (dec n)) as D.
  { intros n. destruct (dec_spec n) as (F & _ & _). eapply Forall_impl; [|exact F].
    intros d Hd. now apply digit_neq'. }
  destruct f; cbn [wf_form key_text key_readback]; intros W.
  - destruct W as (_ & W & _). split; exact W.
  - split; (constructor; [reflexivity|apply D]).
  - split; (apply Forall_app; split; [repeat constructor|apply D]).
  - split; (apply Forall_app; split; [repeat constructor|apply D]).
  - split; repeat constructor.
  - split; repeat constructor.
Qed.

Definition path_text (fs : list keyform) : bytes := join (map key_text fs).
Definition path_readback (fs : list keyform) : bytes := join (map key_readback fs).

Lemma first_nonempty fs : Forall wf_form fs -> fs <> [] ->
  hd [] (map key_text fs) <> [] /\ hd [] (map key_readback fs) <> [].
Proof.
  intros WF NE. destruct fs as [|f r]; [congruence|]. inversion WF as [|? ? W _]; subst. cbn [map hd].
  destruct f; cbn; try (split; discriminate). destruct W as [W _]. now split.
Qed.

Theorem config_get_after_set t fs v t' :
  fs <> [] -> Forall wf_form fs -> sizes_ok t fs ->
  config_set t (path_text fs) v = Some t' ->
  config_get t' (path_readback fs) = v.
Proof.
  intros NE WF SZ. unfold config_set, config_get, path_text, path_readback.
  assert (Forall no_slash (map key_text fs) /\ Forall no_slash (map key_readback fs)) as [N1 N2].
  { split; apply Forall_map; (eapply Forall_impl; [|exact WF]); intros f W; now apply no_slash_text. }
  destruct (first_nonempty fs WF NE) as [E1 E2]. rewrite !path_keys_join by assumption.
  destruct (write_ok t (map key_text fs)); [|discriminate]. intros E. inversion E; subst.
  apply write_then_traverse. now apply readable_forms.
Qed.

Lemma value_after_set t fs s t' :
  fs <> [] -> Forall wf_form fs -> sizes_ok t fs ->
  config_set t (path_text fs) (Scalar s) = Some t' -> value_at t' (path_readback fs) = Some s.
Proof. intros NE WF SZ H. unfold value_at. now rewrite (config_get_after_set _ _ _ _ NE WF SZ H). Qed.

Theorem get_after_set_string t fs s t' :
  fs <> [] -> Forall wf_form fs -> sizes_ok t fs ->
  cfg_set_string t (path_text fs) s = Some t' -> cfg_get_string t' (path_readback fs) = Some s.
Proof. exact (value_after_set t fs s t'). Qed.

Theorem get_after_set_int t fs z t' :
  fs <> [] -> Forall wf_form fs -> sizes_ok t fs -> (int_min <= z <= int_max)%Z ->
  cfg_set_int t (path_text fs) z = Some t' -> cfg_get_int t' (path_readback fs) = Some z.
Proof. intros NE WF SZ R H. unfold cfg_get_int. rewrite (value_after_set _ _ _ _ NE WF SZ H). now apply get_set_int. Qed.

Theorem get_after_set_bool t fs b t' :
  fs <> [] -> Forall wf_form fs -> sizes_ok t fs ->
  cfg_set_bool t (path_text fs) b = Some t' -> cfg_get_bool t' (path_readback fs) = Some b.
Proof. intros NE WF SZ H. unfold cfg_get_bool. rewrite (value_after_set _ _ _ _ NE WF SZ H). apply get_set_bool. Qed.

Theorem get_other_type_after_set t fs t' :
  fs <> [] -> Forall wf_form fs -> sizes_ok t fs ->
  (forall z, cfg_set_int t (path_text fs) z = Some t' ->
     cfg_get_string t' (path_readback fs) = Some (set_int z) /\ cfg_get_bool t' (path_readback fs) = None) /\
  (forall b, cfg_set_bool t (path_text fs) b = Some t' ->
     cfg_get_string t' (path_readback fs) = Some (set_bool b) /\ cfg_get_int t' (path_readback fs) = None).
Proof.
  intros NE WF SZ. split; intros x H; unfold cfg_get_string, cfg_get_int, cfg_get_bool;
    rewrite (value_after_set _ _ _ _ NE WF SZ H); (split; [reflexivity|]).
  - apply get_bool_of_int.
  - apply get_int_of_bool.
Qed.

Lemma write_ok_through_scalar pre : forall t s k ks,
  (forall x, In x pre -> x <> []) -> traverse t pre = Scalar s -> k <> [] ->
  write_ok t (pre ++ k :: ks) = false.
Proof.
  induction pre as [|p pre IH]; intros t s k ks NE T K; cbn [app write_ok].
  - cbn in T. subst t. rewrite (is_empty_false _ K). destruct (is_list_ref k); reflexivity.
  - rewrite is_empty_false by (apply NE; now left). cbn [traverse] in T.
    destruct (is_list_ref p); destruct t; try discriminate T;
      (apply (IH _ s); [intros x I; apply NE; now right|exact T|exact K]).
Qed.

(** a write whose path runs through a scalar, or through a list where a map key
    is used (and vice versa), is refused and nothing changes; typed getters on a
    node that is not a scalar report failure *)
Theorem wrong_kind_fails_cleanly :
  (forall t pre s k ks v, (forall x, In x pre -> x <> []) -> traverse t pre = Scalar s -> k <> [] ->
     write_ok t (pre ++ k :: ks) = false /\
     (path_keys (join (pre ++ k :: ks)) = pre ++ k :: ks -> config_set t (join (pre ++ k :: ks)) v = None)) /\
  (forall l k ks, is_list_ref k = false -> k <> [] -> write_ok (Lst l) (k :: ks) = false) /\
  (forall m k ks, is_list_ref k = true -> write_ok (Map m) (k :: ks) = false) /\
  (forall t p, (forall s, config_get t p <> Scalar s) ->
     cfg_get_string t p = None /\ cfg_get_int t p = None /\ cfg_get_bool t p = None).
Proof.
  split; [|split; [|split]].
  - intros t pre s k ks v NE T K. pose proof (write_ok_through_scalar pre t s k ks NE T K) as W.
    split; [exact W|]. intros E. unfold config_set. now rewrite E, W.
  - intros l k ks H K. cbn [write_ok]. now rewrite (is_empty_false _ K), H.
  - intros m k ks H. cbn [write_ok]. rewrite is_empty_false by (intros ->; discriminate H). now rewrite H.
  - intros t p H. unfold cfg_get_string, cfg_get_int, cfg_get_bool, value_at.
    destruct (config_get t p) eqn:E; try (repeat split; reflexivity). exfalso. eapply H; eauto.
Qed.

(** non-vacuity: concrete histories through a map key, "@N", "@before N" and "@next" *)
Definition ex_path : list keyform :=
  [FKey ["m"]%byte; FIdx 2; FBefore 0; FKey ["k"]%byte].

Example ex_forms_ok : Forall wf_form ex_path /\ sizes_ok Null ex_path.
Proof. split; [repeat constructor; try discriminate; reflexivity|]. cbn. repeat split; reflexivity || (unfold two32; lia) || (unfold two64; lia). Qed.

Example ex_set_then_get :
  exists t', cfg_set_int Null (path_text ex_path) (-7)%Z = Some t' /\
             cfg_get_int t' (path_readback ex_path) = Some (-7)%Z /\
             t' = Map [(["m"]%byte, Lst [Null; Null; Lst [Map [(["k"]%byte, Scalar ["-"; "7"]%byte)]]])].
Proof. eexists. split; [vm_compute; reflexivity|]. split; vm_compute; reflexivity. Qed.

Example ex_next_then_last :
  exists t', cfg_set_string (Lst [Scalar ["a"]%byte]) (path_text [FNext]) ["b"]%byte = Some t' /\
             cfg_get_string t' (path_readback [FNext]) = Some ["b"]%byte /\ cfg_get_string t' (path_text [FNext]) = None.
Proof. eexists. split; [vm_compute; reflexivity|]. split; vm_compute; reflexivity. Qed.
