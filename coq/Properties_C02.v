(** C02 – the context reported after any call is well-formed.
    Property theorems only; each closed by a lemma proved elsewhere. *)
From Coq Require Import List ZArith NArith Bool Lia.
From Coq.Strings Require Import Byte.
From RimeV Require Import Base.Bytes Eng.Keys Eng.Cand Eng.Segm Eng.Ctx Eng.Engine Eng.Procs Eng.Api Eng.Oracle
     Eng.Trans Eng.Spec Eng.WfView Eng.Utf8Proofs Eng.WfProofs Eng.InvProofs Eng.PunctProofs Eng.KbProofs Eng.AsciiProofs Gen.Keymaps Gen.EngFacts.
Import ListNotations.

(** Source fact (gen/eng_facts.py, re-read from src/rime/context.cc on every
    run): Context::DeleteCandidate looks the candidate up before it writes
    selected_index. *)
Theorem C02_delete_guard_in_source : delete_candidate_guard = DeleteChecked.
Proof. reflexivity. Qed.
Print Assumptions C02_delete_guard_in_source.

(** After EVERY finite sequence of API calls with arbitrary arguments (keys
    with any code and mask, set_input, set_caret_pos beyond the end,
    select/highlight/delete by any index, paging, options, commit, clear, the
    getters), for any speller/menu configuration with page_size >= 1, either
    editor, and ANY translator whose candidate lists are shorter than
    2^31 - page_size, every observation is well-formed ([Spec.wf_viewb]):
    caret <= |input|; not composing => no input, no preedit, no menu;
    0 <= sel_start <= sel_end <= length and cursor <= length of the preedit;
    a reported menu has 0 <= highlighted < candidates on the page <= page_size,
    page_no >= 0 and page_no * page_size + highlighted = the selected index.
    Needs the source fact above ([cf_del_checked cfg = true]). *)
Theorem C02_wf_reported :
  forall (cfg : config) (translate : bytes -> seginfo -> list cand),
    (1 <= cf_page_size cfg)%Z ->
    (forall i s, (Z.of_nat (length (translate i s)) + cf_page_size cfg < 2147483648)%Z) ->
    cf_del_checked cfg = true ->
    forall ops, forallb wf_obsb (snd (run cfg translate ops)) = true.
Proof. exact wf_reported. Qed.
Print Assumptions C02_wf_reported.

(** Composition::GetPreedit yields ordered ranges for ANY composition, input,
    caret and prompt (the preedit clause needs no invariant at all). *)
Theorem C02_preedit_ranges :
  forall sg full_input caret_pos caret, wf_preeditb (comp_preedit sg full_input caret_pos caret) = true.
Proof. exact comp_preedit_wf. Qed.
Print Assumptions C02_preedit_ranges.

(** The UTF-8 clause: if moreover the translator's candidates for ASCII input
    strings have texts and preedits that start at character boundaries
    ([cand_clean]: implied by valid UTF-8) and every set_input argument is
    ASCII (keys only ever add printable ASCII), then sel_start, sel_end and
    cursor_pos of every reported preedit are UTF-8 character boundaries of its
    text ([Spec.wf_view_utf8b]). *)
Theorem C02_wf_reported_utf8 :
  forall (cfg : config) (translate : bytes -> seginfo -> list cand),
    (1 <= cf_page_size cfg)%Z ->
    (forall i s, (Z.of_nat (length (translate i s)) + cf_page_size cfg < 2147483648)%Z) ->
    cf_del_checked cfg = true ->
    (forall i s, all_ascii i -> Forall (fun c => cand_clean c = true) (translate i s)) ->
    forall ops, Forall op_ascii ops -> forallb wf_obs_utf8b (snd (run cfg translate ops)) = true.
Proof. exact wf_reported_utf8. Qed.
Print Assumptions C02_wf_reported_utf8.

(** GetPreedit alone: ASCII inputs, clean selected candidates and a clean
    prompt give boundary positions, for ANY composition. *)
Theorem C02_preedit_utf8_boundaries :
  forall sg full_input caret_pos caret,
    all_ascii (sg_input sg) -> all_ascii full_input -> Forall seg_clean (sg_segs sg) ->
    starts_clean (caret ++ comp_prompt sg) = true ->
    wf_preedit_utf8b (comp_preedit sg full_input caret_pos caret) = true.
Proof. exact comp_preedit_utf8. Qed.
Print Assumptions C02_preedit_utf8_boundaries.

(** The hypotheses are met by the synthetic schemas of the correspondence
    check as they are in the current source (both editors, Debug and NDEBUG). *)
Theorem C02_wf_reported_synth :
  forall fluid dlog ops, forallb wf_obsb (snd (run (synth_cfg fluid dlog) oracle_translate ops)) = true.
Proof.
  intros fluid dlog. apply wf_reported.
  - cbn. lia.
  - intros i s. pose proof (oracle_translate_length i s). cbn. lia.
  - reflexivity.  (* delete_checked_in_source computes to true from the generated fact *)
Qed.
Print Assumptions C02_wf_reported_synth.

Theorem C02_wf_reported_utf8_synth :
  forall fluid dlog ops, Forall op_ascii ops ->
    forallb wf_obs_utf8b (snd (run (synth_cfg fluid dlog) oracle_translate ops)) = true.
Proof.
  intros fluid dlog. apply wf_reported_utf8.
  - cbn. lia.
  - intros i s. pose proof (oracle_translate_length i s). cbn. lia.
  - reflexivity.
  - intros i s. apply oracle_translate_clean.
Qed.
Print Assumptions C02_wf_reported_utf8_synth.

(** The faithful model of the UNCHECKED DeleteCandidate (the code before the
    repair) refutes the property: two candidates on the page,
    delete_candidate(2) -> highlighted = num_candidates = 2. *)
Theorem C02_wf_reported_refuted_unchecked :
  exists ops, existsb (fun o => negb (wf_obsb o))
                      (snd (run (synth_cfg_with false false false) oracle_translate ops)) = true.
Proof. exact wf_reported_refuted_unchecked. Qed.
Print Assumptions C02_wf_reported_refuted_unchecked.

(** Non-vacuity: a history that reaches a second page, a partial selection and
    a multi-segment preedit reports regular (not crashed) well-formed states. *)
Definition c02_example_ops : list op :=
  [OpKey 97 0; OpKey 98 0; OpKey 99 0; OpKey 100 0; OpChangePage false; OpHighlight 7; OpSelect 11;
   OpKey 101 0; OpDelete 1; OpDelete 99; OpSetCaret 2; OpSetOption opt_soft_cursor true; OpKey 65361 0; OpCommit].
Theorem C02_example :
  forallb (fun o => match o with Obs _ v => wf_viewb v | ObsCrash _ => false end)
          (snd (run (synth_cfg false true) oracle_translate c02_example_ops)) = true /\
  existsb (fun o => match o with
                    | Obs _ v => match v_menu v with Some m => (0 <? mo_page_no m)%Z && (0 <? mo_hl m)%Z | None => false end
                    | ObsCrash _ => false
                    end)
          (snd (run (synth_cfg false true) oracle_translate c02_example_ops)) = true /\
  existsb (fun o => match o with
                    | Obs _ v => match v_preedit v with Some p => (0 <? pe_sel_start p)%nat | None => false end
                    | ObsCrash _ => false
                    end)
          (snd (run (synth_cfg false true) oracle_translate c02_example_ops)) = true.
Proof. repeat split; vm_compute; reflexivity. Qed.
Print Assumptions C02_example.

(** The punctuator: [C02_wf_reported] quantifies over every configuration,
    so it covers every processor / segmentor chain of the model (punctuator with AlternatePunct
    writing Segment.selected_index directly, PairPunct, the digit-separator paths;
    punct_segmentor) and every menu, merged from several translators or not.  Non-vacuity for
    the punctuator schemas of the correspondence: their merged menus (punct_translator first,
    then the oracle translator) meet the length hypothesis. *)
Theorem C02_wf_reported_synth_punct :
  forall fluid dlog ops,
    forallb wf_obsb (snd (run (synth_punct_cfg fluid dlog) (synth_translate (synth_punct_cfg fluid dlog)) ops)) = true.
Proof. exact wf_reported_synth_punct. Qed.
Print Assumptions C02_wf_reported_synth_punct.

(** a concrete history through all four definition shapes: alternate a list key twice, a pair
    key twice (oddness), a commit key, the digit-separator path and a full_shape toggle *)
Definition c02_punct_ops : list op :=
  [OpKey 46 0; OpKey 46 0; OpKey 46 0; OpKey 34 0; OpKey 34 0; OpKey 51 0; OpKey 44 0; OpKey 44 0;
   OpSetOption opt_full_shape true; OpKey 32 0; OpKey 97 0; OpKey 59 0; OpKey 59 0; OpGetCommit].
Theorem C02_punct_example :
  let obs := snd (run (synth_punct_cfg false true) (synth_translate (synth_punct_cfg false true)) c02_punct_ops) in
  forallb wf_obsb obs = true /\
  existsb (fun o => match o with Obs _ v => match v_sel v with Some 2%N => true | _ => false end | _ => false end) obs = true /\
  existsb (fun o => match o with Obs (RCommit (Some _)) _ => true | _ => false end) obs = true.
Proof. cbv zeta. split; [|split]; vm_compute; reflexivity. Qed.
Print Assumptions C02_punct_example.

(** The key binder: [C02_wf_reported] covers chains with the key binder and
    any binding table (the replayed keys re-enter ProcessKey: [process_key_n_inv] by induction on the
    nesting depth).  Non-vacuity: the key-binder schemas of the correspondence and a run through
    paging bindings, ReinterpretPagingKey, option actions, the self-sending and the cyclic bindings. *)
Theorem C02_wf_reported_synth_kb :
  forall fluid dlog ops,
    forallb wf_obsb (snd (run (synth_kb_cfg fluid dlog) (synth_translate (synth_kb_cfg fluid dlog)) ops)) = true.
Proof. exact wf_reported_synth_kb. Qed.
Print Assumptions C02_wf_reported_synth_kb.

Theorem C02_key_binder_example :
  let cfg := synth_kb_cfg_gen true true true true true in
  forallb CommitProofs.not_crash (snd (run cfg (synth_translate cfg) kb_example_ops)) = true /\
  existsb (fun o => match o with Obs (RBool true) v => match v_input v with [] => false | _ => true end | _ => false end)
          (snd (run cfg (synth_translate cfg) kb_example_ops)) = true.
Proof. exact kb_guarded_ok. Qed.
Print Assumptions C02_key_binder_example.

(** the stock chain order with ascii_composer first and ascii_segmentor (synth_ascii_express / synth_ascii_fluid) *)
Theorem C02_wf_reported_synth_ascii :
  forall fluid dlog ops,
    forallb wf_obsb (snd (run (synth_ascii_cfg fluid dlog) (synth_translate (synth_ascii_cfg fluid dlog)) ops)) = true.
Proof. exact RimeV.Eng.AsciiProofs.wf_reported_synth_ascii. Qed.
Print Assumptions C02_wf_reported_synth_ascii.
