(** C17 – user dictionary sync merges without loss; snapshots round-trip.
    Property theorems only; the proofs are in Udb/*Proofs.v and Udb/Examples.v and are put
    together here in a few lines (the generated fact of Gen/Inits.v is plugged in by a rewrite).

    Conventions: [O] is the abstract double ([dee_ops]); [dee_print_ok O] says that a printed
    double contains no blank and is accepted by stod again.  [inits] is instantiated by
    [ctor_inits_merged_entries], the fact gen/udb_inits.py extracts from the current
    src/rime/dict/user_db.h/.cc.  [g] is whatever the merger's storage held before
    construction.  Dictionaries are arbitrary (all proofs are inductions over entry lists). *)
From Coq Require Import List NArith ZArith Bool.
From Coq.Strings Require Byte.
From RimeV Require Import Base.Bytes Udb.Value Udb.ValueProofs Udb.Merge Udb.MergeProofs Udb.Tsv Udb.TsvProofs
  Udb.Manager Udb.ManagerProofs Udb.SyncAbstract Udb.SyncProofs Udb.Examples Udb.InitKinds Gen.Inits.
Import ListNotations.

(** ** the constructor facts of the current source *)

(** Every data member that MetaPut/Put/CloseMerge/the destructor of UserDbMerger (and of
    UserDbImporter) read is initialised by construction, and UserDbValue's members default
    to zero. *)
Theorem C17_members_initialised : all_read_members_initialised = true.
Proof. vm_compute. reflexivity. Qed.
Print Assumptions C17_members_initialised.

Theorem C17_ctor_initialises_merged_entries : ctor_inits_merged_entries = true.
Proof. vm_compute. reflexivity. Qed.
Print Assumptions C17_ctor_initialises_merged_entries.

(** With the constructor of the current source, a merge never reads an uninitialised member
    and its outcome does not depend on what the storage held before. *)
Theorem C17_merge_reads_initialised : forall O g g' uid src dst,
  m_uninit (merge_run O ctor_inits_merged_entries g uid src dst) = false /\
  merge_run O ctor_inits_merged_entries g uid src dst = merge_run O ctor_inits_merged_entries g' uid src dst.
Proof. rewrite C17_ctor_initialises_merged_entries. exact merge_reads_initialised. Qed.
Print Assumptions C17_merge_reads_initialised.

(** Not vacuous: without the initialisation the model does read the indeterminate value, and
    with -1 in the storage a one-entry merge leaves the tick behind. *)
Theorem C17_uninitialised_counter_example :
  get_tick_count (merge_db erased_ops false (-1) ex_u0 ex_one ex_ours) = 10%N /\
  m_uninit (merge_run erased_ops false (-1) ex_u0 ex_one ex_ours) = true /\
  get_tick_count (merge_db erased_ops false 0 ex_u0 ex_one ex_ours) = 20%N.
Proof. exact ex_uninitialised_counter. Qed.
Print Assumptions C17_uninitialised_counter_example.

(** ** merging a snapshot ([UserDbMerger] fed by a [DbSource]) *)

(** No entry is removed: every key of the dictionary and every key the snapshot's cursor
    yields is a key of the result; and no key is invented. *)
Theorem C17_merge_keys_kept : forall O inits g uid src dst k,
  (find k (data dst) <> None -> find k (data (merge_db O inits g uid src dst)) <> None) /\
  (In k (keys (query_all (data src))) -> find k (data (merge_db O inits g uid src dst)) <> None) /\
  (In k (keys (data (merge_db O inits g uid src dst))) -> In k (keys (data dst)) \/ In k (keys (query_all (data src)))).
Proof. intros. rewrite !find_some_iff, merge_keys. tauto. Qed.
Print Assumptions C17_merge_keys_kept.

(** Each entry of the snapshot ends with the larger magnitude of the two sides.  The sign
    rule of the code, exactly: theirs replaces ours iff |ours| < |theirs| (a tie keeps ours;
    an entry we do not have counts as 0); the entry is stamped with the new tick. *)
Theorem C17_merge_magnitude_max : forall O, dee_print_ok O ->
  forall inits g uid src dst k v,
  NoDup (keys (data src)) -> In (k, v) (query_all (data src)) ->
  exists s, find k (data (merge_db O inits g uid src dst)) = Some s
    /\ commits (unpack O s) = merged_commits (our_commits O dst k) (commits (unpack O v))
    /\ Z.abs (commits (unpack O s)) = Z.max (Z.abs (our_commits O dst k)) (Z.abs (commits (unpack O v)))
    /\ tick (unpack O s) = N.max (get_tick_count dst) (snapshot_tick src).
Proof.
  intros O HO inits g uid src dst k v ND H.
  destruct (merge_entry O HO inits g uid src dst k v ND H) as (s & F & C & T).
  exists s. rewrite C. repeat split; try assumption. apply merged_commits_abs.
Qed.
Print Assumptions C17_merge_magnitude_max.

(** Entries present on one side only are kept: ours untouched (same stored value), theirs
    with their commit count. *)
Theorem C17_merge_one_sided_kept : forall O, dee_print_ok O ->
  forall inits g uid src dst k,
  (~ In k (keys (query_all (data src))) -> find k (data (merge_db O inits g uid src dst)) = find k (data dst)) /\
  (forall v, NoDup (keys (data src)) -> In (k, v) (query_all (data src)) -> find k (data dst) = None ->
     exists s, find k (data (merge_db O inits g uid src dst)) = Some s /\ commits (unpack O s) = commits (unpack O v)).
Proof.
  intros O HO inits g uid src dst k. split; [apply merge_untouched|].
  intros v ND H F. destruct (merge_entry O HO inits g uid src dst k v ND H) as (s & Fs & C & _).
  exists s. split; [exact Fs|]. rewrite C. unfold our_commits. rewrite F. apply merged_commits_zero.
Qed.
Print Assumptions C17_merge_one_sided_kept.

(** A merge never lowers the magnitude of any entry's commit count (any snapshot). *)
Theorem C17_merge_never_lowers : forall O, dee_print_ok O ->
  forall inits g uid src dst, mag_le O (data dst) (data (merge_db O inits g uid src dst)).
Proof. exact merge_mag_le. Qed.
Print Assumptions C17_merge_never_lowers.

(** The tick becomes the maximum of both – when the snapshot contributes at least one entry
    (CloseMerge returns early otherwise).  A dictionary without "/tick" counts as 1, a
    snapshot without it as 0. *)
Theorem C17_merge_tick_max : forall O g uid src dst,
  query_all (data src) <> [] ->
  get_tick_count (merge_db O ctor_inits_merged_entries g uid src dst) = N.max (get_tick_count dst) (snapshot_tick src).
Proof. rewrite C17_ctor_initialises_merged_entries. exact merge_tick_max. Qed.
Print Assumptions C17_merge_tick_max.

(** The statement without that hypothesis is false of the code as written: an empty
    snapshot with a larger tick leaves the whole dictionary, tick included, as it was. *)
Definition C17_merge_tick_max_full : Prop :=
  forall O g uid src dst,
  get_tick_count (merge_db O true g uid src dst) = N.max (get_tick_count dst) (snapshot_tick src).

Theorem C17_merge_tick_max_full_refuted : ~ C17_merge_tick_max_full.
Proof.
  intro H. specialize (H erased_ops 0%Z ex_u0 ex_empty_100 ex_ours).
  destruct ex_empty_snapshot_tick as [A B]. rewrite A, B in H. discriminate.
Qed.
Print Assumptions C17_merge_tick_max_full_refuted.

Theorem C17_merge_empty_snapshot_noop : forall O g uid src dst,
  query_all (data src) = [] -> merge_db O ctor_inits_merged_entries g uid src dst = dst.
Proof. rewrite C17_ctor_initialises_merged_entries. exact merge_empty_snapshot_noop. Qed.
Print Assumptions C17_merge_empty_snapshot_noop.

(** Merging the same snapshot a second time changes nothing observable: the list of
    (key, commits, tick) and the dictionary's tick stay the same. *)
Theorem C17_merge_idempotent : forall O, dee_print_ok O ->
  forall g uid src dst, NoDup (keys (data src)) ->
  let r1 := merge_db O ctor_inits_merged_entries g uid src dst in
  let r2 := merge_db O ctor_inits_merged_entries g uid src r1 in
  dump O r2 = dump O r1 /\ get_tick_count r2 = get_tick_count r1.
Proof. rewrite C17_ctor_initialises_merged_entries. exact merge_idempotent. Qed.
Print Assumptions C17_merge_idempotent.

(** Not vacuous: a concrete pair of dictionaries meets the hypotheses and the merge gives
    a -> -5 (was 3 vs -5), b -> 1 kept, c -> -1 added, tick 20 = max 10 20. *)
Theorem C17_merge_example :
  dee_print_ok erased_ops /\ NoDup (keys (data ex_theirs)) /\ query_all (data ex_theirs) <> [] /\
  dump erased_ops (merge_db erased_ops true 0 ex_u0 ex_theirs ex_ours) =
    [(ex_k1, (-5)%Z, 20%N); (ex_k2, 1%Z, 1%N); (ex_k3, (-1)%Z, 20%N)] /\
  get_tick_count (merge_db erased_ops true 0 ex_u0 ex_theirs ex_ours) = 20%N.
Proof.
  split; [exact erased_print_ok|]. split; [exact ex_theirs_nodup|]. split; [exact ex_theirs_nonempty|]. exact ex_merge_result.
Qed.
Print Assumptions C17_merge_example.

(** ** snapshots *)

(** UniformBackup then UniformRestore into an empty store gives back every record of a
    well-formed dictionary (keys: code TAB text, code starting with a byte >= 0x20 other
    than '#' and ending with a blank, no TAB/LF inside; values and metadata without TAB/LF
    and not ending in an isspace byte), data and metadata alike, byte for byte. *)
Theorem C17_snapshot_roundtrip : forall d, wf_db d ->
  let r := uniform_restore (uniform_backup d) empty_db in
  (forall k, find k (data r) = find k (data d)) /\ (forall k, find k (meta r) = find k (meta d)).
Proof. exact uniform_roundtrip. Qed.
Print Assumptions C17_snapshot_roundtrip.

(** UserDictManager::Backup on one installation, UserDictManager::Restore of that snapshot
    into an empty dictionary of another: the restore succeeds and the result has exactly the
    keys of the original, each with its commit count. *)
Theorem C17_backup_restore_into_empty : forall O, dee_print_ok O ->
  forall inits g ver uidA uidB d dest,
  wf_db d -> get_user_id d = uidA -> is_user_db d = true ->
  find mk_db_name (meta d) = Some dict_name -> data dest = [] ->
  let snap := snd (um_backup ver uidA dict_name d) in
  let res := um_restore O inits g ver uidB dict_name snap dest in
  snd res = RestoreOk /\
  forall k, match find k (data d) with
            | Some v => exists s, find k (data (fst res)) = Some s /\ commits (unpack O s) = commits (unpack O v)
            | None => find k (data (fst res)) = None
            end.
Proof. exact backup_restore_into_empty. Qed.
Print Assumptions C17_backup_restore_into_empty.

Theorem C17_backup_restore_example :
  wf_db ex_theirs /\ get_user_id ex_theirs = ex_u1 /\ is_user_db ex_theirs = true /\
  find mk_db_name (meta ex_theirs) = Some dict_name /\
  let snap := snd (um_backup ex_ver ex_u1 dict_name ex_theirs) in
  let res := um_restore erased_ops true 0 ex_ver ex_u0 dict_name snap (create_metadata ex_ver ex_u0 dict_name empty_db) in
  map (fun e => (fst (fst e), snd (fst e))) (dump erased_ops (fst res)) = [(ex_k1, (-5)%Z); (ex_k3, (-1)%Z)].
Proof.
  split; [exact ex_theirs_wf|]. destruct ex_roundtrip_hyps as (A & B & C).
  split; [exact A|]. split; [exact B|]. split; [exact C|]. exact ex_roundtrip_result.
Qed.
Print Assumptions C17_backup_restore_example.

(** ** text import ([UserDbImporter::Put]) *)

(** A positive count raises ours to the maximum, a negative one marks the entry deleted with
    at least our magnitude, zero changes nothing; the entry's tick is not touched; other
    entries are not touched. *)
Theorem C17_import_semantics : forall O, dee_print_ok O ->
  forall d k v,
  (exists s, find k (data (imp_put O d k v)) = Some s
     /\ commits (unpack O s) = imported_commits (our_commits O d k) (commits (unpack O v))
     /\ tick (unpack O s) = match find k (data d) with Some s0 => tick (unpack O s0) | None => 0%N end) /\
  (forall k', k' <> k -> find k' (data (imp_put O d k v)) = find k' (data d)).
Proof.
  intros O HO d k v. split; [apply import_put_entry; exact HO | intros k' N; now apply import_put_other].
Qed.
Print Assumptions C17_import_semantics.

Theorem C17_import_example :
  imported_commits 3 5 = 5%Z /\ imported_commits (-5) 2 = 2%Z /\ imported_commits 3 (-1) = (-3)%Z /\
  imported_commits 2 (-7) = (-7)%Z /\ imported_commits 4 0 = 4%Z.
Proof. exact ex_import_rule. Qed.
Print Assumptions C17_import_example.

(** Text export then import, line by line: a non-deleted entry whose code is tidy (no
    surrounding isspace bytes besides the final blank) is written as text TAB code TAB commits
    and parsed back to the same key with the same commit count (dee recomputed, tick 0). *)
Theorem C17_export_import_line : forall O core text v,
  tidy core -> text <> [] -> Forall (fun b => is_tab b = false) core -> Forall (fun b => is_tab b = false) text ->
  (0 <= commits (unpack O v))%Z ->
  let k := (core ++ [Byte.x20]) ++ TAB :: text in
  let c := commits (unpack O v) in
  table_formatter O k v = Some [text; core; print_Z c] /\
  table_parser O [text; core; print_Z c] = Some (k, pack O {| commits := c; dee := d_of_commits O c; tick := 0 |}).
Proof. exact export_import_line. Qed.
Print Assumptions C17_export_import_line.

Theorem C17_export_import_example :
  tidy [Byte.x61] /\ (0 <= commits (unpack erased_ops ex_v_3_3))%Z /\
  table_formatter erased_ops ex_k1 ex_v_3_3 = Some [[Byte.x41]; [Byte.x61]; [Byte.x33]] /\
  option_map fst (table_parser erased_ops [[Byte.x41]; [Byte.x61]; [Byte.x33]]) = Some ex_k1.
Proof. exact ex_export_line. Qed.
Print Assumptions C17_export_import_example.

(** Whole files: UserDictManager::Export of a well-formed dictionary whose keys survive the
    table format (code = tidy core + one blank, text not starting with '#'), then
    UserDictManager::Import of that file into any user dictionary.  The import returns the
    number of non-deleted entries; the importer's metadata (tick included) is untouched;
    every non-deleted entry arrives under the import rule and keeps the importer's own entry
    tick (0 for a new entry); deleted entries are not exported; the "# ..." description and
    the "#@" metadata lines of the file change nothing; all other entries are untouched. *)
Theorem C17_export_import_file : forall O, dee_print_ok O ->
  forall ver uid d d0,
  wf_db d -> forallb wf_export_rec (data d) = true -> is_user_db d = true ->
  is_user_db (open_rw ver uid dict_name d0) = true ->
  exists f n, um_export O d = Some (f, n) /\
    let res := um_import O ver uid dict_name f d0 in
    snd res = Some (length (filter (nonneg O) (data d))) /\
    meta (fst res) = meta (open_rw ver uid dict_name d0) /\
    forall k, match find k (data d) with
              | Some v =>
                  if (commits (unpack O v) <? 0)%Z then find k (data (fst res)) = find k (data d0)
                  else exists s, find k (data (fst res)) = Some s
                         /\ commits (unpack O s) = imported_commits (our_commits O d0 k) (commits (unpack O v))
                         /\ tick (unpack O s) = match find k (data d0) with Some s0 => tick (unpack O s0) | None => 0%N end
              | None => find k (data (fst res)) = find k (data d0)
              end.
Proof. exact export_import_file. Qed.
Print Assumptions C17_export_import_file.

(** ... and into an empty dictionary: exactly the non-deleted entries, each with its key
    and commit count (tick 0). *)
Theorem C17_export_import_into_empty : forall O, dee_print_ok O ->
  forall ver uid d d0,
  wf_db d -> forallb wf_export_rec (data d) = true -> is_user_db d = true ->
  is_user_db (open_rw ver uid dict_name d0) = true -> data d0 = [] ->
  exists f n, um_export O d = Some (f, n) /\
    forall k, match find k (data d) with
              | Some v =>
                  if (commits (unpack O v) <? 0)%Z then find k (data (fst (um_import O ver uid dict_name f d0))) = None
                  else exists s, find k (data (fst (um_import O ver uid dict_name f d0))) = Some s
                         /\ commits (unpack O s) = commits (unpack O v) /\ tick (unpack O s) = 0%N
              | None => find k (data (fst (um_import O ver uid dict_name f d0))) = None
              end.
Proof. exact export_import_into_empty. Qed.
Print Assumptions C17_export_import_into_empty.

Theorem C17_export_import_file_example :
  (wf_db ex_ours /\ forallb wf_export_rec (data ex_ours) = true /\ is_user_db ex_ours = true) /\
  match um_export erased_ops ex_ours with
  | Some (f, n) =>
      n = 2%nat /\
      dump erased_ops (fst (um_import erased_ops ex_ver ex_u1 dict_name f ex_theirs)) =
        [(ex_k1, 3%Z, 4%N); (ex_k2, 1%Z, 0%N); (ex_k3, (-1)%Z, 2%N)] /\
      snd (um_import erased_ops ex_ver ex_u1 dict_name f ex_theirs) = Some 2%nat
  | None => False
  end.
Proof. split; [exact ex_ours_wf | exact ex_export_import_result]. Qed.
Print Assumptions C17_export_import_file_example.

(** ** histories *)

(** Over every sequence of backup / restore / restore-from-file / synchronize / export /
    direct merge / direct backup operations between any number of installations, starting
    from any world, no dictionary ever loses an entry or ends with a smaller commit
    magnitude for an entry than it had (import and a direct UniformRestore are excluded:
    import may resurrect a deleted entry with a smaller count, UniformRestore overwrites). *)
Theorem C17_history_never_loses : forall O, dee_print_ok O ->
  forall inits g ver ops w j, forallb sync_op ops = true ->
  mag_le O (data (get_db w j)) (data (get_db (run O inits g ver ops w) j)).
Proof. exact history_never_loses. Qed.
Print Assumptions C17_history_never_loses.

(** ** Synchronize between installations (beyond the property: convergence) *)

(** "Every installation synchronises twice" is not enough in an arbitrary order: with three
    installations synchronising back to back (u0, u0, u1, u1, u2, u2; the sync directory
    always lists everybody) u0 ends without the entries of u1 and u2. *)
Theorem C17_sync_twice_any_order_refuted :
  exists ops w,
    (forall i, In i ex_all -> 2 <= length (filter (fun o => match o with OSync j _ => Nat.eqb i j | _ => false end) ops)) /\
    mags erased_ops (get_db (ex_run ops w) 0) <> mags erased_ops (get_db (ex_run ops w) 2).
Proof.
  exists [OSync 0 ex_all; OSync 0 ex_all; OSync 1 ex_all; OSync 1 ex_all; OSync 2 ex_all; OSync 2 ex_all], ex_world.
  split.
  - intros i [<-|[<-|[<-|[]]]]; cbn; repeat constructor.
  - destruct ex_sync_twice_any_order as [A B]. rewrite A, B. discriminate.
Qed.
Print Assumptions C17_sync_twice_any_order_refuted.

(** Two rounds (each installation once per round, rounds in different orders) do make the
    three installations of the example agree on every key and commit magnitude. *)
Theorem C17_sync_two_rounds_example :
  let w := ex_run [OSync 0 ex_all; OSync 1 ex_all; OSync 2 ex_all; OSync 2 ex_all; OSync 0 ex_all; OSync 1 ex_all] ex_world in
  mags erased_ops (get_db w 0) = [(ex_k1, 5%Z); (ex_k2, 1%Z); (ex_k3, 1%Z)] /\
  mags erased_ops (get_db w 1) = mags erased_ops (get_db w 0) /\ mags erased_ops (get_db w 2) = mags erased_ops (get_db w 0).
Proof. exact ex_sync_two_rounds. Qed.
Print Assumptions C17_sync_two_rounds_example.

(** Signs need not converge: with |ours| = |theirs| and opposite signs each side keeps its
    own sign through any number of rounds (here three), while the magnitudes agree. *)
Theorem C17_sync_sign_tie_example :
  let w := ex_run [OSync 0 [0; 1]%nat; OSync 1 [0; 1]%nat; OSync 0 [0; 1]%nat; OSync 1 [0; 1]%nat; OSync 0 [0; 1]%nat; OSync 1 [0; 1]%nat]
                  ex_world_tie in
  map (fun e => snd (fst e)) (dump erased_ops (get_db w 0)) = [3%Z] /\
  map (fun e => snd (fst e)) (dump erased_ops (get_db w 1)) = [(-3)%Z] /\
  mags erased_ops (get_db w 0) = mags erased_ops (get_db w 1).
Proof. exact ex_sync_sign_tie. Qed.
Print Assumptions C17_sync_sign_tie_example.

(** Convergence for any number N of installations: start from good dictionaries (well-formed,
    userdb metadata, own user id) and no published snapshot; run two rounds of Synchronize,
    where in each round every installation synchronises at least once (any order, any
    repetitions) and the sync directory lists every installation.  Afterwards all
    installations have the same keys, each with the same commit magnitude ([mg] is |commits|,
    -1 for an absent key).  Signs are not claimed (C17_sync_sign_tie_example).  Needs a
    printed double to contain no isspace byte (so that merged values stay snapshot-safe). *)
Theorem C17_sync_two_rounds_converge : forall O,
  (forall d, Forall (fun b => is_space b = false) (d_print O d) /\ d_parse O (d_print O d) <> None) ->
  forall inits g ver N w p q,
  length (w_dbs w) = N -> w_snaps w = repeat None N ->
  (forall i, i < N -> good i (get_db w i)) ->
  orders_ok N p -> orders_ok N q -> covers N p -> covers N q ->
  let w' := run O inits g ver (sync_ops p ++ sync_ops q) w in
  forall i i' k, i < N -> i' < N -> mg O (get_db w' i) k = mg O (get_db w' i') k.
Proof. exact sync_two_rounds_converge. Qed.
Print Assumptions C17_sync_two_rounds_converge.

(** Not vacuous: the three-installation example world and its two rounds meet every hypothesis
    (the computed outcome is C17_sync_two_rounds_example). *)
Theorem C17_sync_convergence_hypotheses_example :
  (forall d : D erased_ops, Forall (fun b => is_space b = false) (d_print erased_ops d) /\ d_parse erased_ops (d_print erased_ops d) <> None) /\
  length (w_dbs ex_world) = 3 /\ w_snaps ex_world = repeat None 3 /\
  (forall i, i < 3 -> good i (get_db ex_world i)) /\
  orders_ok 3 ex_round1 /\ orders_ok 3 ex_round2 /\ covers 3 ex_round1 /\ covers 3 ex_round2.
Proof.
  split; [exact erased_print_clean|]. split; [reflexivity|]. split; [reflexivity|]. split; [exact ex_world_good|]. exact ex_rounds_ok.
Qed.
Print Assumptions C17_sync_convergence_hypotheses_example.
