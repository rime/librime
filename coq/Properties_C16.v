(** C16 – sessions are isolated from one another and replay deterministically.
    Property theorems only.  The service model is generic in the per-session
    engine (any [sess], [sstep], …), so every theorem below holds in particular
    for the engine model of coq/Eng. *)
From Coq Require Import List NArith Bool String.
From RimeV Require Import Svc.SvcModel Svc.SvcProofs Svc.ApiShape Svc.Toy Gen.SessionApi.
Import ListNotations.

(** Every API function that takes a session id reaches the session only through
    the guard `GetSession(id)` / `if (!session) return` (or is find/destroy, or
    forwards to such a function): sweep over the list regenerated from the
    clang AST of the current src/rime_api.cc. *)
Theorem C16_api_functions_guarded : forallb (fn_ok session_fns) session_fns = true.
Proof. vm_compute. reflexivity. Qed.
Print Assumptions C16_api_functions_guarded.

Theorem C16_api_functions_present : 20 <= count_guarded session_fns.
Proof. vm_compute. repeat constructor. Qed.
Print Assumptions C16_api_functions_present.

(** A call that does not name session [j] changes no component of it. *)
Theorem C16_frame :
  forall (sess op obs pers : Type) snew sstep pstep rejected (s : svc sess pers) (c : call op) j,
  mentions op j c = false ->
  lookup sess j (live _ _ (fst (step sess op obs pers snew sstep pstep rejected s c))) = lookup sess j (live _ _ s).
Proof. exact frame. Qed.
Print Assumptions C16_frame.

(** For any interleaving with calls of other sessions (their creation and
    destruction included), what session [i] observes and the state it ends in
    are those of its solo run. *)
Theorem C16_interleave_invariance :
  forall (sess op obs pers : Type) snew sstep pstep rejected (h : list (call op)) (s : svc sess pers) i x st,
  lookup sess i (live _ _ s) = Some (x, st) -> quiet_for op i h = true ->
  obs_on op obs i (snd (run sess op obs pers snew sstep pstep rejected s h))
    = snd (solo sess op obs sstep x (calls_on op i h)) /\
  option_map fst (lookup sess i (live _ _ (fst (run sess op obs pers snew sstep pstep rejected s h))))
    = Some (fst (solo sess op obs sstep x (calls_on op i h))).
Proof. exact interleave_invariance. Qed.
Print Assumptions C16_interleave_invariance.

(** From its creation on, a session's observations are a function of its own
    calls and the settings persisted when it was created. *)
Theorem C16_created_session_is_solo :
  forall (sess op obs pers : Type) snew sstep pstep rejected (s : svc sess pers) h1 i h2,
  quiet_for op i h2 = true ->
  let s1 := fst (run sess op obs pers snew sstep pstep rejected s h1) in
  let s2 := fst (step sess op obs pers snew sstep pstep rejected s1 (Create i)) in
  obs_on op obs i (snd (run sess op obs pers snew sstep pstep rejected s2 h2))
    = snd (solo sess op obs sstep (snew (settings _ _ s1)) (calls_on op i h2)).
Proof. exact created_session_is_solo. Qed.
Print Assumptions C16_created_session_is_solo.

(** An id that names no live session is rejected by every call, find and
    destroy, until it is issued again. *)
Theorem C16_dead_id_rejected :
  forall (sess op obs pers : Type) snew sstep pstep rejected (h : list (call op)) (s : svc sess pers) i,
  lookup sess i (live _ _ s) = None -> never_created op i h = true ->
  Forall (rejected_entry op obs rejected i) (snd (run sess op obs pers snew sstep pstep rejected s h)) /\
  lookup sess i (live _ _ (fst (run sess op obs pers snew sstep pstep rejected s h))) = None.
Proof. exact dead_id_rejected. Qed.
Print Assumptions C16_dead_id_rejected.

(** Ids of live sessions are pairwise distinct in every reachable state. *)
Theorem C16_ids_distinct :
  forall (sess op obs pers : Type) snew sstep pstep rejected (h : list (call op)) (s : svc sess pers),
  NoDup (keys sess (live _ _ s)) ->
  NoDup (keys sess (live _ _ (fst (run sess op obs pers snew sstep pstep rejected s h)))).
Proof. exact ids_distinct. Qed.
Print Assumptions C16_ids_distinct.

(** The stale sweep removes exactly the sessions idle for more than the life
    span (their ids are then rejected by [C16_dead_id_rejected]); a session that
    accepted a call within the last life span survives it. *)
Theorem C16_stale_swept :
  forall (sess op obs pers : Type) snew sstep pstep rejected (s : svc sess pers) i e,
  NoDup (keys sess (live _ _ s)) -> lookup sess i (live _ _ s) = Some e ->
  lookup sess i (live _ _ (fst (step sess op obs pers snew sstep pstep rejected s CleanupStale)))
    = (if stale sess (now _ _ s) e then None else Some e).
Proof. exact stale_swept. Qed.
Print Assumptions C16_stale_swept.

Theorem C16_active_session_survives :
  forall (sess op obs pers : Type) snew sstep pstep rejected (s : svc sess pers) i o d,
  NoDup (keys sess (live _ _ s)) -> lookup sess i (live _ _ s) <> None -> (d <= life_span)%N ->
  let s1 := fst (step sess op obs pers snew sstep pstep rejected s (Call i o)) in
  let s2 := fst (step sess op obs pers snew sstep pstep rejected s1 (Advance d)) in
  lookup sess i (live _ _ (fst (step sess op obs pers snew sstep pstep rejected s2 CleanupStale))) <> None.
Proof. exact active_session_survives. Qed.
Print Assumptions C16_active_session_survives.

(** Non-vacuity: two interleaved sessions, one destroyed and used afterwards; a stale sweep. *)
Example C16_example :
  let h := [Create 1; Call 1 5; Create 2; Call 2 7; Call 1 1; Destroy 2; Call 2 3; Call 1 2; Find 2]%N in
  quiet_for toy_op 1%N (tl h) = true /\
  obs_on toy_op toy_obs 1%N (toy_run h) = [(true, 5); (true, 6); (true, 8)]%N /\
  obs_on toy_op toy_obs 2%N (toy_run h) = [(true, 7); (false, 0)]%N.
Proof. vm_compute. repeat split. Qed.

Example C16_example_stale :
  let h := [Create 1; Create 2; Advance 200; Call 2 1; Advance 200; CleanupStale; Call 1 1; Call 2 1]%N in
  obs_on toy_op toy_obs 1%N (toy_run h) = [(false, 0)]%N /\
  obs_on toy_op toy_obs 2%N (toy_run h) = [(true, 1); (true, 2)]%N.
Proof. vm_compute. repeat split. Qed.

(** The instance for the session-engine model.
    coq/Svc/EngInstance.v instantiates the service layer with sess := the Eng
    session state, op/obs := the session functions of the C API and what they
    let a client read ([Live] observation of a live session / [Dead] return value
    on an id without session), for any configuration and any translator.  For
    ANY interleaving with calls, creations and destructions of other sessions,
    session [i] observes exactly the transcript of its own calls run alone
    ([Eng.Api.run_from] from its state) and ends in the same state; a call that
    does not name a session leaves it untouched; a dead id is rejected. *)
From RimeV Require Svc.EngInstance Eng.Api Eng.Engine.

Theorem C16_eng_sessions_isolated :
  forall cfg translate (h : list (call RimeV.Eng.Api.op)) (s : RimeV.Svc.EngInstance.eng_svc) i x st,
  lookup _ i (live _ _ s) = Some (x, st) -> quiet_for _ i h = true ->
  obs_on _ _ i (snd (RimeV.Svc.EngInstance.eng_run cfg translate s h))
    = List.map RimeV.Svc.EngInstance.Live (snd (RimeV.Eng.Api.run_from cfg translate x (calls_on _ i h))) /\
  option_map fst (lookup _ i (live _ _ (fst (RimeV.Svc.EngInstance.eng_run cfg translate s h))))
    = Some (fst (RimeV.Eng.Api.run_from cfg translate x (calls_on _ i h))).
Proof. exact RimeV.Svc.EngInstance.eng_sessions_isolated. Qed.
Print Assumptions C16_eng_sessions_isolated.

Theorem C16_eng_frame :
  forall cfg translate (s : RimeV.Svc.EngInstance.eng_svc) (c : call RimeV.Eng.Api.op) j,
  mentions _ j c = false ->
  lookup _ j (live _ _ (fst (RimeV.Svc.EngInstance.eng_step cfg translate s c))) = lookup _ j (live _ _ s).
Proof. exact RimeV.Svc.EngInstance.eng_frame. Qed.
Print Assumptions C16_eng_frame.

Theorem C16_eng_dead_id_rejected :
  forall cfg translate (h : list (call RimeV.Eng.Api.op)) (s : RimeV.Svc.EngInstance.eng_svc) i,
  lookup _ i (live _ _ s) = None -> never_created _ i h = true ->
  Forall (rejected_entry _ _ RimeV.Svc.EngInstance.eng_rejected i) (snd (RimeV.Svc.EngInstance.eng_run cfg translate s h)) /\
  lookup _ i (live _ _ (fst (RimeV.Svc.EngInstance.eng_run cfg translate s h))) = None.
Proof. exact RimeV.Svc.EngInstance.eng_dead_id_rejected. Qed.
Print Assumptions C16_eng_dead_id_rejected.
