(** C03 – what is committed is what was shown, and it is delivered exactly
    once.  Property theorems only; each closed by a lemma proved elsewhere. *)
From Coq Require Import List ZArith NArith Bool Lia.
From Coq.Strings Require Import Byte.
From RimeV Require Import Base.Bytes Eng.Keys Eng.Cand Eng.Segm Eng.Ctx Eng.Engine Eng.Procs Eng.Api Eng.Oracle
     Eng.Spec Eng.WfProofs Eng.CommitProofs Eng.TotalFull Eng.TotalProofs Eng.ShapeFacts.
Import ListNotations.

(** (1) With full-shape conversion off, in ANY state (any configuration, any
    translator), commit_composition appends exactly the commit preview that
    get_context reported immediately before, leaves the session not
    composing, and returns whether there is text to fetch. *)
Theorem C03_commit_is_preview :
  forall cfg translate (s : state),
    get_option (st_ctx s) opt_full_shape = false ->
    let v := fst (view_of cfg s) in
    let r := exec cfg translate s OpCommit in
    st_commit (fst r) = st_commit s ++ v_preview v /\
    is_composing (st_ctx (fst r)) = false /\
    snd r = RBool (negb (match st_commit (fst r) with [] => true | _ => false end)).
Proof. exact commit_is_preview. Qed.
Print Assumptions C03_commit_is_preview.

(** (1') The same call with full-shape conversion on or off (the property's clause is the off case; this is what the
    code does outside it, so that the check can tell a change of the formatter from a change of the commit path):
    what is delivered is ShapeFormatter::Format of the preview reported just before ... *)
Theorem C03_commit_is_formatted_preview :
  forall cfg translate (s : state),
    let v := fst (view_of cfg s) in
    let r := exec cfg translate s OpCommit in
    st_commit (fst r) = st_commit s ++ (if is_composing (st_ctx s) then format_text (st_ctx s) (v_preview v) else []) /\
    is_composing (st_ctx (fst r)) = false.
Proof. exact commit_any_shape. Qed.
Print Assumptions C03_commit_is_formatted_preview.

(** ... and the formatter touches printable ASCII only: a text without a byte in 0x20 .. 0x7e - every candidate text of
    a Chinese dictionary - is delivered exactly as previewed whatever the option says; otherwise each such byte grows
    by two (its three-byte full-width form) and nothing else changes length. *)
Theorem C03_formatter_keeps_non_ascii :
  forall c t, forallb shape_outside t = true -> format_text c t = t.
Proof. exact format_text_no_ascii. Qed.
Print Assumptions C03_formatter_keeps_non_ascii.

Theorem C03_formatter_length :
  forall c t,
    length (format_text c t) = length t \/
    (get_option c opt_full_shape = true /\
     length (format_text c t) = length t + 2 * length (filter (fun b => negb (shape_outside b)) t)).
Proof. exact format_text_length. Qed.
Print Assumptions C03_formatter_length.

(** ... and the formatter of the model is the one in src/rime/gear/shape.cc today: the statements of
    ShapeFormatter::Format as gen/eng_facts.py reads them on every run (Gen/EngFacts.v), evaluated on a signed char,
    agree with the model on all 256 byte values (so "full-shape off" in (1) is the only way the preview is kept for
    ASCII, and a change of the formatter's constants breaks this statement before any history is run). *)
Theorem C03_formatter_is_the_source_s :
  RimeV.Gen.EngFacts.shape_facts_recognised = true /\
  forall b, shape_outside b = src_outside b /\ shape_wide b = src_wide b.
Proof. exact shape_model_is_source. Qed.
Print Assumptions C03_formatter_is_the_source_s.

(** (2) Selecting a candidate [cd] (any index [i] at which the current segment
    [g] has one) that covers the rest of the input – after Segment::Close the
    segment ends at min (cd.end, g.end) = |input| – makes the text to commit
    the text of the earlier segments ([comp_confirmed_text]) followed by the
    candidate's text: an auto-committing editor ([_auto_commit], the express
    editor) delivers it at once and stops composing; otherwise it is the new
    commit preview (which (1) says commit_composition will deliver).
    Outside the switcher ([dumb] off), full_shape off. *)
Theorem C03_select_covering_rest :
  forall cfg translate (s : state) g r (i : N) cd,
    sg_segs (cx_comp (st_ctx s)) = g :: r ->
    cand_at g i = Some cd ->
    covers_rest (st_ctx s) g cd ->
    length (sg_input (cx_comp (st_ctx s))) <= length (cx_input (st_ctx s)) ->
    get_option (st_ctx s) opt_dumb = false ->
    get_option (st_ctx s) opt_full_shape = false ->
    let confirmed := comp_confirmed_text (cx_comp (st_ctx s)) in
    let s' := fst (select cfg translate s i) in
    snd (select cfg translate s i) = true /\
    if get_option (st_ctx s) opt_auto_commit
    then st_commit s' = st_commit s ++ confirmed ++ c_text cd /\ is_composing (st_ctx s') = false
    else st_commit s' = st_commit s /\ fst (ctx_commit_text (st_ctx s')) = confirmed ++ c_text cd
         /\ is_composing (st_ctx s') = true.
Proof. exact select_covering_rest. Qed.
Print Assumptions C03_select_covering_rest.

(** … and the side condition of (2) on the state holds in every state reachable
    by API calls (an invariant of C02's proof; same hypotheses). *)
Theorem C03_reachable_states_meet_side_condition :
  forall cfg translate,
    (1 <= cf_page_size cfg)%Z ->
    (forall i s, (Z.of_nat (length (translate i s)) + cf_page_size cfg < 2147483648)%Z) ->
    cf_del_checked cfg = true ->
    forall ops, let c := st_ctx (fst (run cfg translate ops)) in
                length (sg_input (cx_comp c)) <= length (cx_input c) /\ cx_caret c <= length (cx_input c).
Proof. exact reachable_comp_input_le. Qed.
Print Assumptions C03_reachable_states_meet_side_condition.

(** (3a) Every API operation other than get_commit only APPENDS to the text
    waiting for the client: nothing committed earlier is lost, changed or
    reordered by later calls. *)
Theorem C03_only_get_commit_consumes :
  forall cfg translate s o, o <> OpGetCommit ->
    exists d, st_commit (fst (step cfg translate s o)) = st_commit s ++ d.
Proof. exact step_appends. Qed.
Print Assumptions C03_only_get_commit_consumes.

(** (3b) Exactly once, in order: over ANY history of API operations (no
    operation having reached an undefined C++ operation), the concatenation of
    everything get_commit returned, plus the text still waiting, is the
    concatenation of what the operations delivered, in order. *)
Theorem C03_exactly_once :
  forall cfg translate ops,
    forallb not_crash (snd (run cfg translate ops)) = true ->
    concat (map read_of (snd (run cfg translate ops))) ++ st_commit (fst (run cfg translate ops))
    = concat (deliveries cfg translate (init_state cfg) ops).
Proof. exact exactly_once. Qed.
Print Assumptions C03_exactly_once.

(** (3c) get_commit returns the whole waiting text and empties the buffer; an
    immediate second read returns nothing. *)
Theorem C03_read_takes_all :
  forall cfg translate s,
    not_crash (snd (step cfg translate s OpGetCommit)) = true ->
    read_of (snd (step cfg translate s OpGetCommit)) = st_commit s /\
    st_commit (fst (step cfg translate s OpGetCommit)) = [] /\
    (exists v, snd (step cfg translate s OpGetCommit)
               = Obs (RCommit (match st_commit s with [] => None | t => Some t end)) v).
Proof. exact get_commit_step. Qed.
Print Assumptions C03_read_takes_all.

Theorem C03_second_read_empty :
  forall cfg translate s,
    let r1 := step cfg translate s OpGetCommit in
    let r2 := step cfg translate (fst r1) OpGetCommit in
    not_crash (snd r1) = true -> not_crash (snd r2) = true ->
    read_of (snd r2) = [] /\ exists v, snd r2 = Obs (RCommit None) v.
Proof. exact second_read_empty. Qed.
Print Assumptions C03_second_read_empty.

(** (3b', 3c') The no-crash hypothesis of (3b)/(3c) discharged by C01's totality
    theorem (Eng/TotalFull.v): for translators whose candidates lie inside their
    segment ([cands_fit], true of the oracle translator) no history reaches an
    undefined operation, so exactly-once holds for ALL histories, and the two
    read theorems hold in every reachable state.  ([plain_chain] = the chains
    C01_core_total covers, see Properties_C01.v; the theorems (1), (2), (3a)-(3c) above hold
    for EVERY chain of the model, punctuator chains included.) *)
Theorem C03_exactly_once_total :
  forall cfg translate, total_hyps cfg translate -> plain_chain cfg -> cands_fit translate ->
  forall ops,
    concat (map read_of (snd (run cfg translate ops))) ++ st_commit (fst (run cfg translate ops))
    = concat (deliveries cfg translate (init_state cfg) ops).
Proof. exact exactly_once_total. Qed.
Print Assumptions C03_exactly_once_total.

Theorem C03_read_takes_all_total :
  forall cfg translate, total_hyps cfg translate -> plain_chain cfg -> cands_fit translate ->
  forall ops, let s := fst (run cfg translate ops) in
    read_of (snd (step cfg translate s OpGetCommit)) = st_commit s /\
    st_commit (fst (step cfg translate s OpGetCommit)) = [] /\
    (exists v, snd (step cfg translate s OpGetCommit)
               = Obs (RCommit (match st_commit s with [] => None | t => Some t end)) v).
Proof. exact read_takes_all_total. Qed.
Print Assumptions C03_read_takes_all_total.

Theorem C03_second_read_empty_total :
  forall cfg translate, total_hyps cfg translate -> plain_chain cfg -> cands_fit translate ->
  forall ops, let s := fst (run cfg translate ops) in
    let r1 := step cfg translate s OpGetCommit in
    let r2 := step cfg translate (fst r1) OpGetCommit in
    read_of (snd r2) = [] /\ exists v, snd r2 = Obs (RCommit None) v.
Proof. exact second_read_empty_total. Qed.
Print Assumptions C03_second_read_empty_total.

(** … and the synthetic schemas meet the hypotheses of the three theorems above *)
Theorem C03_synth_meets_total_hyps :
  forall fluid dlog, total_hyps (synth_cfg fluid dlog) oracle_translate /\ cands_fit oracle_translate.
Proof.
  intros fluid dlog. split; [|exact oracle_cands_fit].
  split; [cbn; lia|]. split; [|reflexivity]. intros i s. pose proof (InvProofs.oracle_translate_length i s). cbn. lia.
Qed.
Print Assumptions C03_synth_meets_total_hyps.

(** Non-vacuity on the synthetic schemas: a partial selection followed by a
    selection that covers the rest.  express: delivered at once as
    confirmed ++ candidate text; fluid: becomes the preview, commit_composition
    delivers it; reads return it once. *)
Definition c03_ops : list op :=
  [OpKey 97 0; OpKey 98 0; OpKey 99 0; OpKey 100 0; OpSelect 8; OpGetContext; OpSelect 1; OpGetCommit; OpGetCommit;
   OpCommit; OpGetCommit; OpGetCommit].
Definition c03_summary (o : obs) :=
  match o with
  | Obs r v => Some (r, v_commit v, v_preview v, v_confirmed v, v_composing v)
  | ObsCrash _ => None
  end.
Theorem C03_example_express :
  let obs := map c03_summary (snd (run (synth_cfg false true) oracle_translate c03_ops)) in
  forallb (fun x => match x with Some _ => true | None => false end) obs = true /\
  (* after the partial selection the earlier segment's text is confirmed and shown in the preview *)
  (exists t p, nth 5 obs None = Some (RNone, [], p, t, true) /\ t <> [] /\ firstn (length t) p = t) /\
  (* the covering selection delivers confirmed ++ candidate text at once; two reads: all, then nothing *)
  (exists t, nth 6 obs None = Some (RBool true, t, [], [], false) /\ t <> [] /\
             nth 7 obs None = Some (RCommit (Some t), [], [], [], false) /\
             nth 8 obs None = Some (RCommit None, [], [], [], false)).
Proof.
  cbv zeta. split; [vm_compute; reflexivity|]. split.
  - eexists. eexists. split; [vm_compute; reflexivity|]. split; [discriminate | vm_compute; reflexivity].
  - eexists. split; [vm_compute; reflexivity|]. split; [discriminate|]. split; vm_compute; reflexivity.
Qed.
Print Assumptions C03_example_express.

Theorem C03_example_fluid :
  let obs := map c03_summary (snd (run (synth_cfg true true) oracle_translate c03_ops)) in
  forallb (fun x => match x with Some _ => true | None => false end) obs = true /\
  (* the covering selection only changes the preview; commit_composition delivers exactly it; read once *)
  (exists p, nth 6 obs None = Some (RBool true, [], p, p, true) /\ p <> [] /\
             nth 9 obs None = Some (RBool true, p, [], [], false) /\
             nth 10 obs None = Some (RCommit (Some p), [], [], [], false) /\
             nth 11 obs None = Some (RCommit None, [], [], [], false)).
Proof.
  cbv zeta. split; [vm_compute; reflexivity|].
  eexists. split; [vm_compute; reflexivity|]. split; [discriminate|]. repeat split; vm_compute; reflexivity.
Qed.
Print Assumptions C03_example_fluid.

(** Non-vacuity of (1'): with full_shape on, a preview holding the ASCII letter G (0x47) is delivered with U+FF27
    (ef bc a7) in its place - the history shape on which a check that ignored the option raised a false alarm - while a
    preview of candidate text only is delivered unchanged. *)
Theorem C03_example_full_shape :
  let run1 ops := map c03_summary (snd (run (synth_cfg true true) oracle_translate ops)) in
  (exists a b cf, nth 2 (run1 [OpSetOption opt_full_shape true; OpSetInput [x71; x20; x7e]; OpGetContext; OpCommit]) None
               = Some (RNone, [], a ++ [x47] ++ b, cf, true) /\
               nth 3 (run1 [OpSetOption opt_full_shape true; OpSetInput [x71; x20; x7e]; OpGetContext; OpCommit]) None
               = Some (RBool true, a ++ [xef; xbc; xa7] ++ b, [], [], false)) /\
  (exists p cf, p <> [] /\
             nth 3 (run1 [OpSetOption opt_full_shape true; OpKey 97 0; OpKey 98 0; OpGetContext; OpCommit]) None
             = Some (RNone, [], p, cf, true) /\
             nth 4 (run1 [OpSetOption opt_full_shape true; OpKey 97 0; OpKey 98 0; OpGetContext; OpCommit]) None
             = Some (RBool true, p, [], [], false)).
Proof.
  cbv zeta. split.
  - exists [xc3; xb1]. exists [xe4; xb9; xbe]. eexists. split; vm_compute; reflexivity.
  - eexists. eexists. split; [|split; vm_compute; reflexivity]. discriminate.
Qed.
Print Assumptions C03_example_full_shape.
