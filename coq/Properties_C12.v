(** C12 - redeploying yields what a clean deploy of the current sources yields.
    Property theorems only; each closed by [exact] of a lemma of Dep/StaleProofs.v.
    Hypotheses are those of that file's Section, by name: [crc_inj]/[cyid_inj]
    (H_crc: the checksums are injective), [coherent]/[nonzero] (H_mtime: edits
    change modification times; an absent file is time 0) and [deps_closed] (what
    the config compiler loads is determined by what it has loaded). *)
From Coq Require Import List NArith Bool.
From RimeV Require Import Dep.Stale Dep.StaleProofs.
Import ListNotations.
Local Open Scope N_scope.

(** after any history of source states (edits), each followed by a deployment,
    starting from any previously deployed (invariant) build directory, a
    deployment of the final sources contains every artefact of a clean
    deployment of those sources, identically (stored checksums, timestamps and
    what it was built from), and succeeds iff the clean one does *)
Theorem C12_deploy_reaches_clean :
  forall crc cyid list_of info_of dinfo_of deps_fn, crc_inj crc -> cyid_inj cyid ->
  forall Hist, coherent Hist -> nonzero Hist -> deps_closed deps_fn Hist ->
  forall hs a s,
  (forall s', In s' hs -> In s' Hist /\ wf_srcs list_of info_of deps_fn s') ->
  In s Hist -> wf_srcs list_of info_of deps_fn s -> Inv crc cyid deps_fn Hist a ->
  sub (fst (fst (deploy crc cyid list_of info_of dinfo_of deps_fn s [])))
      (fst (fst (deploy crc cyid list_of info_of dinfo_of deps_fn s (run_hist crc cyid list_of info_of dinfo_of deps_fn hs a)))) /\
  snd (deploy crc cyid list_of info_of dinfo_of deps_fn s (run_hist crc cyid list_of info_of dinfo_of deps_fn hs a))
  = snd (deploy crc cyid list_of info_of dinfo_of deps_fn s []).
Proof. exact deploy_reaches_clean. Qed.
Print Assumptions C12_deploy_reaches_clean.

(** the invariant behind it is preserved by every deployment and holds of the
    empty build directory *)
Theorem C12_invariant_preserved :
  forall crc cyid list_of info_of dinfo_of deps_fn, crc_inj crc -> cyid_inj cyid ->
  forall Hist, coherent Hist -> nonzero Hist -> deps_closed deps_fn Hist ->
  forall s a, In s Hist -> wf_srcs list_of info_of deps_fn s -> Inv crc cyid deps_fn Hist a ->
  Inv crc cyid deps_fn Hist (fst (fst (deploy crc cyid list_of info_of dinfo_of deps_fn s a))).
Proof. exact deploy_inv. Qed.
Print Assumptions C12_invariant_preserved.

Theorem C12_invariant_initial : forall crc cyid deps_fn Hist, Inv crc cyid deps_fn Hist [].
Proof. exact Inv_nil. Qed.
Print Assumptions C12_invariant_initial.

(** an edit to a schema or to its dictionary never leaves a stale artefact of
    that schema: right after the schema's update its compiled config, table,
    reverse db and prism are built from the current sources *)
Theorem C12_edited_schema_never_stale :
  forall crc cyid info_of dinfo_of deps_fn, crc_inj crc -> cyid_inj cyid ->
  forall Hist, coherent Hist -> nonzero Hist -> deps_closed deps_fn Hist ->
  forall s x dep a v d vd fl,
  In s Hist -> Inv crc cyid deps_fn Hist a -> lookup s (FRes (RSchema x)) = Some v ->
  let cy := build_config deps_fn s (Some x) in
  let info := info_of (cy_from cy) in
  si_dict info = Some d -> lookup s (FDict d) = Some vd ->
  cids_of s (tables_of d (dinfo_of (fv_cid vd))) = Some fl ->
  let files := fl ++ vocab_cids s (dinfo_of (fv_cid vd)) in
  let nt := {| t_ck := crc_files crc 0 files; t_files := files |} in
  let p := match si_prism info with Some p => p | None => d end in
  let a' := fst (fst (schema_update crc cyid info_of dinfo_of deps_fn s x dep a)) in
  get_cy a' (KCy (Some x)) = Some cy /\
  get_tab a' (KRev d) = Some nt /\
  get_prism a' (KPrism p) = Some {| p_dck := crc_files crc 0 files; p_sck := cyid cy; p_tab := nt; p_cy := cy |} /\
  (~ In d (si_packs info) -> get_tab a' (KTab d) = Some nt).
Proof. exact edited_schema_never_stale. Qed.
Print Assumptions C12_edited_schema_never_stale.

(** a deployment with no source change, per artefact: every freshly built artefact
    is judged up to date and nothing is written (the workspace-level statement
    follows below) *)
Theorem C12_noop_deploy_rewrites_nothing_partial :
  forall crc cyid deps_fn Hist s t d p cy files X,
  In s Hist -> files <> [] ->
  let dck := crc_files crc 0 files in
  let nt := {| t_ck := dck; t_files := files |} in
  needs_update s (Some (build_config deps_fn s t)) = false /\
  (get_tab X (KTab d) = Some nt -> get_tab X (KRev d) = Some nt ->
   get_prism X (KPrism p) = Some {| p_dck := dck; p_sck := cyid cy; p_tab := nt; p_cy := cy |} ->
   rb_t_of crc d files X = false /\ rb_p_of crc cyid p cy files X = false /\ core_nf crc cyid d p cy files X = X) /\
  (forall q i, get_tab X (KTab q) = Some {| t_ck := crc_files crc i files; t_files := files |} ->
               stale_ck (get_tab X (KTab q)) (crc_files crc i files) = false).
Proof. exact noop_deploy_rewrites_nothing_partial. Qed.
Print Assumptions C12_noop_deploy_rewrites_nothing_partial.

(** workspace level: under the explicit hypothesis [no_shared_outputs] (no two
    schema updates write different artefacts under one name: no two schemas share
    a prism name with different compiled configs, a pack table belongs to one
    dictionary), the second of two deployments of unchanged sources - from any
    previously deployed state - returns the very same build directory and logs
    no rebuild *)
Theorem C12_noop_deploy_rewrites_nothing :
  forall crc cyid list_of info_of dinfo_of deps_fn, crc_inj crc -> cyid_inj cyid ->
  forall Hist, coherent Hist -> nonzero Hist -> deps_closed deps_fn Hist ->
  forall s a, In s Hist -> wf_srcs list_of info_of deps_fn s ->
  no_shared_outputs crc cyid info_of dinfo_of deps_fn s -> Inv crc cyid deps_fn Hist a ->
  let a1 := fst (fst (deploy crc cyid list_of info_of dinfo_of deps_fn s a)) in
  exists l ok, deploy crc cyid list_of info_of dinfo_of deps_fn s a1 = (a1, l, ok) /\ norebuild l.
Proof. exact noop_second_deploy. Qed.
Print Assumptions C12_noop_deploy_rewrites_nothing.

(** the reason for the hypothesis: the shared-prism workspace violates it (and
    there every deployment rebuilds the prism, C12_noop_shared_prism_witness) *)
Theorem C12_shared_prism_violates_hypothesis :
  ~ no_shared_outputs demo_crc demo_cyid demo_info_of demo_dinfo_of demo_deps demo_srcs.
Proof. exact shared_prism_violates_hypothesis. Qed.
Print Assumptions C12_shared_prism_violates_hypothesis.

(** a workspace that meets [wf_srcs] deploys, and the two observations the model
    yields (both judged hypotheses, not findings; replayed on the real code by
    the check) *)
Theorem C12_nonvacuous :
  wf_srcs demo_list_of demo_info_of demo_deps demo_srcs /\ snd (demo_deploy demo_srcs []) = true.
Proof. exact (conj wf_demo (proj1 deploy_demo_runs)). Qed.
Print Assumptions C12_nonvacuous.

Theorem C12_noop_shared_prism_witness :
  let a1 := fst (fst (demo_deploy demo_srcs [])) in
  existsb rebuilt_entry (snd (fst (demo_deploy demo_srcs a1))) = true.
Proof. exact noop_shared_prism_witness. Qed.
Print Assumptions C12_noop_shared_prism_witness.

Theorem C12_delete_dict_keeps_table_witness :
  let a1 := fst (fst (demo_deploy demo_srcs [])) in
  let s2 := firstn 3 demo_srcs in
  get_tab (fst (fst (demo_deploy s2 a1))) (KTab 10) = get_tab a1 (KTab 10) /\
  get_tab a1 (KTab 10) <> None /\
  get_tab (fst (fst (demo_deploy s2 []))) (KTab 10) = None.
Proof. exact delete_dict_keeps_table_witness. Qed.
Print Assumptions C12_delete_dict_keeps_table_witness.
