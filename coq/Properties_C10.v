(** C10 – what the user commits is learned, ranked no worse next time, can be
    forgotten.  Property theorems only; each closed by [exact] of a lemma proved
    in UdbL/.  The model is the one of C11 (UdbL/Txn.v, Learn.v): a
    commit is the list of UpdateEntry calls [commit_calls kind segs ce_empty]
    that Memory::OnCommit and the translator's Memorize issue, every call
    reading the dictionary as it was *before* the commit. *)
From Coq Require Import List NArith ZArith Bool Reals.
From RimeV Require Import Base.Bytes UdbL.Txn UdbL.TxnProofs UdbL.Learn UdbL.CommitProofs
  UdbL.Rank UdbL.RankProofs UdbL.DynamicsR UdbL.Examples.
Import ListNotations.
Local Open Scope Z_scope.

(** Each commit raises the stored count of exactly the committed entries, alters
    no entry of another code, and the tick grows by the number of counted
    updates: for the calls of one commit, the last call targeting a key decides
    its count from the count held before the commit ([new_commits old 1 =
    |old| + 1], [new_commits old 0 = old]); untouched keys keep their value. *)
Theorem C10_commit_counts_exactly :
  forall d tick calls,
  let ws := fst (calls_writes d tick calls) in
  let tick' := snd (calls_writes d tick calls) in
  (forall calls1 e c calls2 k,
     calls = calls1 ++ (e, c) :: calls2 -> entry_key e = Some k ->
     (forall ec, In ec calls2 -> entry_key (fst ec) <> Some k) ->
     exists t, get (apply_batch ws d) k = Some (VEnt (new_commits (old_commits (get d k)) c) t) /\
               (tick <= t <= tick')%N) /\
  (forall k, (forall ec, In ec calls -> entry_key (fst ec) <> Some k) -> k <> tick_key ->
     get (apply_batch ws d) k = get d k) /\
  tick' = (tick + N.of_nat (n_counted calls))%N.
Proof. exact commit_counts_exactly. Qed.
Print Assumptions C10_commit_counts_exactly.

Theorem C10_counted_is_abs_plus_one : forall old, new_commits old 1 = Z.abs old + 1.
Proof. exact counted_once_is_abs_plus_one. Qed.
Print Assumptions C10_counted_is_abs_plus_one.

Theorem C10_touched_keeps_count : forall old, new_commits old 0 = old.
Proof. exact touched_keeps_count. Qed.
Print Assumptions C10_touched_keeps_count.

(** the script translator counts the whole phrase once (last call) and only
    touches its elements; the table translator counts every element *)
Theorem C10_script_counts_whole_phrase :
  forall ce, exists pre, memorize_calls KScript ce = pre ++ [(ce_entry ce, 1)] /\
                         forall ec, In ec pre -> snd ec = 0.
Proof. exact memorize_script_last. Qed.
Print Assumptions C10_script_counts_whole_phrase.

Theorem C10_table_counts_elements :
  forall ce ec, In ec (memorize_calls KTable ce) -> snd ec = 1.
Proof. exact table_calls_all_counted. Qed.
Print Assumptions C10_table_counts_elements.

(** A phrase assembled from k partial selections and a confirming one is saved
    as ONE entry: concatenated text under the concatenated code, counted once. *)
Theorem C10_phrase_from_partials_is_one_entry :
  forall partials final,
  Forall (fun sg => sg_rec sg = true /\ sg_conf sg = false) partials ->
  sg_rec final = true -> sg_conf final = true ->
  let T := concat (map (fun sg => de_text (sg_entry sg)) (partials ++ [final])) in
  let C := concat (map (fun sg => de_code (sg_entry sg)) (partials ++ [final])) in
  T <> [] ->
  exists pre, commit_calls KScript (partials ++ [final]) ce_empty = pre ++ [(mkde T [] C, 1)] /\
              forall ec, In ec pre -> snd ec = 0.
Proof. exact partials_one_entry. Qed.
Print Assumptions C10_phrase_from_partials_is_one_entry.

(** Deleting marks the record deleted (negative count) and hides it ... *)
Theorem C10_delete_marks_and_hides :
  forall d tick e k, entry_key e = Some k ->
  let c' := Z.min (-1) (- old_commits (get d k)) in
  upd_writes d tick e (-1) = ([WPut k (VEnt c' tick)], tick) /\
  c' < 0 /\ (0 <= old_commits (get d k) -> c' = - Z.max 1 (old_commits (get d k))) /\
  visible (VEnt c' tick) = false.
Proof. exact delete_marks_and_hides. Qed.
Print Assumptions C10_delete_marks_and_hides.

(** ... until it is committed again: the count becomes |c| + 1 > 0, visible. *)
Theorem C10_recommit_revives :
  forall old t,
  let del := Z.min (-1) (- old) in
  new_commits del 1 = Z.abs del + 1 /\ 0 < new_commits del 1 /\
  visible (VEnt (new_commits del 1) t) = true.
Proof. exact recommit_revives. Qed.
Print Assumptions C10_recommit_revives.

(** Ranked no worse: in the model of the merged emission (sorted user phrases,
    then system phrases, de-duplicated) the committed text's index after the
    commit is at most its index before – under the named hypothesis
    H_weight_mono about dynamics.h (validated numerically, not proved). *)
Theorem C10_rank_no_later :
  forall (W : Type) (wle : W -> W -> bool) (T : bytes) (L0 L1 : list (bytes * W)) (sys : list bytes),
  sorted_desc W wle L0 -> sorted_desc W wle L1 ->
  NoDup (map fst L0) -> NoDup (map fst L1) ->
  In T (map fst L1) ->
  (forall x, x <> T -> In x (map fst L1) -> In x (map fst L0)) ->
  (* H_weight_mono *)
  (forall x w0x w1x wT0 wT1, x <> T ->
     In (x, w0x) L0 -> In (x, w1x) L1 -> In (T, wT0) L0 -> In (T, wT1) L1 ->
     wle w0x wT0 = true -> wle wT1 w1x = false) ->
  forall i0, index_of T (emission W L0 sys) = Some i0 ->
  exists i1, index_of T (emission W L1 sys) = Some i1 /\ (i1 <= i0)%nat.
Proof. exact rank_no_later. Qed.
Print Assumptions C10_rank_no_later.

(** What is proved of dynamics.h towards H_weight_mono (over the reals, branch
    d < 20; the full statement is [DynamicsR.weight_mono_full], not proved):
    a commit adds its count to the decayed weight, and formula_p is monotone in
    the decayed weight and in the commit frequency. *)
Theorem C10_weight_partial_commit_gain :
  forall c t da ta : R, (0 < c)%R -> (formula_d 0 t da ta < formula_d c t da ta)%R.
Proof. exact formula_d_commit_gain. Qed.
Print Assumptions C10_weight_partial_commit_gain.

Theorem C10_weight_partial_mono_d :
  forall s u t d1 d2 : R,
  (m_of s u t < 1 / 2)%R -> (d1 < d2)%R -> (formula_p_low s u t d1 < formula_p_low s u t d2)%R.
Proof. exact formula_p_low_strict_d. Qed.
Print Assumptions C10_weight_partial_mono_d.

Theorem C10_weight_partial_mono_u :
  forall u1 u2 t d : R,
  (0 < t)%R -> (d <= kM)%R -> (u1 <= u2)%R -> (formula_p_low 0 u1 t d <= formula_p_low 0 u2 t d)%R.
Proof. exact formula_p_low_mono_u. Qed.
Print Assumptions C10_weight_partial_mono_u.

(** Non-vacuity. *)
Theorem C10_example_partials :
  commit_calls KScript [mkseg true false ex_a [ex_a]; mkseg true true ex_b [ex_b]] ce_empty =
  [(ex_ab, 1)] /\ entry_key ex_ab = Some ex_key_ab.
Proof. exact ex_partials. Qed.
Print Assumptions C10_example_partials.

Theorem C10_example_delete_revive :
  let d1 := apply_batch (fst (upd_writes [(ex_key_a, VEnt 3 7)] 9 ex_a (-1))) [(ex_key_a, VEnt 3 7)] in
  let d2 := apply_batch (fst (upd_writes d1 9 ex_a 1)) d1 in
  get d1 ex_key_a = Some (VEnt (-3) 9) /\ get d2 ex_key_a = Some (VEnt 4 10) /\
  get d2 tick_key = Some (VNum 10).
Proof. exact ex_delete_revive. Qed.
Print Assumptions C10_example_delete_revive.
