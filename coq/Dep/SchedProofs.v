(** Dep/SchedProofs.v - invariants of the interleaving semantics Dep/Sched.v over ALL
    schedules (lists of micro steps of any length) and all client scripts.

    Every theorem about all schedules is an inductive invariant of [step], or follows from
    one.  A preservation proof goes through the rules of [step] ([step_rule]), lets computation
    dispose of the rules that do not touch what the invariant reads, and argues about the few
    that do.  The witnesses at the end (refutations, non-vacuity) are macro schedules run by
    evaluation. *)
From Coq Require Import List Bool Arith String Lia Permutation.
From RimeV Require Import Base.ListX Dep.Sched.
Import ListNotations.

Definition reach (c : cfg) (h0 : bool) (sc : list call) (s : state) : Prop :=
  exists sched, run c (init h0 sc) sched = Some s.

Lemma run_app : forall c l1 l2 s,
  run c s (l1 ++ l2) = match run c s l1 with Some s' => run c s' l2 | None => None end.
Proof.
  induction l1 as [|t l1 IH]; intros l2 s; cbn; [reflexivity|].
  destruct (step c s t); [apply IH|reflexivity].
Qed.

Lemma reach_init : forall c h0 sc, reach c h0 sc (init h0 sc).
Proof. intros. exists []. reflexivity. Qed.

Lemma reach_step : forall c h0 sc s t s', reach c h0 sc s -> step c s t = Some s' -> reach c h0 sc s'.
Proof.
  intros c h0 sc s t s' [sched Hr] Hs. exists (sched ++ [t]).
  rewrite run_app, Hr. cbn. rewrite Hs. reflexivity.
Qed.

(** The step premise may use that its source state is reachable, hence every invariant
    established before. *)
Lemma reach_invariant : forall c h0 sc (P : state -> Prop),
  P (init h0 sc) ->
  (forall s t s', reach c h0 sc s -> P s -> step c s t = Some s' -> P s') ->
  forall s, reach c h0 sc s -> P s.
Proof.
  intros c h0 sc P H0 Hstep s [sched Hr].
  enough (H : forall sched s0, reach c h0 sc s0 -> P s0 -> run c s0 sched = Some s -> P s)
    by (eapply H; eauto using reach_init).
  clear Hr sched. induction sched as [|t rest IH]; intros s0 R0 P0 Hrun; cbn in Hrun.
  - injection Hrun as <-. exact P0.
  - destruct (step c s0 t) eqn:E; [|discriminate]. eapply IH; [| |exact Hrun]; eauto using reach_step.
Qed.

Lemma run_to_yield_reach : forall c h0 sc fuel s t s',
  reach c h0 sc s -> run_to_yield c fuel s t = Some s' -> reach c h0 sc s'.
Proof.
  induction fuel as [|f IH]; intros s t s' Hr H; cbn in H.
  - destruct (at_yield s t); [inversion H; subst; exact Hr|discriminate].
  - destruct (at_yield s t); [inversion H; subst; exact Hr|].
    destruct (step c s t) eqn:E; [|discriminate]. eapply IH; [|exact H]. eapply reach_step; eauto.
Qed.

Lemma macro_reach : forall c h0 sc s t s', reach c h0 sc s -> macro c s t = Some s' -> reach c h0 sc s'.
Proof.
  intros c h0 sc s t s' Hr H. unfold macro in H. destruct (step c s t) eqn:E; [|discriminate].
  eapply run_to_yield_reach; [|exact H]. eapply reach_step; eauto.
Qed.

Lemma run_macro_reach : forall c h0 sc sched s s',
  reach c h0 sc s -> run_macro c s sched = Some s' -> reach c h0 sc s'.
Proof.
  induction sched as [|t rest IH]; intros s s' Hr H; cbn in H.
  - inversion H; subst; exact Hr.
  - destruct (macro c s t) eqn:E; [|discriminate]. eapply IH; [|exact H]. eapply macro_reach; eauto.
Qed.

(** * The rules of [step]
    What one step can be, as far as the invariants below read the state: which thread moves
    from which program counter, under which guards, and what it changes.  Left open is what no
    invariant reads: the value an API call returns (only that none but set_notification_handler
    logs [RSetHandler]), which of the calls that return at once it was, the session table and
    the harness's plan after a call, and the owner of Service::mutex_ before a release (only
    that the mutex is free afterwards unless the client held it).  The guards are named: [E]
    is the equation for the program counter, [Es] the one for the script. *)
Definition push (r : outcome) (s : state) : state :=
  set_next_task (S (next_task s)) (set_queue (queue s ++ [(next_task s, r)]) (emit (ESched (next_task s)) s)).
(** the handler is entered with ("deploy", start | success | failure) *)
Definition called (m : msg) (s : state) : state :=
  emit (ENotify (match m with MStart => NStart | MResult => if wfail s then NFailure else NSuccess end))
    (emit (EHEnter (hgen s)) s).

Inductive client_rule (c : cfg) (s : state) : state -> Prop :=
| c_start_maint rs rest (E : cpcs s = CIdle) (Es : script s = CStartMaint rs :: rest) :
    client_rule c s (set_cpcs (after_sched rs KMaint) (set_script rest s))
| c_sync rs rest (E : cpcs s = CIdle) (Es : script s = CSyncUser rs :: rest) :
    client_rule c s (set_cpcs (after_sched rs KSync) (set_sessions [] (emit ECleanup (set_script rest s))))
| c_return cl rest r v (E : cpcs s = CIdle) (Es : script s = cl :: rest) (Er : r <> RSetHandler) :
    client_rule c s (emit (ERet r v) (set_script rest s))
| c_join_ready rest (E : cpcs s = CIdle) (Es : script s = CJoin :: rest) (Ef : work s = FReady) :
    client_rule c s (set_wexc false (set_work FNone (emit (ERet RJoin 0) (set_script rest s))))
| c_join_throw rest (E : cpcs s = CIdle) (Es : script s = CJoin :: rest) (Ef : work s = FReady) (Ex : wexc s = true) :
    client_rule c s (set_wexc false (set_work FNone (emit EJoinThrow (set_script rest s))))
| c_create_refused rest cr (E : cpcs s = CIdle) (Es : script s = CCreate :: rest) :
    client_rule c s (set_created cr (emit (ERet RCreate 0) (set_script rest s)))
| c_create rest (E : cpcs s = CIdle) (Es : script s = CCreate :: rest) (Ed : disabled s = false) :
    client_rule c s (set_cpcs CCreate1 (emit EAccept (set_script rest s)))
| c_get cl rest o sid (E : cpcs s = CIdle) (Es : script s = cl :: rest) (Ed : disabled s = false) :
    client_rule c s (set_cpcs (CGet1 o sid) (emit EAccept (set_script rest s)))
| c_destroy n rest ss v (E : cpcs s = CIdle) (Es : script s = CDestroy n :: rest) :
    client_rule c s (set_sessions ss (emit (ERet RDestroy v) (set_script rest s)))
| c_set_handler b rest (E : cpcs s = CIdle) (Es : script s = CSetHandler b :: rest)
    (Emx : (if b then lk_set c else lk_clear c) = true -> smutex s = None) :
    client_rule c s (set_hgen (S (hgen s)) (set_handler b (emit (ERet RSetHandler 0) (set_script rest s))))
| c_plan r rest hp (E : cpcs s = CIdle) (Es : script s = CPlan r :: rest) :
    client_rule c s (set_hplan hp (emit (ERet RPlan 0) (set_script rest s)))
| c_sched_done k (E : cpcs s = CSched [] k) : client_rule c s (set_cpcs (CSW0 k) s)
| c_sched r rs k (E : cpcs s = CSched (r :: rs) k) : client_rule c s (set_cpcs (after_sched rs k) (push r s))
(* StartWork with the repaired hand-over: one critical section, then the wait for the previous future *)
| c_sw0_held k r v (E : cpcs s = CSW0 k) (Enw : nw c = true) (Erun : running s = true) (Er : r <> RSetHandler) :
    client_rule c s (set_cpcs CIdle (emit (ERet r v) s))
| c_sw0_empty k r v (E : cpcs s = CSW0 k) (Enw : nw c = true) (Erun : running s = false) (Eq : queue s = [])
    (Er : r <> RSetHandler) :
    client_rule c s (set_cpcs CIdle (emit (ERet r v) (set_mm true s)))
| c_sw0_take k t q (E : cpcs s = CSW0 k) (Enw : nw c = true) (Erun : running s = false) (Eq : queue s = t :: q) :
    client_rule c s (set_cpcs (CSW1 k) (set_running true (set_mm true s)))
| c_sw1_wait k (E : cpcs s = CSW1 k) (Enw : nw c = true) (Ew : working s = false) : client_rule c s (set_cpcs (CSW3 k) s)
(* StartWork before the repair: IsWorking(), maintenance_mode_, the queue *)
| c_sw0_working k r v (E : cpcs s = CSW0 k) (Enw : nw c = false) (Er : r <> RSetHandler) :
    client_rule c s (set_cpcs CIdle (emit (ERet r v) s))
| c_sw0_idle k (E : cpcs s = CSW0 k) (Enw : nw c = false) (Ew : working s = false) : client_rule c s (set_cpcs (CSW1 k) s)
| c_sw1_mm k (E : cpcs s = CSW1 k) (Enw : nw c = false) : client_rule c s (set_cpcs (CSW2 k) (set_mm true s))
| c_sw2_empty k r v (E : cpcs s = CSW2 k) (Eq : queue s = []) (Er : r <> RSetHandler) :
    client_rule c s (set_cpcs CIdle (emit (ERet r v) s))
| c_sw2_tasks k t q (E : cpcs s = CSW2 k) (Eq : queue s = t :: q) : client_rule c s (set_cpcs (CSW3 k) s)
| c_spawn k (E : cpcs s = CSW3 k) :
    client_rule c s (set_cpcs (CSW4 k) (set_wpcs (Some WEnter) (set_wfail false (set_wexc false
                      (set_work FRunning (emit ESpawn s))))))
| c_sw4 k r v (E : cpcs s = CSW4 k) (Er : r <> RSetHandler) : client_rule c s (set_cpcs CIdle (emit (ERet r v) s))
| c_create1 cr n ss v (E : cpcs s = CCreate1) :
    client_rule c s (set_cpcs CIdle (set_created cr (set_next_sid n (set_sessions ss (emit (ERet RCreate v) s)))))
| c_get1 o sid r v (E : cpcs s = CGet1 o sid) (Er : r <> RSetHandler) : client_rule c s (set_cpcs CIdle (emit (ERet r v) s)).

Inductive worker_rule (c : cfg) (s : state) : state -> Prop :=
| w_enter (E : wpcs s = Some WEnter) : worker_rule c s (set_wpcs (Some (WN MStart N1)) s)
(* Notify: the test of the handler, under the lock or not; without a handler nothing is called *)
| w_test_locked m (E : wpcs s = Some (WN m N1)) (Ent : lk_ntest c = true) (Eh : handler s = true) :
    worker_rule c s (set_wpcs (Some (WN m N3)) (set_smutex (Some Worker) s))
| w_test_n2 m (E : wpcs s = Some (WN m N1)) (Ent : lk_ntest c = false) (Enc : lk_ncall c = true) (Eh : handler s = true) :
    worker_rule c s (set_wpcs (Some (WN m N2)) s)
| w_test_n3 m (E : wpcs s = Some (WN m N1)) (Ent : lk_ntest c = false) (Enc : lk_ncall c = false) (Eh : handler s = true) :
    worker_rule c s (set_wpcs (Some (WN m N3)) s)
| w_skip_start (E : wpcs s = Some (WN MStart N1)) (Eh : handler s = false) : worker_rule c s (set_wpcs (Some WNext) s)
| w_skip_result (E : wpcs s = Some (WN MResult N1)) (Eh : handler s = false) : worker_rule c s (set_wpcs (Some WHasP) s)
| w_lock m (E : wpcs s = Some (WN m N2)) : worker_rule c s (set_wpcs (Some (WN m N3)) (set_smutex (Some Worker) s))
(* the call: of the handler, which may schedule the planned task, or of an empty function *)
| w_call m (E : wpcs s = Some (WN m N3)) : worker_rule c s (set_wpcs (Some (WN m N4)) (called m s))
| w_call_plan r rest (E : wpcs s = Some (WN MResult N3)) :
    worker_rule c s (set_wpcs (Some (WN MResult N4)) (set_hplan rest (push r (called MResult s))))
| w_badcall m mx (E : wpcs s = Some (WN m N3)) (Eh : handler s = false) (Emx : smutex s <> Some Client -> mx = None) :
    worker_rule c s (set_wpcs (Some WThrow) (set_smutex mx (emit EBadCall s)))
| w_leave_start mx (E : wpcs s = Some (WN MStart N4)) (Emx : smutex s <> Some Client -> mx = None) :
    worker_rule c s (set_wpcs (Some WNext) (set_smutex mx (emit EHLeave s)))
| w_leave_result mx (E : wpcs s = Some (WN MResult N4)) (Emx : smutex s <> Some Client -> mx = None) :
    worker_rule c s (set_wpcs (Some WHasP) (set_smutex mx (emit EHLeave s)))
| w_next_empty (E : wpcs s = Some WNext) (Eq : queue s = []) : worker_rule c s (set_wpcs (Some (WN MResult N1)) s)
| w_pop t r q (E : wpcs s = Some WNext) (Eq : queue s = (t, r) :: q) :
    worker_rule c s (set_wpcs (Some (WBody t r)) (set_queue q s))
| w_body t r (E : wpcs s = Some (WBody t r)) :
    worker_rule c s (set_wpcs (Some WNext) (set_wfail (wfail s || negb (outcome_ok r)) (emit (EExec t) s)))
(* the exit test (HasPendingTasks, or FinishWork, which clears running_) *)
| w_more t q (E : wpcs s = Some WHasP) (Eq : queue s = t :: q) : worker_rule c s (set_wpcs (Some WNext) s)
| w_exit (E : wpcs s = Some WHasP) (Eq : queue s = []) (Enw : nw c = false) : worker_rule c s (set_wpcs (Some WRet) s)
| w_exit_flag (E : wpcs s = Some WHasP) (Eq : queue s = []) (Enw : nw c = true) :
    worker_rule c s (set_wpcs (Some WRet) (set_running false s))
| w_ret (E : wpcs s = Some WRet) : worker_rule c s (set_wpcs (Some WFin) (set_work FReturned s))
| w_throw (E : wpcs s = Some WThrow) (Enw : nw c = false) :
    worker_rule c s (set_wpcs (Some WFin) (set_wexc true (set_work FReturned s)))
| w_throw_flag (E : wpcs s = Some WThrow) (Enw : nw c = true) :
    worker_rule c s (set_wpcs (Some WFin) (set_wexc true (set_work FReturned (set_running false s))))
| w_fin (E : wpcs s = Some WFin) : worker_rule c s (set_wpcs None (emit EDone (set_work FReady s))).

Definition rule (c : cfg) (s : state) (t : tid) : state -> Prop :=
  match t with Client => client_rule c s | Worker => worker_rule c s end.

Lemma release_w_frame : forall s, exists mx, release_w s = set_smutex mx s /\ (smutex s <> Some Client -> mx = None).
Proof.
  intros []. unfold release_w. cbn. destruct smutex as [[]|]; eexists; (split; [reflexivity|]); intros A; congruence.
Qed.

(** [step_rule] is the one place where [step] is unfolded.  [split_step H] destructs, innermost
    first, every scrutinee of a [match]/[if] in [H] (a variable in place, anything else with an
    equation) and drops the branches that make [H] read [None = Some _]; each of the 46 + 36
    leaves is an instance of a rule. *)
Ltac split_step H :=
  repeat (match type of H with
          | context [match ?x with _ => _ end] =>
              match x with
              | context [match _ with _ => _ end] => fail 1
              | _ => (is_var x; destruct x) || (let E := fresh "E" in destruct x eqn:E)
              end
          | context [if ?b then _ else _] =>
              match b with
              | context [if _ then _ else _] => fail 1
              | context [match _ with _ => _ end] => fail 1
              | _ => let E := fresh "E" in destruct b eqn:E
              end
          end; try discriminate H).

Lemma step_rule : forall c s t s', step c s t = Some s' -> rule c s t s'.
Proof.
  intros c s t s' H.
  unfold step, step_client, step_worker, step_call, get_session, finish, after_notify, free_for in H.
  remember (if wfail s then NFailure else NSuccess) as v eqn:Ev in H.
  destruct t; split_step H; injection H as <-; subst v; unfold rule.
  all: try match goal with |- context [release_w ?x] => destruct (release_w_frame x) as (mx & -> & Hmx) end.
  (* a guard of an API call reads the state after the call has been taken off the script *)
  all: repeat match goal with
              | A : context [?f (set_script ?r ?x)] |- _ => change (f (set_script r x)) with (f x) in A
              end.
  (* the setters stay folded, so that a rule that does not apply is rejected at the first one that differs *)
  all: with_strategy opaque [set_queue set_mm set_running set_work set_wexc set_started set_sessions set_next_sid
                             set_created set_handler set_hgen set_hplan set_smutex set_next_task set_wfail set_wpcs
                             set_cpcs set_script set_log emit]
         (econstructor;
          first [eassumption | discriminate | intros A; cbn in A; rewrite ?A in *; first [discriminate | congruence]]).
Qed.

(** * Control invariant: worker existence vs future state, who may spawn, the
    maintenance flag, the owner of Service::mutex_, session operations *)
Definition wk_ok (w : option wpc) (f : fut) : Prop :=
  match w with
  | None => f = FNone \/ f = FReady
  | Some WFin => f = FReturned
  | Some _ => f = FRunning
  end.
Definition holds_s (c : cfg) (w : option wpc) : bool :=
  match w with Some (WN _ N3) | Some (WN _ N4) => lk_ntest c || lk_ncall c | _ => false end.
Definition in_startwork (p : cpc) : bool := match p with CSW1 _ | CSW2 _ | CSW3 _ => true | _ => false end.
Definition mm_needed (c : cfg) (p : cpc) : bool :=
  match p with CSW1 _ => nw c | CSW2 _ | CSW3 _ | CSW4 _ => true | _ => false end.
Definition accepted_pc (p : cpc) : bool := match p with CCreate1 | CGet1 _ _ => true | _ => false end.
(** the worker still holds the worker role: it has not passed its exit test *)
Definition w_active (w : option wpc) : bool :=
  match w with None | Some WRet | Some WFin => false | Some _ => true end.
(** HFlag: the client has taken the worker role for the worker it is about to start *)
Definition c_decided (p : cpc) : bool := match p with CSW1 _ | CSW3 _ => true | _ => false end.
(** which worker may exist while the client is inside StartWork past its test *)
Definition sw_ok (c : cfg) (p : cpc) (w : option wpc) : Prop :=
  match p with
  | CSW1 _ => if nw c then w_active w = false else w = None
  | CSW2 _ => nw c = false /\ w = None
  | CSW3 _ => w = None
  | _ => True
  end.

Record ctl (c : cfg) (s : state) : Prop := {
  ctl_wk : wk_ok (wpcs s) (work s);
  ctl_swk : sw_ok c (cpcs s) (wpcs s);
  ctl_run : running s = nw c && (w_active (wpcs s) || c_decided (cpcs s));
  ctl_mm : (working s = true \/ mm_needed c (cpcs s) = true) -> mm s = true;
  ctl_mx : smutex s = if holds_s c (wpcs s) then Some Worker else None;
  ctl_started : started s = true;
  ctl_acc : accepted_pc (cpcs s) = true -> wpcs s = None;
  ctl_n2 : forall m, wpcs s = Some (WN m N2) -> lk_ntest c = false /\ lk_ncall c = true
}.

Lemma ctl_sw : forall c s, ctl c s -> nw c = false -> in_startwork (cpcs s) = true -> wpcs s = None.
Proof.
  intros c s HC Hn Hp. pose proof (ctl_swk c s HC) as H. destruct (cpcs s); try discriminate Hp; cbn in H.
  - rewrite Hn in H. exact H.
  - exact (proj2 H).
  - exact H.
Qed.
Lemma ctl_sw3 : forall c s k, ctl c s -> cpcs s = CSW3 k -> wpcs s = None.
Proof. intros c s k HC E. pose proof (ctl_swk c s HC) as H. rewrite E in H. exact H. Qed.

Lemma wk_ok_working : forall w f, wk_ok w f -> (match f with FRunning | FReturned => true | _ => false end) = true -> w <> None.
Proof. intros w f H Hf E. subst w. cbn in H. destruct H; subst f; discriminate. Qed.

Lemma wk_ok_not_working : forall w f, wk_ok w f -> (match f with FRunning | FReturned => true | _ => false end) = false -> w = None.
Proof.
  intros w f H Hf. destruct w as [p|]; [|reflexivity]. exfalso.
  destruct p; cbn in H; subst f; discriminate.
Qed.

Lemma idle_no_worker : forall c s, ctl c s -> working s = false -> wpcs s = None.
Proof. intros c s HC. exact (wk_ok_not_working _ _ (ctl_wk c s HC)). Qed.

Lemma not_disabled_no_worker : forall c s, ctl c s -> disabled s = false -> wpcs s = None.
Proof.
  intros c s HC Hd. unfold disabled, is_maint in Hd. rewrite (ctl_started c s HC) in Hd. cbn in Hd.
  destruct (working s) eqn:Ew; [|exact (idle_no_worker c s HC Ew)].
  rewrite (ctl_mm c s HC) in Hd by (left; exact Ew). discriminate.
Qed.

Lemma ctl_init : forall c h0 sc, ctl c (init h0 sc).
Proof. intros. constructor; cbn; auto; try discriminate. rewrite andb_false_r; reflexivity. intros [H|H]; discriminate. Qed.

(** Most rules of the client leave alone all that [ctl] reads but the client's own program
    counter, and move it among positions of which [ctl] says nothing.  What remains is the
    return of join, the four session operations that pass the disabled() test (no worker:
    [not_disabled_no_worker]), and StartWork. *)
Lemma ctl_client_step : forall c s s', ctl c s -> step c s Client = Some s' -> ctl c s'.
Proof.
  intros c s s' HC H. pose proof HC as [Hwk Hsw Hrun Hmm Hmx Hst Hacc Hn2]. unfold working in *.
  destruct (step_rule _ _ _ _ H); rewrite E in *; cbn in Hsw, Hrun, Hmm, Hacc.
  all: try match goal with |- context [after_sched ?rs _] => destruct rs end.
  all: constructor; unfold working; cbn; rewrite ?E; cbn; try assumption; try reflexivity.
  all: try rewrite Enw in *.
  all: lazymatch goal with
       | |- wk_ok _ FNone => (* join returns: the future was ready, no worker *)
           rewrite (wk_ok_not_working _ _ Hwk) by (rewrite Ef; reflexivity); left; reflexivity
       | |- _ \/ _ -> _ => intros [A|A]; try congruence; apply Hmm; auto
       | |- true = true -> _ => intros _; exact (not_disabled_no_worker _ _ HC Ed)
       | |- false = true -> _ => intros A; discriminate A
       | |- _ => idtac
       end.
  (* StartWork, HFlag: running_ was clear, so no worker holds the role; the client takes it *)
  - rewrite Erun, orb_false_r in Hrun. symmetry. exact Hrun.
  - rewrite orb_true_r. reflexivity.
  (* the wait for the previous worker's future is over *)
  - exact (wk_ok_not_working _ _ Hwk Ew).
  (* StartWork, HFuture: IsWorking() was false, so no worker exists *)
  - exact (wk_ok_not_working _ _ Hwk Ew).
  - exact Hrun.
  (* maintenance_mode_ written, then the queue tested *)
  - split; [reflexivity|exact Hsw].
  - exact Hrun.
  - exact (proj2 Hsw).
  - rewrite (proj1 Hsw) in *. exact Hrun.
  (* the spawn: the new worker holds the role the client had taken, and no mutex *)
  - rewrite orb_true_r in Hrun. exact Hrun.
  - rewrite Hsw in Hmx. exact Hmx.
  - intros m A. discriminate A.
Qed.

Lemma sw_ok_worker : forall c p q w',
  sw_ok c p (Some q) -> (w_active (Some q) = false -> w_active w' = false) -> sw_ok c p w'.
Proof.
  intros c p q w'. destruct p; cbn; auto.
  - destruct (nw c); [auto|discriminate].
  - intros [_ H]; discriminate.
  - discriminate.
Qed.

Lemma active_not_decided : forall c p q, sw_ok c p (Some q) -> w_active (Some q) = true -> c_decided p = false.
Proof.
  intros c p q. destruct p; cbn; auto.
  - destruct (nw c); [congruence|discriminate].
  - discriminate.
Qed.

(** Every rule of the worker leaves the client's program counter, maintenance_mode_ and
    started_ alone; since a worker exists, no session operation is in progress.  What
    remains is who holds Service::mutex_ around the handler call. *)
Lemma ctl_worker_step : forall c s s', ctl c s -> step c s Worker = Some s' -> ctl c s'.
Proof.
  intros c s s' HC H. pose proof HC as [Hwk Hsw Hrun Hmm Hmx Hst Hacc Hn2].
  destruct (step_rule _ _ _ _ H); rewrite E in *; cbn in Hwk, Hrun, Hmx.
  all: constructor; cbn; try assumption; try reflexivity.
  all: try rewrite Enw in *.
  all: lazymatch goal with
       | |- sw_ok _ _ _ => apply (sw_ok_worker _ _ _ _ Hsw); cbn; congruence
       | |- _ \/ _ -> _ => intros _; apply Hmm; left; unfold working; rewrite Hwk; reflexivity
       | |- accepted_pc _ = true -> _ => intros A; discriminate (Hacc A)
       | |- forall m, _ -> _ /\ _ =>
           intros m0 A; first [discriminate A | split; assumption | exact (Hn2 _ eq_refl)]
       | |- _ = _ && c_decided _ => (* the exit test, or the exception, gives the role up *)
           rewrite (active_not_decided _ _ _ Hsw eq_refl), andb_false_r; try assumption; reflexivity
       | |- _ => idtac
       end.
  (* release: the owner is the worker or nobody, never the client *)
  4-6: apply Emx; rewrite Hmx; destruct (lk_ntest c || lk_ncall c); discriminate.
  (* Notify's test under the lock takes the mutex; an unlocked test found it free ([Hmx]) *)
  - rewrite Ent. reflexivity.
  - rewrite Ent, Enc. exact Hmx.
  (* the test was made without the lock and the call takes it *)
  - destruct (Hn2 m eq_refl) as [A B]. rewrite A, B. reflexivity.
  - right. reflexivity.
Qed.

Lemma ctl_step : forall c s t s', ctl c s -> step c s t = Some s' -> ctl c s'.
Proof. intros c s [|]; [apply ctl_client_step|apply ctl_worker_step]. Qed.

Lemma reach_ctl : forall c h0 sc s, reach c h0 sc s -> ctl c s.
Proof. intros c h0 sc. apply reach_invariant; eauto using ctl_init, ctl_step. Qed.

(** * Exclusion and re-opening *)
Definition session_call (cl : call) : bool :=
  match cl with CCreate | CProcessKey _ | CGetContext _ | CFind _ => true | _ => false end.

Lemma maint_flag_holds : forall c h0 sc s, reach c h0 sc s -> working s = true -> mm s = true.
Proof. intros c h0 sc s H Hw. apply (ctl_mm c s (reach_ctl _ _ _ _ H)). left; exact Hw. Qed.

(** find_session of a session id 0 returns without the disabled() test: the premise on [CFind] *)
Lemma session_call_step : forall c s cl rest,
  cpcs s = CIdle -> script s = cl :: rest -> session_call cl = true ->
  exists s', step c s Client = Some s' /\
    (disabled s = true ->
       exists r, log s' = ERet r 0 :: log s /\ sessions s' = sessions s /\ cpcs s' = CIdle) /\
    (disabled s = false -> (forall n, cl = CFind n -> sid_of s n <> 0) ->
       log s' = EAccept :: log s /\ accepted_pc (cpcs s') = true).
Proof.
  intros c s cl rest Hc Hs Hcl. unfold step, step_client. rewrite Hc, Hs.
  destruct cl; try discriminate Hcl; unfold step_call, get_session;
    change (disabled (set_script rest s)) with (disabled s);
    try (change (sid_of (set_script rest s) n) with (sid_of s n); destruct (sid_of s n) eqn:En);
    destruct (disabled s); eexists; (split; [reflexivity|]); cbn; rewrite ?Hc;
    (split; [intros D; try discriminate D; eexists; repeat split
            |intros D F; try discriminate D; try (exfalso; exact (F n eq_refl En)); repeat split]).
Qed.

(** [excl]: while the worker is running (future not ready) every session operation
    is refused: the call returns 0/False in one step, without touching the sessions *)
Lemma excl_holds : forall c h0 sc s cl rest,
  reach c h0 sc s -> working s = true ->
  cpcs s = CIdle -> script s = cl :: rest -> session_call cl = true ->
  exists s' r, step c s Client = Some s' /\ log s' = ERet r 0 :: log s /\
               sessions s' = sessions s /\ cpcs s' = CIdle /\ accepted_pc (cpcs s') = false.
Proof.
  intros c h0 sc s cl rest Hr Hw Hc Hs Hcl.
  destruct (session_call_step c s cl rest Hc Hs Hcl) as (s' & Hst & Hd & _).
  destruct Hd as (r & Hl & Hss & Hc').
  { unfold disabled, is_maint. rewrite (maint_flag_holds _ _ _ _ Hr Hw), Hw. apply orb_true_r. }
  exists s', r. rewrite Hc'. auto.
Qed.

Lemma session_op_excl_holds : forall c h0 sc s,
  reach c h0 sc s -> accepted_pc (cpcs s) = true -> wpcs s = None /\ working s = false.
Proof.
  intros c h0 sc s Hr Ha. pose proof (reach_ctl _ _ _ _ Hr) as HC.
  pose proof (ctl_acc c s HC Ha) as Hn. split; [exact Hn|].
  pose proof (ctl_wk c s HC) as Hwk. rewrite Hn in Hwk. unfold working. destruct Hwk as [E|E]; rewrite E; reflexivity.
Qed.

(** [reopens]: once the future is ready (or joined) session operations are accepted again *)
Lemma reopens_accept : forall c h0 sc s cl rest,
  reach c h0 sc s -> working s = false ->
  cpcs s = CIdle -> script s = cl :: rest -> session_call cl = true ->
  (forall n, cl = CFind n -> sid_of s n <> 0) ->
  exists s', step c s Client = Some s' /\ log s' = EAccept :: log s /\ accepted_pc (cpcs s') = true.
Proof.
  intros c h0 sc s cl rest Hr Hw Hc Hs Hcl Hf.
  destruct (session_call_step c s cl rest Hc Hs Hcl) as (s' & Hst & _ & Ha).
  exists s'. split; [exact Hst|]. apply Ha; [|exact Hf].
  unfold disabled, is_maint. rewrite (ctl_started c s (reach_ctl _ _ _ _ Hr)), Hw. apply andb_false_r.
Qed.

Lemma reopens_create : forall c s,
  cpcs s = CCreate1 ->
  exists s', step c s Client = Some s' /\ cpcs s' = CIdle /\
             log s' = ERet RCreate (S (next_sid s)) :: log s /\ In (S (next_sid s)) (sessions s').
Proof.
  intros c s Hc. unfold step, step_client. rewrite Hc. eexists. split; [reflexivity|]. cbn. repeat split. left; reflexivity.
Qed.

(** * Tasks: conservation and at-most-once *)
Definition body_task (w : option wpc) : list nat := match w with Some (WBody t _) => [t] | _ => [] end.
Definition all_tasks (s : state) : list nat :=
  execs (log s) ++ body_task (wpcs s) ++ map fst (queue s).

Record tasks_inv (s : state) : Prop := {
  ti_nodup : NoDup (all_tasks s);
  ti_lt : forall t, In t (all_tasks s) -> t < next_task s;
  ti_sched : forall t, In t (scheds (log s)) <-> In t (all_tasks s)
}.

Lemma tasks_init : forall h0 sc, tasks_inv (init h0 sc).
Proof. intros. constructor; cbn; [constructor|intros t []|intros t; tauto]. Qed.

Lemma execs_app : forall a b, execs (a ++ b) = execs a ++ execs b.
Proof. intros; unfold execs; apply flat_map_app. Qed.

(** [tasks_inv] reads a state through [all_tasks] up to order, the scheduled ids and the
    counter.  A rule either moves a task along (queue, body, executed) ... *)
Lemma tasks_moved : forall s s', tasks_inv s ->
  Permutation (all_tasks s) (all_tasks s') -> scheds (log s') = scheds (log s) -> next_task s' = next_task s ->
  tasks_inv s'.
Proof.
  intros s s' [Hnd Hlt Hsc] HP Hs Hn. constructor.
  - eapply Permutation_NoDup; eassumption.
  - intros t Ht. rewrite Hn. apply Hlt. eapply Permutation_in; [symmetry; exact HP|exact Ht].
  - intros t. rewrite Hs, Hsc. split; apply Permutation_in; [|symmetry]; exact HP.
Qed.

(** ... or schedules a new one under the next id *)
Lemma tasks_pushed : forall s s', tasks_inv s ->
  Permutation (next_task s :: all_tasks s) (all_tasks s') ->
  scheds (log s') = next_task s :: scheds (log s) -> next_task s' = S (next_task s) ->
  tasks_inv s'.
Proof.
  intros s s' [Hnd Hlt Hsc] HP Hs Hn.
  assert (Hin : forall t, In t (all_tasks s') <-> In t (next_task s :: all_tasks s))
    by (intros t; split; apply Permutation_in; [symmetry|]; exact HP).
  constructor.
  - eapply Permutation_NoDup; [exact HP|]. constructor; [|exact Hnd]. intros Hi. specialize (Hlt _ Hi). lia.
  - intros t Ht. rewrite Hn. apply Hin in Ht. destruct Ht as [<-|Ht]; [lia|specialize (Hlt _ Ht); lia].
  - intros t. rewrite Hs, Hin. cbn [In]. rewrite Hsc. reflexivity.
Qed.

Lemma push_last : forall (n : nat) (b : outcome) (E B : list nat) (Q : list task),
  Permutation (n :: E ++ B ++ map fst Q) (E ++ B ++ map fst (Q ++ [(n, b)])).
Proof.
  intros. rewrite map_app, !app_assoc. apply Permutation_cons_append.
Qed.

Lemma tasks_step : forall c s t s', ctl c s -> tasks_inv s -> step c s t = Some s' -> tasks_inv s'.
Proof.
  intros c s t s' HC HT H. destruct t; destruct (step_rule _ _ _ _ H).
  (* the rules that schedule: ScheduleTask on the client, and from inside the handler *)
  all: try (apply (tasks_pushed s); [exact HT| |reflexivity|reflexivity]; unfold all_tasks; cbn;
            rewrite ?E; cbn; first [apply push_last | apply (push_last _ _ _ [])]).
  all: apply (tasks_moved s); [exact HT| |reflexivity|reflexivity]; unfold all_tasks; cbn; rewrite ?E;
    try reflexivity.
  - (* the spawn: there was no worker *) rewrite (ctl_sw3 c s _ HC E). reflexivity.
  - (* NextTask pops the head of the queue *) rewrite Eq. reflexivity.
  - (* the task body runs *) symmetry. apply Permutation_middle.
Qed.

Lemma reach_tasks : forall c h0 sc s, reach c h0 sc s -> tasks_inv s.
Proof.
  intros c h0 sc. apply reach_invariant; [apply tasks_init|].
  intros s t s' R. apply tasks_step. exact (reach_ctl _ _ _ _ R).
Qed.

(** [task_at_most_once]: no task id is executed twice, and only scheduled tasks are executed *)
Lemma task_at_most_once_holds : forall c h0 sc s, reach c h0 sc s ->
  NoDup (execs (log s)) /\ (forall t, In t (execs (log s)) -> In t (scheds (log s))).
Proof.
  intros c h0 sc s H. destruct (reach_tasks _ _ _ _ H) as [Hnd _ Hsc]. unfold all_tasks in *. split.
  - eapply NoDup_app_l; exact Hnd.
  - intros t Ht. apply Hsc. apply in_or_app; left; exact Ht.
Qed.

Lemma task_conserved_holds : forall c h0 sc s t, reach c h0 sc s -> In t (scheds (log s)) ->
  In t (execs (log s)) \/ body_task (wpcs s) = [t] \/ In t (map fst (queue s)).
Proof.
  intros c h0 sc s t H Ht. destruct (reach_tasks _ _ _ _ H) as [_ _ Hsc]. apply Hsc in Ht.
  unfold all_tasks in Ht. rewrite !in_app_iff in Ht. destruct Ht as [A|[A|A]]; auto.
  right; left. destruct (wpcs s) as [[]|]; cbn in *; try contradiction. destruct A as [<-|[]]. reflexivity.
Qed.

(** * Run only throws when Notify calls an empty handler
    Several invariants below hold as long as that has not happened; the event stays in the
    log, so they need to be preserved only by steps after which it still has not. *)
Lemma log_mono : forall c s t s' e, step c s t = Some s' -> In e (log s) -> In e (log s').
Proof. intros c s t s' e H Hin. destruct t; destruct (step_rule _ _ _ _ H); cbn; auto 6. Qed.

Lemma reach_unless_badcall : forall c h0 sc (Q : state -> Prop),
  Q (init h0 sc) ->
  (forall s t s', reach c h0 sc s -> ~ In EBadCall (log s) -> ~ In EBadCall (log s') ->
                  Q s -> step c s t = Some s' -> Q s') ->
  forall s, reach c h0 sc s -> ~ In EBadCall (log s) -> Q s.
Proof.
  intros c h0 sc Q H0 Hstep. apply (reach_invariant c h0 sc (fun s => ~ In EBadCall (log s) -> Q s)); [auto|].
  intros s t s' R HQ Hs Hnb'. assert (Hnb : ~ In EBadCall (log s)) by eauto using log_mono. eauto.
Qed.

Lemma no_throw : forall c h0 sc s, reach c h0 sc s -> ~ In EBadCall (log s) -> wpcs s <> Some WThrow.
Proof.
  intros c h0 sc. apply reach_unless_badcall; [discriminate|].
  intros s t s' _ _ Hnb HQ H. destruct t; destruct (step_rule _ _ _ _ H); cbn; rewrite ?E; try assumption; try discriminate.
  (* the rule that moves to WThrow logs EBadCall *)
  all: exfalso; apply Hnb; left; reflexivity.
Qed.

(** * The handler is never called empty when Notify tests it inside the lock and
    ClearNotificationHandler takes the lock; so the future never holds an exception and
    join never rethrows *)
Record nb_inv (s : state) : Prop := {
  nb_n3 : forall m, wpcs s = Some (WN m N3) -> handler s = true;
  nb_log : ~ In EBadCall (log s);
  nb_exc : wexc s = false;
  nb_join : ~ In EJoinThrow (log s)
}.

Lemma nb_init : forall h0 sc, nb_inv (init h0 sc).
Proof. intros. constructor; cbn; try discriminate; auto. Qed.

Lemma nb_step : forall c h0 sc s t s', lk_ntest c = true -> lk_clear c = true ->
  reach c h0 sc s -> nb_inv s -> step c s t = Some s' -> nb_inv s'.
Proof.
  intros c h0 sc s t s' Hnt Hcl R [Hn3 Hlog Hexc Hjoin] H.
  pose proof (reach_ctl _ _ _ _ R) as HC. pose proof (no_throw _ _ _ _ R Hlog) as Hthr.
  destruct t; destruct (step_rule _ _ _ _ H).
  all: constructor; cbn; rewrite ?E; try assumption; try discriminate; try reflexivity.
  (* no rule but the empty call and the rethrowing join logs EBadCall or EJoinThrow *)
  all: try lazymatch goal with
           | |- ~ _ => intros X; repeat (destruct X as [X|X]; [discriminate X|]); contradiction
           end.
  all: try (intros m0 A; assumption || reflexivity).
  (* Run does not throw, so it stores no exception in the future *)
  all: try (exfalso; exact (Hthr E)).
  (* join finds no exception to rethrow *)
  - congruence.
  (* ClearNotificationHandler takes the mutex, which Notify holds from its test to the call *)
  - intros m A. destruct b; [reflexivity|]. pose proof (ctl_mx c s HC) as Hmx. rewrite A in Hmx. cbn in Hmx.
    rewrite Hnt, (Emx Hcl) in Hmx. discriminate Hmx.
  (* Notify's test is made under the lock: it never stands between test and lock *)
  - destruct (ctl_n2 c s HC m E) as [A _]. rewrite Hnt in A. discriminate A.
  (* Notify found a handler, and still finds it under the lock *)
  - rewrite (Hn3 _ E) in Eh. discriminate Eh.
Qed.

Lemma reach_nb : forall c h0 sc s, lk_ntest c = true -> lk_clear c = true -> reach c h0 sc s -> nb_inv s.
Proof.
  intros c h0 sc s A B. apply reach_invariant; [apply nb_init|].
  intros s0 t s1 R. exact (nb_step c h0 sc s0 t s1 A B R).
Qed.

Lemma no_bad_call_holds : forall c h0 sc s, lk_ntest c = true -> lk_clear c = true ->
  reach c h0 sc s -> ~ In EBadCall (log s) /\ ~ In EJoinThrow (log s).
Proof. intros c h0 sc s A B H. destruct (reach_nb _ _ _ _ A B H). auto. Qed.

(** * Draining *)
Definition drained (s : state) : Prop :=
  w_active (wpcs s) = false -> forall t, In t (scheds (before_last_spawn (log s))) -> In t (execs (log s)).

Lemma scheds_before_spawn : forall l t, In t (scheds (before_last_spawn l)) -> In t (scheds l).
Proof. induction l as [|e l IH]; intros t H; [exact H|]. destruct e; cbn in *; auto. Qed.

Lemma drain_step : forall c h0 sc s t s',
  reach c h0 sc s -> ~ In EBadCall (log s) -> drained s -> step c s t = Some s' -> drained s'.
Proof.
  intros c h0 sc s t s' R Hnb HD H. pose proof (no_throw _ _ _ _ R Hnb) as Hthr.
  (* a worker gets past its exit test only by that test, Run not throwing ([Hthr]) ... *)
  unfold drained in *. destruct t; destruct (step_rule _ _ _ _ H); cbn; rewrite ?E in *; try exact HD; try discriminate.
  all: try (exfalso; exact (Hthr eq_refl)).
  (* ... which finds the queue empty: every task scheduled so far has been executed *)
  all: intros _ t Ht; destruct (reach_tasks _ _ _ _ R) as [_ _ Hsc]; unfold all_tasks in Hsc;
    rewrite E, Eq in Hsc; cbn in Hsc; rewrite app_nil_r in Hsc; apply Hsc, scheds_before_spawn, Ht.
Qed.

Lemma reach_drained : forall c h0 sc s, reach c h0 sc s -> ~ In EBadCall (log s) -> drained s.
Proof.
  intros c h0 sc. apply reach_unless_badcall; [intros _ t []|].
  intros s t s' R Hnb _. exact (drain_step c h0 sc s t s' R Hnb).
Qed.

(** [task_not_lost]: when the service reports that maintenance is over (IsWorking() is
    false, so is_maintenance_mode() returns False and join returns), every task that was
    scheduled before the last worker was started has been executed - provided no
    notification call threw (see [no_bad_call_holds]). *)
Lemma task_not_lost_holds : forall c h0 sc s t,
  reach c h0 sc s -> ~ In EBadCall (log s) -> working s = false ->
  In t (scheds (before_last_spawn (log s))) -> In t (execs (log s)).
Proof.
  intros c h0 sc s t Hr Hnb Hw. apply (reach_drained _ _ _ _ Hr Hnb).
  rewrite (idle_no_worker c s (reach_ctl _ _ _ _ Hr) Hw). reflexivity.
Qed.

(** * Notification bracketing (handler installed throughout) *)
Definition no_seth (cl : call) : bool := match cl with CSetHandler _ => false | _ => true end.

Definition br_rel (w : option wpc) (b : bst) : Prop :=
  match w with
  | Some (WN MStart N4) => b = BStarted
  | Some (WN MResult N4) => b = BResult
  | None | Some WEnter | Some (WN MStart _) => b = BIdle \/ b = BResult
  | Some WNext | Some (WBody _ _) | Some (WN MResult _) => b = BStarted \/ b = BResult
  | Some WHasP | Some WRet | Some WFin => b = BResult
  | Some WThrow => False
  end.

Record br_inv (s : state) : Prop := {
  br_h : handler s = true;
  br_sc : forallb no_seth (script s) = true;
  br_r : br_rel (wpcs s) (bracket_of_log (log s))
}.

Lemma bracket_cons : forall e l,
  bracket_of_log (e :: l) = match e with ENotify m => bracket_step (bracket_of_log l) m | _ => bracket_of_log l end.
Proof.
  intros e l. destruct e; try reflexivity.
  unfold bracket_of_log, bracket_run. cbn. apply fold_left_app.
Qed.

Lemma br_init : forall sc, forallb no_seth sc = true -> br_inv (init true sc).
Proof. intros sc H. constructor; cbn; auto. Qed.

Lemma br_step : forall c s t s', ctl c s -> br_inv s -> step c s t = Some s' -> br_inv s'.
Proof.
  intros c s t s' HC [Hh Hsc Hr] H. destruct t; destruct (step_rule _ _ _ _ H).
  (* the call taken off the script is not set_notification_handler; the handler is there *)
  all: try (rewrite Es in Hsc; apply andb_prop in Hsc; destruct Hsc as [Hcl Hsc]; try discriminate Hcl).
  all: try congruence.
  all: constructor; cbn -[bracket_of_log]; rewrite ?bracket_cons; try assumption.
  (* the spawn: there was no worker *)
  all: try (rewrite (ctl_sw3 c s _ HC E) in Hr).
  (* the worker's rules: one step of the automaton at each handler call, by the notification it makes *)
  all: rewrite ?E in Hr; try destruct m; try destruct (wfail s).
  all: cbn in Hr; first [contradiction | exact Hr | destruct Hr as [-> | ->]; cbn; auto | rewrite Hr; cbn; auto].
Qed.

(** [notif_bracketed]: with a handler installed throughout, the "deploy" notifications it
    receives always form a prefix of (start (success|failure)+)*, and whenever no worker
    exists the sequence is complete: every start has been followed by a result and
    nothing comes after the last result. *)
Lemma notif_bracketed_holds : forall c sc s, forallb no_seth sc = true -> reach c true sc s ->
  bracket_of_log (log s) <> BErr /\
  (wpcs s = None -> bracket_of_log (log s) = BIdle \/ bracket_of_log (log s) = BResult).
Proof.
  intros c sc s Hsc H.
  assert (X : br_inv s).
  { revert s H. apply reach_invariant; [apply br_init; exact Hsc|].
    intros s t s' R. apply br_step. exact (reach_ctl _ _ _ _ R). }
  destruct X as [_ _ Hr]. split.
  - intros E. rewrite E in Hr. destruct (wpcs s) as [[|[] []| | | | | |]|]; cbn in Hr;
      try discriminate; destruct Hr; discriminate.
  - intros E. rewrite E in Hr. exact Hr.
Qed.

(** * Handler invocations are mutually exclusive with set_notification_handler *)
Definition inside_b (w : option wpc) : bool := match w with Some (WN _ N4) => true | _ => false end.

Lemma hcheck_cons : forall e l, hcheck_log (e :: l) = hstep (hcheck_log l) e.
Proof. intros e l. unfold hcheck_log, hrun. cbn. rewrite fold_left_app. reflexivity. Qed.

Definition hx_inv (s : state) : Prop := hcheck_log (log s) = (hgen s, inside_b (wpcs s), true).

Lemma hx_step : forall c s t s',
  lk_set c = true -> lk_clear c = true -> lk_ntest c || lk_ncall c = true ->
  ctl c s -> hx_inv s -> step c s t = Some s' -> hx_inv s'.
Proof.
  intros c s t s' Hls Hlc Hln HC HI H. unfold hx_inv in *. destruct t; destruct (step_rule _ _ _ _ H).
  all: cbn -[hcheck_log]; rewrite ?hcheck_cons, HI, ?E; cbn; rewrite ?Nat.eqb_refl; try reflexivity.
  (* an API call other than set_notification_handler returns *)
  all: try (destruct r; first [reflexivity | congruence]).
  (* set_notification_handler takes the mutex, which is free: no invocation is in progress *)
  - replace (inside_b (wpcs s)) with false; [reflexivity|].
    pose proof (ctl_mx c s HC) as Hmx. rewrite Emx in Hmx by (destruct b; assumption).
    destruct (wpcs s) as [[|m0 []| | | | | |]|]; try reflexivity; cbn in Hmx; rewrite Hln in Hmx; discriminate Hmx.
  (* the spawn: there was no worker *)
  - rewrite (ctl_sw3 c s _ HC E). reflexivity.
Qed.

(** [handler_excl]: along every schedule, every handler invocation is of the handler installed
    by the latest set_notification_handler call that has returned, no set_notification_handler
    call returns while an invocation is in progress (so no invocation of a handler overlaps or
    follows the return of the call that replaced it), and invocations do not overlap. *)
Lemma handler_excl_holds : forall c h0 sc s,
  lk_set c = true -> lk_clear c = true -> lk_ntest c || lk_ncall c = true ->
  reach c h0 sc s -> hcheck_log (log s) = (hgen s, inside_b (wpcs s), true).
Proof.
  intros c h0 sc s A B C. apply (reach_invariant c h0 sc hx_inv); [reflexivity|].
  intros s0 t s1 R. apply hx_step; auto. exact (reach_ctl _ _ _ _ R).
Qed.

(** while an invocation is in progress (or about to start under the lock) the client's
    set_notification_handler call cannot complete: it waits for Service::mutex_ *)
Lemma setter_blocked_holds : forall c h0 sc s m b rest,
  lk_set c = true -> lk_clear c = true -> lk_ntest c || lk_ncall c = true ->
  reach c h0 sc s -> (wpcs s = Some (WN m N3) \/ wpcs s = Some (WN m N4)) ->
  cpcs s = CIdle -> script s = CSetHandler b :: rest -> step c s Client = None.
Proof.
  intros c h0 sc s m b rest A B C Hr Hw Hc Hs.
  pose proof (ctl_mx c s (reach_ctl _ _ _ _ Hr)) as Hmx.
  assert (Hm : smutex s = Some Worker) by (destruct Hw as [E|E]; rewrite E in Hmx; cbn in Hmx; rewrite C in Hmx; exact Hmx).
  unfold step, step_client. rewrite Hc, Hs. unfold step_call, free_for. cbn. rewrite Hm.
  destruct b; rewrite ?A, ?B; reflexivity.
Qed.

(** * Race freedom (lockset): in no reachable state do the worker's and the client's
    next accesses (rows of the generated table) conflict *)
Local Open Scope string_scope.
Definition worker_fn (f : string) : bool :=
  existsb (String.eqb f) ["Deployer::Run"; "Deployer::NextTask"; "Deployer::HasPendingTasks"; "Deployer::FinishWork";
                          "Service::Notify"; "Deployer::ScheduleTask"].

(** [flag]: the table shows the repaired hand-over.  Before the repair StartWork looks at the queue
    without the lock (when no worker exists); after it no access to the queue is exempt, and every
    access to running_ must hold Deployer::mutex_. *)
Definition row_ok (flag : bool) (r : acc_row) : bool :=
  negb (is_data r) ||
  (if String.eqb (a_var r) VQUEUE then
     has_lock DMUTEX r || (negb flag && (String.eqb (a_fn r) "Deployer::StartWork" && akind_eqb (a_kind r) ARead))
   else if String.eqb (a_var r) VHANDLER then has_lock SMUTEX r
   else if String.eqb (a_var r) VRUNNING then has_lock DMUTEX r
   else if String.eqb (a_var r) VSINK then String.eqb (a_fn r) "Deployer::Run"
   else negb (worker_fn (a_fn r))).

Definition table_ok (tbl : list acc_row) : bool := forallb (row_ok (tbl_flag tbl)) tbl.

Lemma rows_in : forall tbl f r, In r (rows tbl f) -> In r tbl /\ a_fn r = f.
Proof. intros tbl f r H. unfold rows in H. apply filter_In in H. destruct H as [A B]. apply String.eqb_eq in B. auto. Qed.

Lemma rows_var_in : forall tbl f v r, In r (rows_var tbl f v) -> In r tbl /\ a_fn r = f /\ a_var r = v.
Proof.
  intros tbl f v r H. unfold rows_var in H. apply filter_In in H. destruct H as [A B].
  apply String.eqb_eq in B. apply rows_in in A. tauto.
Qed.

Lemma w_acc_fn : forall tbl s a, In a (w_acc tbl s) ->
  In a tbl /\ (worker_fn (a_fn a) = true \/ a_var a = VRUNNING) /\ wpcs s <> None.
Proof.
  intros tbl s a H. unfold w_acc in H. destruct (wpcs s) as [p|]; [|contradiction].
  destruct p; repeat (apply in_app_or in H; destruct H as [H|H]);
    first [ apply rows_in in H; destruct H as [A B]; rewrite B; repeat split; auto; discriminate
          | apply rows_var_in in H; destruct H as (A & B & C); repeat split; auto; discriminate ].
Qed.

(** the functions whose rows annotate a step of the client: never Run, and StartWork only from
    inside it or, with the repaired hand-over, at its entry *)
Definition client_fn (in_sw flag : bool) (f : string) : bool :=
  negb (String.eqb f "Deployer::Run") && (negb (String.eqb f "Deployer::StartWork") || in_sw || flag).

Lemma rows_fn : forall tbl (P : string -> bool) f b, P f = true -> In b (rows tbl f) -> In b tbl /\ P (a_fn b) = true.
Proof. intros tbl P f b Hf H. apply rows_in in H. destruct H as [A ->]. auto. Qed.

Lemma c_acc_fn : forall tbl s b, In b (c_acc tbl s) ->
  In b tbl /\ client_fn (in_startwork (cpcs s)) (tbl_flag tbl) (a_fn b) = true.
Proof.
  intros tbl s b H. unfold c_acc, call_acc, disabled_rows in H.
  destruct (cpcs s); [destruct (script s) as [|[]]; [contradiction|..]; try (destruct b0)| |destruct (tbl_flag tbl)|..];
    try contradiction;
    repeat (apply in_app_or in H; destruct H as [H|H]); exact (rows_fn _ _ _ _ eq_refl H).
Qed.

Lemma share_lock_common : forall m a b, has_lock m a = true -> has_lock m b = true -> share_lock a b = true.
Proof.
  intros m a b Ha Hb. unfold share_lock. apply existsb_exists. unfold has_lock in Ha.
  apply existsb_exists in Ha. destruct Ha as [x [Hx Hm]]. apply String.eqb_eq in Hm. subst x.
  exists m. auto.
Qed.

Lemma tbl_flag_nw : forall tbl, tbl_flag tbl = nw (cfg_of_table tbl).
Proof. reflexivity. Qed.

Lemma race_free_holds : forall tbl c h0 sc s,
  table_ok tbl = true -> tbl_flag tbl = nw c -> reach c h0 sc s -> race_state tbl s = false.
Proof.
  intros tbl c h0 sc s Hok Hfl Hr. pose proof (reach_ctl _ _ _ _ Hr) as HC.
  destruct (race_state tbl s) eqn:R; [exfalso|reflexivity].
  unfold race_state in R. apply existsb_exists in R. destruct R as [a [Ha R]].
  apply existsb_exists in R. destruct R as [b [Hb R]].
  destruct (w_acc_fn _ _ _ Ha) as (Ia & Wa & Hw).
  destruct (c_acc_fn _ _ _ Hb) as (Ib & Wb). unfold client_fn in Wb. apply andb_true_iff in Wb.
  destruct Wb as (Wb & Hsw). apply negb_true_iff in Wb.
  unfold table_ok in Hok. rewrite forallb_forall in Hok.
  pose proof (Hok _ Ia) as Oa. pose proof (Hok _ Ib) as Ob.
  unfold conflict in R. rewrite !andb_true_iff in R. destruct R as ((((Da & Db) & Ev) & _) & Ns).
  apply String.eqb_eq in Ev. unfold row_ok in Oa, Ob. rewrite Da in Oa. rewrite Db in Ob. cbn in Oa, Ob.
  rewrite <- Ev in Ob.
  (* by the cases of [row_ok] on the member both rows touch *)
  destruct (String.eqb (a_var a) VQUEUE) eqn:Eq.
  - rewrite orb_true_iff in Oa, Ob. destruct Oa as [Oa|Oa].
    + destruct Ob as [Ob|Ob].
      * rewrite (share_lock_common _ _ _ Oa Ob) in Ns. discriminate.
      * (* the client's is StartWork's unlocked read before the repair: it is inside
           StartWork, where no worker exists *)
        rewrite !andb_true_iff in Ob. destruct Ob as (Of & Ob & _).
        apply negb_true_iff in Of. rewrite Ob, Of, orb_false_r in Hsw.
        apply Hw. apply (ctl_sw c s HC); [congruence|exact Hsw].
    + (* that read annotates no step of the worker *)
      rewrite !andb_true_iff in Oa. destruct Oa as (_ & Oa & _). apply String.eqb_eq in Oa.
      destruct Wa as [Wa|Wa].
      * rewrite Oa in Wa. discriminate.
      * apply String.eqb_eq in Eq. rewrite Wa in Eq. discriminate.
  - destruct (String.eqb (a_var a) VHANDLER).
    + rewrite (share_lock_common _ _ _ Oa Ob) in Ns. discriminate.
    + destruct (String.eqb (a_var a) VRUNNING) eqn:Er.
      * rewrite (share_lock_common _ _ _ Oa Ob) in Ns. discriminate.
      * destruct (String.eqb (a_var a) VSINK).
        -- (* message_sink_: only Run touches it, and the client is never in Run *)
           rewrite Wb in Ob. discriminate.
        -- (* any other member: no function of the worker touches it *)
           change (negb (worker_fn (a_fn a)) = true) in Oa. destruct Wa as [Wa|Wa].
           ++ rewrite Wa in Oa. discriminate.
           ++ rewrite Wa in Er. discriminate.
Qed.

(** * The repaired hand-over (HFlag): no task is left behind *)
Definition c_quiet (p : cpc) : bool := match p with CSched _ _ | CSW0 _ => false | _ => true end.

Definition none_left (s : state) : Prop := running s = false -> c_quiet (cpcs s) = true -> queue s = [].

Lemma none_left_step : forall c h0 sc s t s', nw c = true ->
  reach c h0 sc s -> ~ In EBadCall (log s) -> none_left s -> step c s t = Some s' -> none_left s'.
Proof.
  intros c h0 sc s t s' Hn R Hnb HQ H. pose proof (no_throw _ _ _ _ R Hnb) as Hthr.
  pose proof (reach_ctl _ _ _ _ R) as HC.
  pose proof (ctl_run c s HC) as Hrun. pose proof (ctl_swk c s HC) as Hsw. rewrite Hn in Hrun. unfold sw_ok in Hsw. rewrite ?Hn in Hsw.
  unfold none_left in *. destruct t; destruct (step_rule _ _ _ _ H).
  all: try match goal with |- context [after_sched ?rs _] => destruct rs end.
  all: cbn; rewrite ?E; try exact HQ; try discriminate.
  all: rewrite ?E in *; cbn in *.
  (* whoever holds the role keeps running_ set ([Hrun]); the exit test and StartWork's
     decision see the queue in the critical section that writes running_; Run does not
     throw ([Hthr]); StartWork's unlocked queue test belongs to the hand-over before the repair *)
  all: intros A B; try exact (HQ A eq_refl); congruence.
Qed.

Lemma flag_no_task_left : forall c h0 sc s, nw c = true -> reach c h0 sc s ->
  ~ In EBadCall (log s) -> running s = false -> c_quiet (cpcs s) = true -> queue s = [].
Proof.
  intros c h0 sc s Hn. apply (reach_unless_badcall c h0 sc none_left); [intros _ _; reflexivity|].
  intros s0 t s1 R Hnb _. exact (none_left_step c h0 sc s0 t s1 Hn R Hnb).
Qed.

(** The stronger reading of "each scheduled task is run before the service reports that
    maintenance is over": at a call boundary, with IsWorking() false, every task ever
    scheduled has been executed. *)
Definition every_task_runs_before_idle_full (c : cfg) : Prop :=
  forall h0 sc s t, reach c h0 sc s -> cpcs s = CIdle -> working s = false ->
                    ~ In EBadCall (log s) -> In t (scheds (log s)) -> In t (execs (log s)).

(** the same from the worker's successful exit test on (running_ cleared; its future need not be
    ready yet) *)
Lemma every_task_runs_when_worker_quits : forall c h0 sc s t, nw c = true -> reach c h0 sc s ->
  cpcs s = CIdle -> running s = false -> ~ In EBadCall (log s) -> In t (scheds (log s)) -> In t (execs (log s)).
Proof.
  intros c h0 sc s t Hn Hr Hc Hrun Hb Ht.
  assert (Hq : queue s = []) by (apply (flag_no_task_left c h0 sc s Hn Hr Hb Hrun); rewrite Hc; reflexivity).
  assert (Hbody : body_task (wpcs s) = []).
  { pose proof (ctl_run c s (reach_ctl _ _ _ _ Hr)) as X. rewrite Hrun, Hn, Hc in X. cbn in X. rewrite orb_false_r in X.
    destruct (wpcs s) as [[]|]; cbn in *; try discriminate; reflexivity. }
  apply (ti_sched s (reach_tasks _ _ _ _ Hr)) in Ht. unfold all_tasks in Ht.
  rewrite Hbody, Hq, app_nil_r in Ht. exact Ht.
Qed.

(** [every_task_runs_before_idle]: the full reading holds of the repaired hand-over; the tasks
    scheduled from inside a handler invocation are among "every task ever scheduled". *)
Lemma every_task_runs_before_idle_holds : forall c, nw c = true -> every_task_runs_before_idle_full c.
Proof.
  intros c Hn h0 sc s t Hr Hc Hw Hb. apply (every_task_runs_when_worker_quits c h0 sc); auto.
  pose proof (reach_ctl _ _ _ _ Hr) as HC.
  rewrite (ctl_run c s HC), (idle_no_worker c s HC Hw), Hc. apply andb_false_r.
Qed.

(** a start call that returns False because a worker is running leaves its tasks to that worker:
    while running_ is set a worker that has not passed its exit test exists (or the client is about
    to start one) *)
Lemma flag_running_worker : forall c h0 sc s, nw c = true -> reach c h0 sc s ->
  running s = true -> w_active (wpcs s) = true \/ c_decided (cpcs s) = true.
Proof.
  intros c h0 sc s Hn Hr Hrun. pose proof (ctl_run c s (reach_ctl _ _ _ _ Hr)) as X.
  rewrite Hrun, Hn in X. cbn in X. symmetry in X. apply orb_true_iff in X. exact X.
Qed.

(** * Witness runs: macro schedules of Sched.v, replayed on the real library by checks/c15.py *)
Lemma macro_witness : forall c h0 sc sched (P : state -> Prop),
  (exists s, run_macro c (init h0 sc) sched = Some s /\ P s) -> exists s, reach c h0 sc s /\ P s.
Proof.
  intros c h0 sc sched P (s & Hrun & HP). exists s. split; [|exact HP].
  eapply run_macro_reach; [apply reach_init|exact Hrun].
Qed.

Definition cfg_call_unlocked : cfg :=
  {| lk_sched := true; lk_next := true; lk_hasp := true; lk_set := true; lk_clear := true;
     lk_ntest := false; lk_ncall := false; ho := HFuture |}.

(** The window scripts never call set_notification_handler, and with a handler installed the
    three ways Notify may take Service::mutex_ lead to the same states at the cut points: their
    runs depend on the lock configuration only through [nw].

    The full reading is false of the hand-over through the future, whatever the lock
    configuration: the worker's exit window.  The last observation is is_maintenance_mode() =
    False; tasks 3,4,5 were scheduled by a sync_user_data that returned False and have not
    been run. *)
Lemma window_witness : forall c, nw c = false -> exists s,
  run_macro c (init true witness_window_script) witness_window_sched = Some s /\
  cpcs s = CIdle /\ script s = [] /\ working s = false /\ ~ In EBadCall (log s) /\
  hd_error (log s) = Some (ERet RIsMaint 0) /\ In (ERet RSyncUser 0) (log s) /\
  In 3 (scheds (log s)) /\ ~ In 3 (execs (log s)) /\ map fst (queue s) = [3; 4; 5].
Proof.
  intros c Hn.
  replace (run_macro c (init true witness_window_script) witness_window_sched)
    with (run_macro cfg_call_unlocked (init true witness_window_script) witness_window_sched)
    by (destruct c as [? ? ? ? ? [] [] []]; try discriminate Hn; vm_compute; reflexivity).
  eexists. split; [vm_compute; reflexivity|]. cbn. repeat split; auto; intuition (try discriminate).
Qed.

Lemma every_task_runs_before_idle_refuted : forall c, nw c = false -> ~ every_task_runs_before_idle_full c.
Proof.
  intros c Hn F. destruct (window_witness c Hn) as (s & Hrun & Hc & _ & Hw & Hb & _ & _ & Hs & He & _).
  apply He. eapply F; eauto. eapply run_macro_reach; [apply reach_init|exact Hrun].
Qed.

(** the same window through start_maintenance: the API call returns True *)
Lemma window_witness_start_maintenance : forall c, nw c = false -> exists s,
  run_macro c (init true witness_window_sm_script) witness_window_sched = Some s /\
  hd_error (log s) = Some (ERet RIsMaint 0) /\
  hd_error (tl (tl (tl (log s)))) = Some (ERet RStartMaint 1) /\
  In 3 (scheds (log s)) /\ ~ In 3 (execs (log s)).
Proof.
  intros c Hn.
  replace (run_macro c (init true witness_window_sm_script) witness_window_sched)
    with (run_macro cfg_call_unlocked (init true witness_window_sm_script) witness_window_sched)
    by (destruct c as [? ? ? ? ? [] [] []]; try discriminate Hn; vm_compute; reflexivity).
  eexists. split; [vm_compute; reflexivity|]. cbn. repeat split; auto; intuition (try discriminate).
Qed.

(** the window's schedule on the repaired hand-over, continued to the end of the script *)
Lemma window_closed_witness : forall c, nw c = true -> exists s,
  run_macro c (init true witness_window_script) witness_closed_sched = Some s /\
  cpcs s = CIdle /\ script s = [] /\ working s = false /\ running s = false /\ ~ In EBadCall (log s) /\
  hd_error (log s) = Some (ERet RIsMaint 0) /\ ~ In (ERet RSyncUser 0) (log s) /\
  scheds (log s) = [5; 4; 3; 2; 1; 0] /\ execs (log s) = [5; 4; 3; 2; 1; 0] /\ queue s = [].
Proof.
  intros c Hn.
  replace (run_macro c (init true witness_window_script) witness_closed_sched)
    with (run_macro (with_handover HFlag cfg_call_unlocked) (init true witness_window_script) witness_closed_sched)
    by (destruct c as [? ? ? ? ? [] [] []]; try discriminate Hn; vm_compute; reflexivity).
  eexists. split; [vm_compute; reflexivity|]. cbn. repeat split; auto; intuition (try discriminate).
Qed.

(** tasks scheduled before the worker's exit test: the call returns False, the same worker runs them *)
Lemma window_seen_witness : forall c, nw c = true -> exists s,
  run_macro c (init true witness_window_script) witness_seen_sched = Some s /\
  cpcs s = CIdle /\ script s = [] /\ working s = false /\ ~ In EBadCall (log s) /\
  hd_error (log s) = Some (ERet RIsMaint 0) /\ In (ERet RSyncUser 0) (log s) /\
  execs (log s) = [5; 4; 3; 2; 1; 0] /\ List.length (filter (fun e => match e with ESpawn => true | _ => false end) (log s)) = 1.
Proof.
  intros c Hn.
  replace (run_macro c (init true witness_window_script) witness_seen_sched)
    with (run_macro (with_handover HFlag cfg_call_unlocked) (init true witness_window_script) witness_seen_sched)
    by (destruct c as [? ? ? ? ? [] [] []]; try discriminate Hn; vm_compute; reflexivity).
  eexists. split; [vm_compute; reflexivity|]. cbn. repeat split; auto; intuition (try discriminate).
Qed.

(** The lock-scope table of librime before the repair of Service::Set/ClearNotificationHandler
    and Service::Notify (as generated from commit 6f9c578). *)
Definition lock_scopes_unfixed : list acc_row := [
  {| a_fn := "Deployer::ScheduleTask"; a_var := "Deployer::ScheduleTask"; a_kind := ACall; a_locks := [] |};
  {| a_fn := "Deployer::ScheduleTask"; a_var := "Deployer::pending_tasks_"; a_kind := AWrite; a_locks := ["Deployer::mutex_"] |};
  {| a_fn := "Deployer::NextTask"; a_var := "Deployer::pending_tasks_"; a_kind := ARead; a_locks := ["Deployer::mutex_"] |};
  {| a_fn := "Deployer::NextTask"; a_var := "Deployer::pending_tasks_"; a_kind := ARead; a_locks := ["Deployer::mutex_"] |};
  {| a_fn := "Deployer::NextTask"; a_var := "Deployer::pending_tasks_"; a_kind := AWrite; a_locks := ["Deployer::mutex_"] |};
  {| a_fn := "Deployer::HasPendingTasks"; a_var := "Deployer::pending_tasks_"; a_kind := ARead; a_locks := ["Deployer::mutex_"] |};
  {| a_fn := "Deployer::Run"; a_var := "Deployer::message_sink_"; a_kind := ARead; a_locks := [] |};
  {| a_fn := "Deployer::Run"; a_var := "Deployer::NextTask"; a_kind := ACall; a_locks := [] |};
  {| a_fn := "Deployer::Run"; a_var := "Deployer::message_sink_"; a_kind := ARead; a_locks := [] |};
  {| a_fn := "Deployer::Run"; a_var := "Deployer::HasPendingTasks"; a_kind := ACall; a_locks := [] |};
  {| a_fn := "Deployer::StartWork"; a_var := "Deployer::IsWorking"; a_kind := ACall; a_locks := [] |};
  {| a_fn := "Deployer::StartWork"; a_var := "Deployer::maintenance_mode_"; a_kind := AWrite; a_locks := [] |};
  {| a_fn := "Deployer::StartWork"; a_var := "Deployer::pending_tasks_"; a_kind := ARead; a_locks := [] |};
  {| a_fn := "Deployer::StartWork"; a_var := "Deployer::pending_tasks_"; a_kind := ARead; a_locks := [] |};
  {| a_fn := "Deployer::StartWork"; a_var := "Deployer::work_"; a_kind := AWrite; a_locks := [] |};
  {| a_fn := "Deployer::StartWork"; a_var := "Deployer::Run"; a_kind := ACall; a_locks := [] |};
  {| a_fn := "Deployer::StartWork"; a_var := "Deployer::work_"; a_kind := ARead; a_locks := [] |};
  {| a_fn := "Deployer::StartMaintenance"; a_var := "Deployer::StartWork"; a_kind := ACall; a_locks := [] |};
  {| a_fn := "Deployer::IsWorking"; a_var := "Deployer::work_"; a_kind := ARead; a_locks := [] |};
  {| a_fn := "Deployer::IsWorking"; a_var := "Deployer::work_"; a_kind := ARead; a_locks := [] |};
  {| a_fn := "Deployer::IsMaintenanceMode"; a_var := "Deployer::maintenance_mode_"; a_kind := ARead; a_locks := [] |};
  {| a_fn := "Deployer::IsMaintenanceMode"; a_var := "Deployer::IsWorking"; a_kind := ACall; a_locks := [] |};
  {| a_fn := "Deployer::JoinWorkThread"; a_var := "Deployer::work_"; a_kind := ARead; a_locks := [] |};
  {| a_fn := "Deployer::JoinWorkThread"; a_var := "Deployer::work_"; a_kind := AWrite; a_locks := [] |};
  {| a_fn := "Deployer::JoinMaintenanceThread"; a_var := "Deployer::JoinWorkThread"; a_kind := ACall; a_locks := [] |};
  {| a_fn := "Deployer::user_data_sync_dir"; a_var := "Deployer::sync_dir"; a_kind := ARead; a_locks := [] |};
  {| a_fn := "Deployer::user_data_sync_dir"; a_var := "Deployer::user_id"; a_kind := ARead; a_locks := [] |};
  {| a_fn := "Service::deployer"; a_var := "Service::deployer_"; a_kind := ARead; a_locks := [] |};
  {| a_fn := "Service::disabled"; a_var := "Service::started_"; a_kind := ARead; a_locks := [] |};
  {| a_fn := "Service::disabled"; a_var := "Deployer::IsMaintenanceMode"; a_kind := ACall; a_locks := [] |};
  {| a_fn := "Service::StartService"; a_var := "Service::started_"; a_kind := AWrite; a_locks := [] |};
  {| a_fn := "Service::StopService"; a_var := "Service::started_"; a_kind := AWrite; a_locks := [] |};
  {| a_fn := "Service::StopService"; a_var := "Service::CleanupAllSessions"; a_kind := ACall; a_locks := [] |};
  {| a_fn := "Service::CreateSession"; a_var := "Service::disabled"; a_kind := ACall; a_locks := [] |};
  {| a_fn := "Service::CreateSession"; a_var := "Service::sessions_"; a_kind := AWrite; a_locks := [] |};
  {| a_fn := "Service::GetSession"; a_var := "Service::disabled"; a_kind := ACall; a_locks := [] |};
  {| a_fn := "Service::GetSession"; a_var := "Service::sessions_"; a_kind := ARead; a_locks := [] |};
  {| a_fn := "Service::GetSession"; a_var := "Service::sessions_"; a_kind := ARead; a_locks := [] |};
  {| a_fn := "Service::DestroySession"; a_var := "Service::sessions_"; a_kind := ARead; a_locks := [] |};
  {| a_fn := "Service::DestroySession"; a_var := "Service::sessions_"; a_kind := ARead; a_locks := [] |};
  {| a_fn := "Service::DestroySession"; a_var := "Service::sessions_"; a_kind := AWrite; a_locks := [] |};
  {| a_fn := "Service::CleanupStaleSessions"; a_var := "Service::sessions_"; a_kind := ARead; a_locks := [] |};
  {| a_fn := "Service::CleanupStaleSessions"; a_var := "Service::sessions_"; a_kind := ARead; a_locks := [] |};
  {| a_fn := "Service::CleanupStaleSessions"; a_var := "Service::sessions_"; a_kind := AWrite; a_locks := [] |};
  {| a_fn := "Service::CleanupAllSessions"; a_var := "Service::sessions_"; a_kind := AWrite; a_locks := [] |};
  {| a_fn := "Service::SetNotificationHandler"; a_var := "Service::notification_handler_"; a_kind := AWrite; a_locks := [] |};
  {| a_fn := "Service::ClearNotificationHandler"; a_var := "Service::notification_handler_"; a_kind := AWrite; a_locks := [] |};
  {| a_fn := "Service::Notify"; a_var := "Service::notification_handler_"; a_kind := ARead; a_locks := [] |};
  {| a_fn := "Service::Notify"; a_var := "Service::notification_handler_"; a_kind := ARead; a_locks := ["Service::mutex_"] |};
  {| a_fn := "Service::CreateResourceResolver"; a_var := "Service::deployer"; a_kind := ACall; a_locks := [] |};
  {| a_fn := "Service::CreateResourceResolver"; a_var := "Service::deployer"; a_kind := ACall; a_locks := [] |};
  {| a_fn := "Service::CreateUserSpecificResourceResolver"; a_var := "Service::deployer"; a_kind := ACall; a_locks := [] |};
  {| a_fn := "Service::CreateDeployedResourceResolver"; a_var := "Service::deployer"; a_kind := ACall; a_locks := [] |};
  {| a_fn := "Service::CreateDeployedResourceResolver"; a_var := "Service::deployer"; a_kind := ACall; a_locks := [] |};
  {| a_fn := "Service::CreateStagingResourceResolver"; a_var := "Service::deployer"; a_kind := ACall; a_locks := [] |}
].

Definition cfg_unfixed : cfg := cfg_of_table lock_scopes_unfixed.

Lemma unfixed_table_not_ok : table_shape_ok lock_scopes_unfixed = true /\ table_ok lock_scopes_unfixed = false.
Proof. vm_compute. split; reflexivity. Qed.

(** data race: the worker is about to test notification_handler_ without the mutex while
    the client is about to overwrite it without the mutex *)
Lemma unfixed_race_refuted : exists s,
  reach cfg_unfixed true witness_badcall_script s /\ race_state lock_scopes_unfixed s = true.
Proof.
  apply (macro_witness _ _ _ witness_race_sched). eexists. split; vm_compute; reflexivity.
Qed.

(** and its consequence: an empty std::function is called, the exception surfaces at join *)
Lemma unfixed_badcall_refuted : exists s,
  reach cfg_unfixed true witness_badcall_script s /\ In EBadCall (log s) /\ hd_error (log s) = Some EJoinThrow.
Proof.
  apply (macro_witness _ _ _ witness_badcall_sched). eexists. split; [vm_compute; reflexivity|].
  cbn. split; [tauto|reflexivity].
Qed.

(** * Non-vacuity *)
Definition ex_script : list call := [CSyncUser [OOk; OThrow; OFail]; CCreate; CJoin; CIsMaint; CCreate].

(** a reachable state meeting the hypotheses of [excl_holds] ... *)
Example excl_nonvacuous : forall c, exists s,
  reach c true ex_script s /\ working s = true /\ cpcs s = CIdle /\ script s = CCreate :: [CJoin; CIsMaint; CCreate].
Proof.
  intros c. apply (macro_witness _ _ _ (rep 6 Client)).
  destruct c as [? ? ? ? ? ? ? []]; eexists; (split; [vm_compute; reflexivity|]); cbn; auto.
Qed.

(** ... and one for [reopens_accept], [task_not_lost_holds] and [notif_bracketed_holds]:
    the worker has finished, three tasks were scheduled before it started and all ran,
    the handler saw start, failure *)
Example reopens_nonvacuous : forall c, lk_ntest c = true -> exists s,
  reach c true ex_script s /\ working s = false /\ cpcs s = CIdle /\
  script s = [CCreate] /\ scheds (before_last_spawn (log s)) = [2; 1; 0] /\ execs (log s) = [2; 1; 0] /\
  rev (notifs (log s)) = [NStart; NFailure] /\ ~ In EBadCall (log s) /\
  hd_error (log s) = Some (ERet RIsMaint 0).
Proof.
  intros c Hc. apply (macro_witness _ _ _ (rep 7 Client ++ rep 16 Worker ++ [Client; Client])).
  destruct c as [? ? ? ? ? [] ? []]; try discriminate Hc; eexists; (split; [vm_compute; reflexivity|]); cbn;
    repeat split; auto; intros X; repeat (destruct X as [X|X]; [discriminate X|]); exact X.
Qed.

(** non-vacuity of [setter_blocked_holds] / [handler_excl_holds]: the worker is inside the
    handler invocation and the client's next call is set_notification_handler *)
Definition hx_script : list call := [CSyncUser [OOk; OOk; OOk]; CSetHandler true; CJoin].
Definition hx_sched : list tid := rep 6 Client ++ rep 3 Worker.

Example setter_blocked_nonvacuous : forall c, lk_ntest c = true -> exists s,
  reach c true hx_script s /\ wpcs s = Some (WN MStart N4) /\ cpcs s = CIdle /\
  script s = [CSetHandler true; CJoin] /\ hd_error (log s) = Some (ENotify NStart).
Proof.
  intros c Hc. apply (macro_witness _ _ _ hx_sched).
  destruct c as [? ? ? ? ? [] ? []]; try discriminate Hc; eexists; (split; [vm_compute; reflexivity|]); cbn; auto.
Qed.

(** without the lock around the call the clause is false of the model: the setter returns
    while the invocation of the handler it replaced is still in progress *)
Lemma handler_excl_unlocked_refuted : exists s,
  reach cfg_call_unlocked true hx_script s /\ snd (hcheck_log (log s)) = false.
Proof.
  apply (macro_witness _ _ _ (hx_sched ++ [Client])). eexists. split; vm_compute; reflexivity.
Qed.

(** * RimeSyncUserData destroys the sessions BEFORE it schedules its tasks and starts the
    worker: from its first step to its return no session exists, so the worker it spawns
    (CSW3 KSync -> ESpawn) starts with an empty session table.  (The worker's own steps never
    touch the table; sessions are only created by the client between API calls.) *)
Definition in_sync (p : cpc) : bool :=
  match p with
  | CSched _ KSync | CSW0 KSync | CSW1 KSync | CSW2 KSync | CSW3 KSync | CSW4 KSync => true
  | _ => false
  end.

Theorem sync_user_data_worker_starts_clean : forall c h0 sc s,
  reach c h0 sc s -> in_sync (cpcs s) = true -> sessions s = [].
Proof.
  intros c h0 sc.
  apply (reach_invariant c h0 sc (fun s => in_sync (cpcs s) = true -> sessions s = [])); [discriminate|].
  (* the closers, in order: a rule inside the call, or of the worker, keeps the table; one that
     ends outside the call has nothing to show; the call's first step empties the table *)
  intros s t s' _ HI H. destruct t; destruct (step_rule _ _ _ _ H).
  all: try match goal with |- context [after_sched ?rs _] => destruct rs end.
  all: cbn; rewrite ?E in *; cbn in *; try exact HI; try discriminate; try reflexivity.
Qed.
