(** Dep/StaleProofs.v - theorems about the staleness-decision model (C12, C13).

    Every elementary action of a deployment is a guarded write
    [cset (stale a) k v a], and every staleness decision is exact on a build
    directory whose artefacts are self-describing (stored checksums /
    timestamps describe what they were built from - the invariant [Inv], which
    tolerates artefacts that are missing or rejected by Load):
      keep   [Inv a -> stale a = false -> aget a k = Some v]
      fresh  [aget a k = Some v -> stale a = false].
    By [keep] a deployment from an invariant store is, key by key, the old
    store overwritten by a list of writes that depends on the sources alone
    ([step], [deploy_runs]); [deploy_sim], [redeploy_completes],
    [deploy_settles] and [edited_schema_never_stale] are read off that list.
    By [fresh] a store that already holds every write comes back untouched
    ([noop_deploy_rewrites_nothing]).

    Hypotheses (Section variables, never axioms):
      H_crc   the checksum is injective in (initial remainder, non-empty
              contents) - asked of all values, not only of those that occur
      H_cyid  the checksum of a compiled schema identifies it
      coherent/nonzero (H_mtime): within the history a file name with the same
              modification time has the same contents; mtimes are non-zero
      H_deps  [deps_closed]: the resources a config is compiled from are
              determined by the resources read. *)
From Coq Require Import List NArith Bool.
From RimeV Require Import Base.ListX Dep.Stale.
Import ListNotations.
Local Open Scope N_scope.

Lemma rname_eqb_eq a b : rname_eqb a b = true <-> a = b.
Proof. destruct a, b; cbn; rewrite ?N.eqb_eq; split; congruence. Qed.

Lemma fname_eqb_eq a b : fname_eqb a b = true <-> a = b.
Proof. destruct a, b; cbn; rewrite ?rname_eqb_eq, ?N.eqb_eq; split; congruence. Qed.

Lemma akey_eqb_eq a b : akey_eqb a b = true <-> a = b.
Proof. destruct a as [[x|]|x|x|x], b as [[y|]|y|y|y]; cbn; rewrite ?N.eqb_eq; split; congruence. Qed.

Lemma akey_eqb_refl k : akey_eqb k k = true.
Proof. apply akey_eqb_eq. reflexivity. Qed.

Lemma akey_eqb_neq a b : a <> b -> akey_eqb a b = false.
Proof. intro H. destruct (akey_eqb a b) eqn:E; auto. apply akey_eqb_eq in E. contradiction. Qed.

Lemma aget_aset_same k v a : aget (aset k v a) k = Some v.
Proof. cbn. rewrite akey_eqb_refl. reflexivity. Qed.

Lemma aget_aset_other k j v a : k <> j -> aget (aset k v a) j = aget a j.
Proof. intro H. cbn. rewrite (akey_eqb_neq _ _ H). reflexivity. Qed.

Lemma aget_app W a k : aget (W ++ a) k = match aget W k with Some v => Some v | None => aget a k end.
Proof. induction W as [|[j w] r IH]; cbn; auto. destruct (akey_eqb j k); auto. Qed.

Lemma aget_In W k v : aget W k = Some v -> In (k, v) W.
Proof.
  induction W as [|[j w] r IH]; cbn; [discriminate|]. destruct (akey_eqb j k) eqn:E.
  - apply akey_eqb_eq in E. subst. intro H. injection H as <-. left. reflexivity.
  - intro H. right. apply IH. exact H.
Qed.

Lemma In_aget W k v : In (k, v) W -> exists v', aget W k = Some v'.
Proof.
  induction W as [|[j w] r IH]; cbn; [tauto|]. intros [E|H].
  - injection E as -> ->. rewrite akey_eqb_refl. eauto.
  - destruct (akey_eqb j k); eauto.
Qed.

Lemma get_cy_iff a k c : get_cy a k = Some c <-> aget a k = Some (ACy c).
Proof. unfold get_cy. destruct (aget a k) as [[]|]; split; congruence. Qed.
Lemma get_tab_iff a k t : get_tab a k = Some t <-> aget a k = Some (ATab t).
Proof. unfold get_tab. destruct (aget a k) as [[]|]; split; congruence. Qed.
Lemma get_prism_iff a k q : get_prism a k = Some q <-> aget a k = Some (APrism q).
Proof. unfold get_prism. destruct (aget a k) as [[]|]; split; congruence. Qed.

Lemma get_tab_aset k t a : get_tab (aset k (ATab t) a) k = Some t.
Proof. apply get_tab_iff, aget_aset_same. Qed.
Lemma get_tab_aset_other k j v a : k <> j -> get_tab (aset k v a) j = get_tab a j.
Proof. intro H. unfold get_tab. rewrite aget_aset_other by exact H. reflexivity. Qed.
Lemma get_cy_aset k c a : get_cy (aset k (ACy c) a) k = Some c.
Proof. apply get_cy_iff, aget_aset_same. Qed.
Lemma get_prism_aset_other k j v a : k <> j -> get_prism (aset k v a) j = get_prism a j.
Proof. intro H. unfold get_prism. rewrite aget_aset_other by exact H. reflexivity. Qed.

Definition sub (c a : arts) : Prop := forall k v, aget c k = Some v -> aget a k = Some v.

Lemma sub_refl a : sub a a.
Proof. intros k v H. exact H. Qed.

Lemma sub_nil a : sub [] a.
Proof. intros k v H. discriminate. Qed.

Lemma sub_get_cy c a k v : sub c a -> get_cy c k = Some v -> get_cy a k = Some v.
Proof. intros Hs H. apply get_cy_iff, Hs, get_cy_iff, H. Qed.
Lemma sub_get_tab c a k v : sub c a -> get_tab c k = Some v -> get_tab a k = Some v.
Proof. intros Hs H. apply get_tab_iff, Hs, get_tab_iff, H. Qed.
Lemma sub_get_prism c a k v : sub c a -> get_prism c k = Some v -> get_prism a k = Some v.
Proof. intros Hs H. apply get_prism_iff, Hs, get_prism_iff, H. Qed.

Definition patched (a : arts) (W : list (akey * art)) (a' : arts) : Prop :=
  forall k, aget a' k = aget (rev W ++ a) k.

Lemma patched_trans a W1 a1 W2 a2 : patched a W1 a1 -> patched a1 W2 a2 -> patched a (W1 ++ W2) a2.
Proof.
  intros N1 N2 k. rewrite N2, rev_app_distr, <- app_assoc, !aget_app, N1, aget_app. reflexivity.
Qed.

Lemma patched_sub a c W a' c' : patched a W a' -> patched c W c' -> sub c a -> sub c' a'.
Proof. intros Na Nc Hs k v. rewrite Na, Nc, !aget_app. destruct (aget (rev W) k); auto. Qed.

Lemma patched_frame a W W' a' k :
  patched a (W ++ W') a' -> (forall v, ~ In (k, v) W') -> aget a' k = aget (rev W ++ a) k.
Proof.
  intros N Hk. rewrite N, rev_app_distr, <- app_assoc, aget_app.
  destruct (aget (rev W') k) as [v|] eqn:E; [|reflexivity].
  destruct (Hk v). apply in_rev, aget_In, E.
Qed.

Lemma patched_get a W a' k v :
  patched a W a' -> In (k, v) W -> (forall v', In (k, v') W -> v' = v) -> aget a' k = Some v.
Proof.
  intros N Hin Hu. rewrite N, aget_app.
  destruct (In_aget (rev W) k v) as [v' E]; [apply in_rev; rewrite rev_involutive; exact Hin|].
  rewrite E. f_equal. apply Hu, in_rev, aget_In, E.
Qed.

Definition cset (b : bool) (k : akey) (v : art) (a : arts) : arts := if b then aset k v a else a.

Lemma aget_cset b k v a j :
  (b = false -> aget a k = Some v) ->
  aget (cset b k v a) j = if akey_eqb k j then Some v else aget a j.
Proof.
  intro H. unfold cset. destruct b; [reflexivity|].
  destruct (akey_eqb k j) eqn:E; auto. apply akey_eqb_eq in E. subst. auto.
Qed.

Lemma aget_cset_other b k v a j : k <> j -> aget (cset b k v a) j = aget a j.
Proof. intro H. unfold cset. destruct b; auto. apply aget_aset_other. exact H. Qed.

Lemma existsb_eqb_in x l : existsb (N.eqb x) l = true <-> In x l.
Proof.
  rewrite existsb_exists. split.
  - intros [y [Hy E]]. apply N.eqb_eq in E. subst. exact Hy.
  - intro H. exists x. split; auto. apply N.eqb_refl.
Qed.

Lemma match_ne {A B} (l : list A) (x y : B) : l <> [] -> match l with [] => x | _ :: _ => y end = y.
Proof. destruct l; [congruence | reflexivity]. Qed.

Lemma files_nonempty s d di fl (r : list N) : cids_of s (tables_of d di) = Some fl -> fl ++ r <> [].
Proof.
  unfold tables_of. cbn. destruct (lookup s (FDict d)); [|discriminate]. destruct (cids_of s _); [|discriminate].
  intro H. injection H as <-. discriminate.
Qed.

Section Proofs.

Variable crc : N -> list N -> N.
Variable cyid : cyaml -> N.
Variable list_of : cyfrom -> list N.
Variable info_of : cyfrom -> schema_info.
Variable dinfo_of : N -> dict_info.
Variable deps_fn : srcs -> option N -> list rname.

Hypothesis H_crc : forall i l i' l', l <> [] -> l' <> [] -> crc i l = crc i' l' -> i = i' /\ l = l'.
Hypothesis H_cyid : forall c c', cyid c = cyid c' -> c = c'.

Variable Hist : list srcs.
Definition coherent : Prop :=
  forall s1 s2 f v1 v2, In s1 Hist -> In s2 Hist -> lookup s1 f = Some v1 -> lookup s2 f = Some v2 ->
    fv_mtime v1 = fv_mtime v2 -> v1 = v2.
Definition nonzero : Prop :=
  forall s f v, In s Hist -> lookup s f = Some v -> fv_mtime v <> 0.
Hypothesis H_coh : coherent.
Hypothesis H_nz : nonzero.
Definition deps_closed : Prop :=
  forall s s0 t, In s Hist -> In s0 Hist ->
    (forall r, In r (deps_fn s0 t) -> lookup s (FRes r) = lookup s0 (FRes r)) -> deps_fn s t = deps_fn s0 t.
Hypothesis H_deps : deps_closed.

Notation crc_files := (crc_files crc).
Notation build_config := (build_config deps_fn).
Notation config_update := (config_update deps_fn).
Notation compile_packs := (compile_packs crc dinfo_of).
Notation compile_core := (compile_core crc cyid dinfo_of).
Notation compile := (compile crc cyid dinfo_of).
Notation schema_update := (schema_update crc cyid info_of dinfo_of deps_fn).
Notation build_schema := (build_schema crc cyid info_of dinfo_of deps_fn).
Notation visit := (visit crc cyid info_of dinfo_of deps_fn).
Notation deploy := (deploy crc cyid list_of info_of dinfo_of deps_fn).

Definition inv_tab (t : tab) : Prop := t_files t <> [] /\ exists i, t_ck t = crc i (t_files t).

Definition inv_prism (q : prism) : Prop :=
  p_sck q = cyid (p_cy q) /\ p_dck q = t_ck (p_tab q) /\ inv_tab (p_tab q).

Definition inv_art (k : akey) (v : art) : Prop :=
  match k, v with
  | KCy t, ACy c => exists s0, In s0 Hist /\ c = build_config s0 t
  | KTab _, ATab t => inv_tab t
  | KRev _, ATab t => inv_tab t
  | KPrism _, APrism q => inv_prism q
  | _, _ => False
  end.

Definition Inv (a : arts) : Prop := forall k v, aget a k = Some v -> inv_art k v.

Lemma Inv_nil : Inv [].
Proof. intros k v H. discriminate. Qed.

Lemma Inv_aset k v a : Inv a -> inv_art k v -> Inv (aset k v a).
Proof.
  intros Ha Hv j w. cbn. destruct (akey_eqb k j) eqn:E; [|apply Ha].
  apply akey_eqb_eq in E. subst. intro X. injection X as <-. exact Hv.
Qed.

Lemma Inv_sub c a : sub c a -> Inv a -> Inv c.
Proof. intros Hs Ha k v H. apply Ha. apply Hs. exact H. Qed.

Lemma Inv_tab a k t : Inv a -> get_tab a k = Some t -> inv_tab t.
Proof. intros Ha H. apply get_tab_iff, Ha in H. destruct k; try exact H; destruct H. Qed.

Definition step (a : arts) (W : list (akey * art)) (a' : arts) : Prop := Inv a' /\ patched a W a'.

Lemma step_refl a : Inv a -> step a [] a.
Proof. intro Ha. split; [exact Ha | intro k; reflexivity]. Qed.

Lemma step_trans a W1 a1 W2 a2 : step a W1 a1 -> step a1 W2 a2 -> step a (W1 ++ W2) a2.
Proof. intros [_ N1] [H2 N2]. split; [exact H2 | exact (patched_trans _ _ _ _ _ N1 N2)]. Qed.

Lemma step_cset a W a1 b k v :
  step a W a1 -> inv_art k v -> (b = false -> aget a1 k = Some v) -> step a (W ++ [(k, v)]) (cset b k v a1).
Proof.
  intros [H1 N1] Hv Hk. split.
  - unfold cset. destruct b; [apply Inv_aset; assumption | exact H1].
  - intro j. rewrite (aget_cset _ _ _ _ _ Hk), rev_app_distr. cbn. rewrite N1. reflexivity.
Qed.

Lemma entry_exact s s0 r :
  In s Hist -> In s0 Hist ->
  entry_stale s (r, ts_of (lookup s0 (FRes r))) = false -> lookup s0 (FRes r) = lookup s (FRes r).
Proof.
  intros Hs Hs0 Hst. unfold entry_stale in Hst. cbn [fst snd] in Hst.
  destruct (lookup s (FRes r)) as [v|] eqn:Ev; destruct (lookup s0 (FRes r)) as [v0|] eqn:Ev0;
    cbn [ts_of] in Hst; apply negb_false_iff, N.eqb_eq in Hst.
  - f_equal. eapply (H_coh s0 s); eauto.
  - destruct (H_nz s _ _ Hs Ev). symmetry. exact Hst.
  - destruct (H_nz s0 _ _ Hs0 Ev0). exact Hst.
  - reflexivity.
Qed.

Lemma keep_sound_cy s s0 t :
  In s Hist -> In s0 Hist ->
  needs_update s (Some (build_config s0 t)) = false -> build_config s0 t = build_config s t.
Proof.
  intros Hs Hs0. unfold needs_update, build_config. cbn [cy_ts]. intro Hex.
  assert (forall r, In r (deps_fn s0 t) -> lookup s0 (FRes r) = lookup s (FRes r)) as Hall.
  { revert Hex. induction (deps_fn s0 t) as [|r0 l IH]; cbn [map existsb]; intro Hex; [intros r []|].
    apply orb_false_iff in Hex. destruct Hex as [H0 Hl].
    intros r [<-|Hr]; [apply entry_exact; assumption | apply IH; assumption]. }
  rewrite (H_deps s s0 t Hs Hs0) by (intros r Hr; symmetry; apply Hall; exact Hr).
  f_equal; apply map_ext_in; intros r Hr; rewrite (Hall r Hr); reflexivity.
Qed.

Lemma fresh_cy_not_stale s t : needs_update s (Some (build_config s t)) = false.
Proof.
  unfold needs_update, build_config. cbn [cy_ts].
  induction (deps_fn s t) as [|r l IH]; cbn [map existsb]; [reflexivity|]. rewrite IH, orb_false_r.
  unfold entry_stale. cbn [fst snd]. destruct (lookup s (FRes r)); cbn [ts_of]; [rewrite N.eqb_refl|]; reflexivity.
Qed.

Lemma cfg_keep s t a :
  In s Hist -> Inv a -> needs_update s (get_cy a (KCy t)) = false ->
  aget a (KCy t) = Some (ACy (build_config s t)).
Proof.
  intros Hs Ha Hn. destruct (get_cy a (KCy t)) as [c|] eqn:E; [|discriminate].
  apply get_cy_iff in E. destruct (Ha _ _ E) as [s0 [Hs0 ->]].
  rewrite E, (keep_sound_cy s s0 t Hs Hs0 Hn). reflexivity.
Qed.

Lemma cfg_fresh s t a :
  aget a (KCy t) = Some (ACy (build_config s t)) -> needs_update s (get_cy a (KCy t)) = false.
Proof. intro H. unfold get_cy. rewrite H. apply fresh_cy_not_stale. Qed.

Lemma crc_files_nonempty i l : l <> [] -> crc_files i l = crc i l.
Proof. apply match_ne. Qed.

Lemma inv_newtab i files : files <> [] -> inv_tab {| t_ck := crc_files i files; t_files := files |}.
Proof. intro H. split; cbn; auto. exists i. apply crc_files_nonempty. exact H. Qed.

Lemma keep_sound_tab t i files :
  inv_tab t -> files <> [] -> t_ck t = crc_files i files ->
  t = {| t_ck := crc_files i files; t_files := files |}.
Proof.
  intros [Hne [j Hj]] Hf Hck. rewrite crc_files_nonempty in * by exact Hf. rewrite Hj in Hck.
  destruct (H_crc _ _ _ _ Hne Hf Hck) as [Ei El].
  destruct t as [ck fl]. cbn in *. subst. reflexivity.
Qed.

Lemma tab_keep k a i files :
  Inv a -> files <> [] -> stale_ck (get_tab a k) (crc_files i files) = false ->
  aget a k = Some (ATab {| t_ck := crc_files i files; t_files := files |}).
Proof.
  intros Ha Hf Hst. destruct (get_tab a k) as [t|] eqn:E; [|discriminate].
  apply negb_false_iff, N.eqb_eq in Hst.
  rewrite <- (keep_sound_tab t i files (Inv_tab _ _ _ Ha E) Hf Hst). apply get_tab_iff, E.
Qed.

Lemma tab_fresh k a ck fl :
  aget a k = Some (ATab {| t_ck := ck; t_files := fl |}) -> stale_ck (get_tab a k) ck = false.
Proof. intro H. unfold get_tab. rewrite H. cbn. rewrite N.eqb_refl. reflexivity. Qed.

Definition pack_writes (s : srcs) (dck : N) (packs : list N) : list (akey * art) :=
  flat_map (fun q =>
    match lookup s (FDict q) with
    | None => []
    | Some v =>
      match cids_of s (tables_of q (dinfo_of (fv_cid v))) with
      | None => []
      | Some fl => let files := fl ++ vocab_cids s (dinfo_of (fv_cid v)) in
                   [(KTab q, ATab {| t_ck := crc_files dck files; t_files := files |})]
      end
    end) packs.

Definition dict_writes (s : srcs) (d p : N) (packs : list N) (cy : cyaml) : list (akey * art) :=
  match lookup s (FDict d) with
  | None => []
  | Some v =>
    match cids_of s (tables_of d (dinfo_of (fv_cid v))) with
    | None => []
    | Some fl =>
      let files := fl ++ vocab_cids s (dinfo_of (fv_cid v)) in
      let dck := crc_files 0 files in
      let nt := {| t_ck := dck; t_files := files |} in
      (KTab d, ATab nt) :: (KRev d, ATab nt)
      :: (KPrism p, APrism {| p_dck := dck; p_sck := cyid cy; p_tab := nt; p_cy := cy |})
      :: pack_writes s dck packs
    end
  end.

Definition schema_writes (s : srcs) (x : N) : list (akey * art) :=
  match lookup s (FRes (RSchema x)) with
  | None => []
  | Some _ =>
    let cy := build_config s (Some x) in
    let info := info_of (cy_from cy) in
    (KCy (Some x), ACy cy)
    :: match si_dict info with
       | None => []
       | Some d => dict_writes s d (match si_prism info with Some p => p | None => d end) (si_packs info) cy
       end
  end.

Lemma pack_writes_keys s dck packs k v : In (k, v) (pack_writes s dck packs) -> exists q, In q packs /\ k = KTab q.
Proof.
  intro H. apply in_flat_map in H. destruct H as [q [Hq H]]. exists q. split; [exact Hq|].
  destruct (lookup s (FDict q)) as [w|]; [|destruct H]. destruct (cids_of s _); [|destruct H].
  destruct H as [E|[]]. congruence.
Qed.

Lemma schema_writes_cy s x t v :
  In (KCy t, v) (schema_writes s x) -> t = Some x /\ v = ACy (build_config s (Some x)).
Proof.
  unfold schema_writes, dict_writes. destruct (lookup s (FRes (RSchema x))); [|intros []].
  intros [E|H]; [injection E; auto | exfalso].
  destruct (si_dict _) as [d|]; [|destruct H].
  destruct (lookup s (FDict d)) as [w|]; [|destruct H]. destruct (cids_of s _); [|destruct H].
  destruct H as [E|[E|[E|H]]]; try discriminate E.
  apply pack_writes_keys in H. destruct H as [q [_ E]]. discriminate E.
Qed.

Lemma config_update_cset s t a :
  fst (config_update s t a) =
  match lookup s (FRes (res_of t)) with
  | Some _ => cset (needs_update s (get_cy a (KCy t))) (KCy t) (ACy (build_config s t)) a
  | None => a
  end.
Proof.
  unfold Stale.config_update, cset.
  destruct (needs_update s (get_cy a (KCy t))); destruct (lookup s (FRes (res_of t))); reflexivity.
Qed.

Lemma config_update_step s t a v :
  In s Hist -> lookup s (FRes (res_of t)) = Some v -> Inv a ->
  step a [(KCy t, ACy (build_config s t))] (fst (config_update s t a))
  /\ get_cy (fst (config_update s t a)) (KCy t) = Some (build_config s t).
Proof.
  intros Hs Hl Ha. rewrite config_update_cset, Hl.
  assert (step a [(KCy t, ACy (build_config s t))]
               (cset (needs_update s (get_cy a (KCy t))) (KCy t) (ACy (build_config s t)) a)) as S.
  { apply (step_cset a [] a); [apply step_refl; exact Ha | exists s; auto | apply cfg_keep; auto]. }
  split; [exact S|]. apply get_cy_iff. rewrite (proj2 S). cbn [rev app aget]. rewrite akey_eqb_refl. reflexivity.
Qed.

Lemma fst_let {A B} (X : A * list B) e : fst (let '(a, l) := X in (a, e :: l)) = fst X.
Proof. destruct X. reflexivity. Qed.

Lemma compile_packs_step s dck packs : forall a,
  Inv a -> step a (pack_writes s dck packs) (fst (compile_packs s dck packs a)).
Proof.
  induction packs as [|q r IH]; intros a Ha; cbn [Stale.compile_packs]; [apply step_refl; exact Ha|].
  unfold pack_writes. cbn [flat_map]. fold (pack_writes s dck r).
  destruct (lookup s (FDict q)) as [v|]; [|rewrite fst_let; exact (IH a Ha)].
  destruct (cids_of s (tables_of q (dinfo_of (fv_cid v)))) as [fl|] eqn:Efl; [|rewrite fst_let; exact (IH a Ha)].
  pose proof (files_nonempty _ _ _ _ (vocab_cids s (dinfo_of (fv_cid v))) Efl) as Hf.
  set (files := fl ++ vocab_cids s (dinfo_of (fv_cid v))) in *.
  set (nt := {| t_ck := crc_files dck files; t_files := files |}).
  set (rb := stale_ck (get_tab a (KTab q)) (crc_files dck files)).
  assert (step a [(KTab q, ATab nt)] (cset rb (KTab q) (ATab nt) a)) as S1.
  { apply (step_cset a [] a); [apply step_refl; exact Ha | apply inv_newtab; exact Hf | apply tab_keep; auto]. }
  rewrite fst_let. exact (step_trans _ _ _ _ _ S1 (IH _ (proj1 S1))).
Qed.

Section Core.
Variables (s : srcs) (d p : N) (packs : list N) (cy : cyaml) (files : list N).
Hypothesis Hfiles : files <> [].
Let dck := crc_files 0 files.
Let nt := {| t_ck := dck; t_files := files |}.
Let fp := {| p_dck := dck; p_sck := cyid cy; p_tab := nt; p_cy := cy |}.
Definition rb_p_of (X : arts) : bool :=
  match get_prism X (KPrism p) with
  | Some q => negb (p_dck q =? dck) || negb (p_sck q =? cyid cy)
  | None => true
  end.
Definition rb_t_of (X : arts) : bool :=
  stale_ck (get_tab X (KTab d)) dck || stale_ck (get_tab X (KRev d)) dck.
Definition core_nf (X : arts) : arts :=
  cset (rb_p_of X) (KPrism p) (APrism fp)
       (cset (rb_t_of X) (KRev d) (ATab nt) (cset (rb_t_of X) (KTab d) (ATab nt) X)).

Lemma rb_t_keep X :
  Inv X -> rb_t_of X = false -> aget X (KTab d) = Some (ATab nt) /\ aget X (KRev d) = Some (ATab nt).
Proof.
  intros HX H. apply orb_false_iff in H. destruct H as [H1 H2]. split; apply tab_keep; auto.
Qed.

Lemma rb_t_fresh X :
  aget X (KTab d) = Some (ATab nt) -> aget X (KRev d) = Some (ATab nt) -> rb_t_of X = false.
Proof.
  intros H1 H2. unfold rb_t_of. rewrite (tab_fresh _ _ _ _ H1), (tab_fresh _ _ _ _ H2). reflexivity.
Qed.

Lemma rb_p_keep X : Inv X -> rb_p_of X = false -> aget X (KPrism p) = Some (APrism fp).
Proof.
  intros HX H. unfold rb_p_of in H. destruct (get_prism X (KPrism p)) as [q|] eqn:E; [|discriminate].
  apply get_prism_iff in E. rewrite E. destruct (HX _ _ E) as [Hs [Hd Ht]].
  apply orb_false_iff in H. destruct H as [H1 H2].
  apply negb_false_iff, N.eqb_eq in H1. apply negb_false_iff, N.eqb_eq in H2.
  rewrite Hs in H2. apply H_cyid in H2. rewrite Hd in H1.
  pose proof (keep_sound_tab _ _ _ Ht Hfiles H1) as Et.
  destruct q as [qd qs qt qc]. cbn [p_dck p_sck p_tab p_cy] in *. subst. reflexivity.
Qed.

Lemma rb_p_fresh X : aget X (KPrism p) = Some (APrism fp) -> rb_p_of X = false.
Proof. intro H. unfold rb_p_of, get_prism. rewrite H. cbn. rewrite !N.eqb_refl. reflexivity. Qed.

Lemma core_nf_fresh X : rb_t_of X = false -> rb_p_of X = false -> core_nf X = X.
Proof. intros H1 H2. unfold core_nf. rewrite H1, H2. reflexivity. Qed.

Lemma core_nf_step X :
  Inv X -> step X [(KTab d, ATab nt); (KRev d, ATab nt); (KPrism p, APrism fp)] (core_nf X).
Proof.
  intro HX. pose proof (inv_newtab 0 files Hfiles) as Hnt. unfold core_nf.
  apply (step_cset X [(KTab d, ATab nt); (KRev d, ATab nt)]).
  - apply (step_cset X [(KTab d, ATab nt)]).
    + apply (step_cset X []); [apply step_refl; exact HX | exact Hnt | intro H; apply (rb_t_keep X HX H)].
    + exact Hnt.
    + intro H. rewrite aget_cset_other by discriminate. apply (rb_t_keep X HX H).
  - split; [reflexivity|]. split; [reflexivity | exact Hnt].
  - intro H. rewrite !aget_cset_other by discriminate. apply rb_p_keep; assumption.
Qed.

Lemma compile_core_src X :
  (rb_t_of X = false -> aget X (KTab d) = Some (ATab nt)) ->
  compile_core s d p packs cy true dck files (stale_ck (get_tab X (KTab d)) dck) X
  = let '(a, l) := compile_packs s dck packs (core_nf X) in (a, LDict d true (rb_t_of X) (rb_p_of X) :: l, true).
Proof.
  intro Hk. unfold Stale.compile_core, core_nf, cset. fold dck nt.
  change (stale_ck (get_tab X (KTab d)) dck || stale_ck (get_tab X (KRev d)) dck) with (rb_t_of X).
  change (match get_prism X (KPrism p) with
          | Some q => negb (p_dck q =? dck) || negb (p_sck q =? cyid cy)
          | None => true end) with (rb_p_of X).
  (* whether just written or kept, the table the prism is built from is [nt] *)
  assert (get_tab (if rb_t_of X then aset (KRev d) (ATab nt) (aset (KTab d) (ATab nt) X) else X) (KTab d) = Some nt) as Eg.
  { destruct (rb_t_of X); [rewrite get_tab_aset_other by discriminate; apply get_tab_aset | apply get_tab_iff, Hk; reflexivity]. }
  destruct (rb_p_of X); [rewrite Eg; cbn [t_files nt]; rewrite match_ne by exact Hfiles|]; destruct (rb_t_of X); reflexivity.
Qed.
End Core.

Lemma compile_step s d :
  lookup s (FDict d) <> None ->
  exists ok, forall p packs cy a, Inv a ->
    step a (dict_writes s d p packs cy) (fst (fst (compile s d p packs cy a))) /\ snd (compile s d p packs cy a) = ok.
Proof.
  intro Hd. unfold Stale.compile, dict_writes.
  destruct (lookup s (FDict d)) as [v|]; [|congruence].
  destruct (cids_of s (tables_of d (dinfo_of (fv_cid v)))) as [fl|] eqn:Efl.
  2:{ exists false. intros p packs cy a Ha. split; [apply step_refl; exact Ha | reflexivity]. }
  exists true. intros p packs cy a Ha. cbn zeta.
  pose proof (files_nonempty _ _ _ _ (vocab_cids s (dinfo_of (fv_cid v))) Efl) as Hf.
  set (files := fl ++ vocab_cids s (dinfo_of (fv_cid v))) in *.
  rewrite (compile_core_src s d p packs cy files Hf a) by (intro H; apply (rb_t_keep d files Hf a Ha H)).
  pose proof (core_nf_step d p cy files Hf a Ha) as S1.
  pose proof (compile_packs_step s (crc_files 0 files) packs _ (proj1 S1)) as S2.
  destruct (compile_packs s (crc_files 0 files) packs (core_nf d p cy files a)).
  split; [|reflexivity]. exact (step_trans _ _ _ _ _ S1 S2).
Qed.

(** the dictionary a schema names has a source file (the "no source, reuse the
    binary" branch is outside the property's edit alphabet) *)
Definition sourced (s : srcs) (x : N) : bool :=
  match si_dict (info_of (cy_from (build_config s (Some x)))) with
  | None => true
  | Some d => match lookup s (FDict d) with Some _ => true | None => false end
  end.

Definition wf_srcs (s : srcs) : Prop :=
  lookup s (FRes RDefault) <> None /\
  (forall x, In x (list_of (cy_from (build_config s None))) -> lookup s (FRes (RSchema x)) <> None) /\
  (forall x, lookup s (FRes (RSchema x)) <> None -> sourced s x = true).

Definition targets (s : srcs) : list N :=
  flat_map (fun x => x :: si_deps (info_of (cy_from (build_config s (Some x)))))
           (list_of (cy_from (build_config s None))).

Section Sources.
Variable s : srcs.
Hypothesis Hs : In s Hist.

Lemma schema_update_step x dep :
  (lookup s (FRes (RSchema x)) <> None -> sourced s x = true) ->
  exists ok, forall a, Inv a ->
    step a (schema_writes s x) (fst (fst (schema_update s x dep a))) /\ snd (schema_update s x dep a) = ok.
Proof.
  intro Hsrc. unfold Stale.schema_update, schema_writes.
  destruct (lookup s (FRes (RSchema x))) as [v|] eqn:El.
  2:{ exists dep. intros a Ha. split; [apply step_refl; exact Ha | reflexivity]. }
  assert (sourced s x = true) as Hsd by (apply Hsrc; congruence). unfold sourced in Hsd.
  destruct (si_dict (info_of (cy_from (build_config s (Some x))))) as [d|] eqn:Ed.
  - assert (lookup s (FDict d) <> None) as Hd by (destruct (lookup s (FDict d)); congruence).
    destruct (compile_step s d Hd) as [ok Hc]. exists ok. intros a Ha.
    destruct (config_update_step s (Some x) a v Hs El Ha) as [S1 Pa].
    destruct (config_update s (Some x) a) as [a1 l1]. cbn [fst] in *. rewrite Pa, Ed.
    match goal with |- context [compile s d ?p ?pk ?cy a1] =>
      destruct (Hc p pk cy a1 (proj1 S1)) as [S2 Eok]; destruct (compile s d p pk cy a1) as [[a2 l2] ok2] end.
    split; [exact (step_trans _ [_] _ _ _ S1 S2) | exact Eok].
  - exists true. intros a Ha.
    destruct (config_update_step s (Some x) a v Hs El Ha) as [S1 Pa].
    destruct (config_update s (Some x) a) as [a1 l1]. cbn [fst] in *. rewrite Pa, Ed.
    split; [exact S1 | reflexivity].
Qed.

Hypothesis Hsrc : forall y, lookup s (FRes (RSchema y)) <> None -> sourced s y = true.

(** [visit] reads the dependencies of a built schema from its compiled config in the store *)
Definition good (a : arts) (b : list N) : Prop :=
  Inv a /\ forall y, In y b -> lookup s (FRes (RSchema y)) <> None ->
                     get_cy a (KCy (Some y)) = Some (build_config s (Some y)).

Lemma good_step a b x a' : good a b -> step a (schema_writes s x) a' -> good a' (x :: b).
Proof.
  intros [_ Hb] [Ha' N]. split; [exact Ha'|]. intros y Hy Hl. apply get_cy_iff.
  destruct (N.eq_dec x y) as [->|Hne].
  - apply (patched_get _ _ _ _ _ N).
    + unfold schema_writes. destruct (lookup s (FRes (RSchema y))); [left; reflexivity | congruence].
    + intros v' Hin. apply schema_writes_cy in Hin. apply Hin.
  - destruct Hy as [E|Hy]; [congruence|]. rewrite (patched_frame _ [] _ _ _ N); [apply get_cy_iff, Hb; assumption|].
    intros v' Hin. apply schema_writes_cy in Hin. destruct Hin as [E _]. congruence.
Qed.

(** the order of the quantifiers says that the schemas [F] adds and its verdict
    depend on neither the store nor the log *)
Definition runs (F : wstate -> wstate) (ys : list N) : Prop :=
  forall b ok, exists nb ok', incl ys (nb ++ b) /\
    forall a l, good a b -> exists a' l',
      F (a, l, b, ok) = (a', l', nb ++ b, ok') /\ good a' (nb ++ b) /\
      patched a (flat_map (schema_writes s) (rev nb)) a'.

Lemma runs_then F G ys zs : runs F ys -> runs G zs -> runs (fun st => G (F st)) (ys ++ zs).
Proof.
  intros HF HG b ok. destruct (HF b ok) as (n1 & ok1 & I1 & R1). destruct (HG (n1 ++ b) ok1) as (n2 & ok2 & I2 & R2).
  exists (n2 ++ n1), ok2. rewrite <- app_assoc. split.
  - apply incl_app; [|exact I2]. intros y Hy. apply in_or_app. right. apply I1, Hy.
  - intros a l Hg. destruct (R1 a l Hg) as (a1 & l1 & E1 & G1 & N1). destruct (R2 a1 l1 G1) as (a2 & l2 & E2 & G2 & N2).
    exists a2, l2. rewrite E1, E2. split; [reflexivity|]. split; [exact G2|].
    rewrite rev_app_distr, flat_map_app. exact (patched_trans _ _ _ _ _ N1 N2).
Qed.

Lemma runs_fold (f : wstate -> N -> wstate) (g : N -> list N) xs :
  (forall x, In x xs -> runs (fun st => f st x) (g x)) -> runs (fold_left f xs) (flat_map g xs).
Proof.
  induction xs as [|x r IH]; intro H.
  - intros b ok. exists [], ok. split; [apply incl_nil_l|]. intros a l Hg. exists a, l.
    split; [reflexivity|]. split; [exact Hg | intro k; reflexivity].
  - apply (runs_then (fun st => f st x) (fold_left f r)); [apply H; left; reflexivity|].
    apply IH. intros z Hz. apply H. right. exact Hz.
Qed.

Lemma build_schema_runs dep x : runs (fun st => build_schema s dep st x) [x].
Proof.
  intros b ok. unfold Stale.build_schema. destruct (existsb (N.eqb x) b) eqn:Ex.
  - exists [], ok. split; [intros y [<-|[]]; apply existsb_eqb_in, Ex|]. intros a l Hg. exists a, l.
    split; [reflexivity|]. split; [exact Hg | intro k; reflexivity].
  - destruct (schema_update_step x dep (Hsrc x)) as [okx Hx]. exists [x], (ok && okx).
    split; [intros y [<-|[]]; left; reflexivity|]. intros a l Hg.
    destruct (Hx a (proj1 Hg)) as [S Eok]. destruct (schema_update s x dep a) as [[a' l'] ok']. cbn [fst snd] in *.
    exists a', (l ++ l'). subst ok'. split; [reflexivity|]. split; [exact (good_step _ _ _ _ Hg S)|].
    cbn. rewrite app_nil_r. exact (proj2 S).
Qed.

Lemma visit_runs x :
  lookup s (FRes (RSchema x)) <> None ->
  runs (fun st => visit s st x) (x :: si_deps (info_of (cy_from (build_config s (Some x))))).
Proof.
  intros Hx b ok.
  (* on a good store [visit] is [build_schema] followed by the fold over the dependencies the sources name *)
  pose proof (runs_then _ _ _ _ (build_schema_runs false x)
               (runs_fold (build_schema s true) (fun y => [y]) (si_deps (info_of (cy_from (build_config s (Some x)))))
                          (fun y _ => build_schema_runs true y))) as R.
  destruct (R b ok) as (nb & ok' & I & R'). exists nb, ok'. split.
  - intros y [<-|Hy]; apply I; [left; reflexivity | right]. apply in_flat_map. exists y. split; [exact Hy | left; reflexivity].
  - intros a l Hg. destruct (R' a l Hg) as (a' & l' & E & G' & N'). exists a', l'. split; [|split; assumption].
    rewrite <- E. unfold Stale.visit.
    destruct (build_schema_runs false x b ok) as (n1 & ok1 & I1 & R1). destruct (R1 a l Hg) as (a1 & l1 & E1 & G1 & _).
    rewrite E1, (proj2 G1 x (I1 x (or_introl eq_refl)) Hx). reflexivity.
Qed.

End Sources.

Lemma deploy_runs s :
  In s Hist -> wf_srcs s ->
  exists nb ok, incl (targets s) nb /\ forall a, Inv a ->
    step a ((KCy None, ACy (build_config s None)) :: flat_map (schema_writes s) (rev nb)) (fst (fst (deploy s a)))
    /\ snd (deploy s a) = ok.
Proof.
  intros Hs [Hdef [Hlist Hsrc]]. destruct (lookup s (FRes RDefault)) as [v|] eqn:El; [|congruence].
  destruct (runs_fold s (visit s) _ _ (fun x Hx => visit_runs s Hs Hsrc x (Hlist x Hx)) [] true) as (nb & ok & I & R).
  rewrite app_nil_r in I. exists nb, ok. split; [exact I|]. intros a Ha. unfold Stale.deploy.
  destruct (config_update_step s None a v Hs El Ha) as [S1 Pa].
  destruct (config_update s None a) as [a1 l1]. cbn [fst] in *. rewrite Pa.
  destruct (R a1 l1) as (a2 & l2 & E & G2 & N2); [split; [exact (proj1 S1) | intros y []]|].
  rewrite E. split; [|reflexivity]. exact (step_trans _ [_] _ _ _ S1 (conj (proj1 G2) N2)).
Qed.

Definition Rel (a c : arts) : Prop := Inv a /\ sub c a.

Theorem deploy_sim s a c :
  In s Hist -> wf_srcs s -> Inv a -> sub c a ->
  Rel (fst (fst (deploy s a))) (fst (fst (deploy s c))) /\ snd (deploy s a) = snd (deploy s c).
Proof.
  intros Hs Hwf Ha Hsub. destruct (deploy_runs s Hs Hwf) as (nb & ok & _ & R).
  destruct (R a Ha) as [[Ha' Na] Ea]. destruct (R c (Inv_sub _ _ Hsub Ha)) as [[_ Nc] Ec].
  split; [|congruence]. split; [exact Ha' | exact (patched_sub _ _ _ _ _ Na Nc Hsub)].
Qed.

Corollary deploy_inv s a :
  In s Hist -> wf_srcs s -> Inv a -> Inv (fst (fst (deploy s a))).
Proof.
  intros Hs Hwf Ha. apply (deploy_sim s a a Hs Hwf Ha (sub_refl a)).
Qed.

(** C13, and the core of C12: from ANY invariant store - in particular
    one from which a kill removed or spoiled (rejected by Load) any set of
    artefacts - a deployment contains every artefact of the clean deployment
    of the same sources, identically, and succeeds iff the clean one does *)
Theorem redeploy_completes s a :
  In s Hist -> wf_srcs s -> Inv a ->
  sub (fst (fst (deploy s []))) (fst (fst (deploy s a))) /\ snd (deploy s a) = snd (deploy s []).
Proof.
  intros Hs Hwf Ha.
  destruct (deploy_sim s a [] Hs Hwf Ha (sub_nil a)) as [[_ Hsub] Hok]. split; auto.
Qed.

Fixpoint run_hist (hs : list srcs) (a : arts) : arts :=
  match hs with
  | [] => a
  | s :: r => run_hist r (fst (fst (deploy s a)))
  end.

Lemma run_hist_inv hs : forall a,
  (forall s, In s hs -> In s Hist /\ wf_srcs s) -> Inv a -> Inv (run_hist hs a).
Proof.
  induction hs as [|s r IH]; intros a Hh Ha; cbn; auto.
  apply IH.
  - intros s' Hs'. apply Hh. right. exact Hs'.
  - destruct (Hh s (or_introl eq_refl)) as [Hs Hwf]. apply deploy_inv; auto.
Qed.

Theorem deploy_reaches_clean hs a s :
  (forall s', In s' hs -> In s' Hist /\ wf_srcs s') -> In s Hist -> wf_srcs s -> Inv a ->
  sub (fst (fst (deploy s []))) (fst (fst (deploy s (run_hist hs a))))
  /\ snd (deploy s (run_hist hs a)) = snd (deploy s []).
Proof.
  intros Hh Hs Hwf Ha. apply redeploy_completes; auto. apply run_hist_inv; auto.
Qed.

Theorem edited_schema_never_stale s x dep a v d vd fl :
  In s Hist -> Inv a -> lookup s (FRes (RSchema x)) = Some v ->
  let cy := build_config s (Some x) in
  let info := info_of (cy_from cy) in
  si_dict info = Some d -> lookup s (FDict d) = Some vd ->
  cids_of s (tables_of d (dinfo_of (fv_cid vd))) = Some fl ->
  let files := fl ++ vocab_cids s (dinfo_of (fv_cid vd)) in
  let nt := {| t_ck := crc_files 0 files; t_files := files |} in
  let p := match si_prism info with Some p => p | None => d end in
  let a' := fst (fst (schema_update s x dep a)) in
  get_cy a' (KCy (Some x)) = Some cy /\
  get_tab a' (KRev d) = Some nt /\
  get_prism a' (KPrism p) = Some {| p_dck := crc_files 0 files; p_sck := cyid cy; p_tab := nt; p_cy := cy |} /\
  (~ In d (si_packs info) -> get_tab a' (KTab d) = Some nt).
Proof.
  intros Hs Ha El cy info Hd Evd Efl files nt p a'.
  destruct (schema_update_step s Hs x dep) as [ok H].
  { intros _. unfold sourced. fold cy. fold info. rewrite Hd, Evd. reflexivity. }
  destruct (H a Ha) as [[_ N] _]. fold a' in N.
  unfold schema_writes, dict_writes in N. rewrite El in N. fold cy info in N. rewrite Hd, Evd, Efl in N.
  fold files nt p in N. cbn zeta in N.
  (* a key that no pack writes holds what the four writes before the packs leave there *)
  assert (forall k, (forall q, In q (si_packs info) -> k <> KTab q) ->
            forall w, ~ In (k, w) (pack_writes s (crc_files 0 files) (si_packs info))) as Hpk.
  { intros k Hk w Hw. apply pack_writes_keys in Hw. destruct Hw as [q [Hq ->]]. exact (Hk q Hq eq_refl). }
  pose proof (fun k Hk => patched_frame _ [_; _; _; _] _ _ k N (Hpk k Hk)) as R. cbn [rev app] in R.
  split; [|split; [|split]].
  - apply get_cy_iff. rewrite R by (intros; discriminate). cbn. rewrite N.eqb_refl. reflexivity.
  - apply get_tab_iff. rewrite R by (intros; discriminate). cbn. rewrite N.eqb_refl. reflexivity.
  - apply get_prism_iff. rewrite R by (intros; discriminate). cbn. rewrite N.eqb_refl. reflexivity.
  - intro Hnp. apply get_tab_iff. rewrite R by (intros q Hq E; injection E as ->; contradiction).
    cbn. rewrite N.eqb_refl. reflexivity.
Qed.

(** the window between table->Save() and the creation of the reverse db:
    a table that loads with the right checksum but whose reverse db is missing
    (or rejected by Load) still forces the rebuild of both *)
Theorem missing_reverse_forces_rebuild s d p packs cy a vd fl :
  lookup s (FDict d) = Some vd ->
  cids_of s (tables_of d (dinfo_of (fv_cid vd))) = Some fl ->
  get_tab a (KRev d) = None ->
  exists bp l, snd (fst (compile s d p packs cy a)) = LDict d true true bp :: l.
Proof.
  intros Evd Efl Hrev. unfold Stale.compile. rewrite Evd, Efl.
  pose proof (files_nonempty _ _ _ _ (vocab_cids s (dinfo_of (fv_cid vd))) Efl) as Hf.
  assert (rb_t_of d (fl ++ vocab_cids s (dinfo_of (fv_cid vd))) a = true) as Hrb.
  { unfold rb_t_of. rewrite Hrev. apply orb_true_r. }
  rewrite (compile_core_src s d p packs cy _ Hf a) by (rewrite Hrb; discriminate). rewrite Hrb.
  destruct (compile_packs _ _ _ _). eexists. eexists. reflexivity.
Qed.

Theorem noop_deploy_rewrites_nothing_partial s t d p cy files X :
  In s Hist -> files <> [] ->
  let dck := crc_files 0 files in
  let nt := {| t_ck := dck; t_files := files |} in
  (* a freshly compiled config is not stale *)
  needs_update s (Some (build_config s t)) = false /\
  (* fresh table, reverse db and prism are all kept, nothing is written *)
  (get_tab X (KTab d) = Some nt -> get_tab X (KRev d) = Some nt ->
   get_prism X (KPrism p) = Some {| p_dck := dck; p_sck := cyid cy; p_tab := nt; p_cy := cy |} ->
   rb_t_of d files X = false /\ rb_p_of p cy files X = false /\ core_nf d p cy files X = X) /\
  (* a fresh pack is kept *)
  (forall q i, get_tab X (KTab q) = Some {| t_ck := crc_files i files; t_files := files |} ->
               stale_ck (get_tab X (KTab q)) (crc_files i files) = false).
Proof.
  intros _ _ dck nt. split; [apply fresh_cy_not_stale|]. split.
  - intros Et Er Ep.
    pose proof (rb_t_fresh d files X (proj1 (get_tab_iff _ _ _) Et) (proj1 (get_tab_iff _ _ _) Er)) as H1.
    pose proof (rb_p_fresh p cy files X (proj1 (get_prism_iff _ _ _) Ep)) as H2.
    split; [exact H1|]. split; [exact H2|]. apply core_nf_fresh; assumption.
  - intros q i Eq. apply (tab_fresh _ _ _ files), get_tab_iff, Eq.
Qed.

Definition has (a : arts) (W : list (akey * art)) : Prop := forall k v, In (k, v) W -> aget a k = Some v.
Definition norebuild (l : list logent) : Prop := forallb (fun e => negb (rebuilt_entry e)) l = true.

Lemma has_cons a k v W : has a ((k, v) :: W) -> aget a k = Some v /\ has a W.
Proof. intro H. split; [apply H; left; reflexivity | intros j w Hin; apply H; right; exact Hin]. Qed.

Lemma norebuild_app l l' : norebuild l -> norebuild l' -> norebuild (l ++ l').
Proof. unfold norebuild. intros H H'. rewrite forallb_app, H, H'. reflexivity. Qed.

Definition settled (s : srcs) (a : arts) : Prop :=
  aget a (KCy None) = Some (ACy (build_config s None)) /\
  forall x, In x (targets s) -> has a (schema_writes s x).

Lemma config_update_noop s t a :
  aget a (KCy t) = Some (ACy (build_config s t)) -> config_update s t a = (a, [LCfg t false]).
Proof. intro Hg. unfold Stale.config_update. rewrite (cfg_fresh s t a Hg). reflexivity. Qed.

Lemma compile_packs_noop s dck packs a :
  has a (pack_writes s dck packs) -> exists l, compile_packs s dck packs a = (a, l) /\ norebuild l.
Proof.
  induction packs as [|q r IH]; intro Hh; cbn [Stale.compile_packs]; [exists []; split; reflexivity|].
  unfold pack_writes in Hh. cbn [flat_map] in Hh. fold (pack_writes s dck r) in Hh.
  destruct (lookup s (FDict q)) as [v|]; [destruct (cids_of s (tables_of q (dinfo_of (fv_cid v)))) as [fl|]|].
  - apply has_cons in Hh. destruct Hh as [Hq Hr]. destruct (IH Hr) as [l [El Hl]].
    rewrite (tab_fresh _ _ _ _ Hq), El. exists (LPack q 2 :: l). split; auto.
  - destruct (IH Hh) as [l [El Hl]]. rewrite El. exists (LPack q 3 :: l). split; auto.
  - destruct (IH Hh) as [l [El Hl]]. rewrite El. exists (LPack q 0 :: l). split; auto.
Qed.

Lemma compile_noop s d p packs cy a :
  has a (dict_writes s d p packs cy) -> lookup s (FDict d) <> None ->
  exists l ok, compile s d p packs cy a = (a, l, ok) /\ norebuild l.
Proof.
  intros Hh Hsrc. unfold Stale.compile. unfold dict_writes in Hh.
  destruct (lookup s (FDict d)) as [v|]; [|congruence].
  destruct (cids_of s (tables_of d (dinfo_of (fv_cid v)))) as [fl|] eqn:Efl.
  2:{ exists [LDictFail d], false. split; reflexivity. }
  pose proof (files_nonempty _ _ _ _ (vocab_cids s (dinfo_of (fv_cid v))) Efl) as Hf.
  cbn zeta in *. set (files := fl ++ vocab_cids s (dinfo_of (fv_cid v))) in *.
  apply has_cons in Hh. destruct Hh as [Ht Hh]. apply has_cons in Hh. destruct Hh as [Hr Hh].
  apply has_cons in Hh. destruct Hh as [Hp Hpk].
  pose proof (rb_t_fresh d files a Ht Hr) as H1. pose proof (rb_p_fresh p cy files a Hp) as H2.
  destruct (compile_packs_noop s (crc_files 0 files) packs a Hpk) as [l [El Hl]].
  rewrite (compile_core_src s d p packs cy files Hf a (fun _ => Ht)), core_nf_fresh, H1, H2, El by assumption.
  exists (LDict d true false false :: l), true. split; auto.
Qed.

Lemma schema_update_noop s x dep a :
  (lookup s (FRes (RSchema x)) <> None -> sourced s x = true) ->
  has a (schema_writes s x) ->
  exists l ok, schema_update s x dep a = (a, l, ok) /\ norebuild l.
Proof.
  intros Hsrc Hh. unfold Stale.schema_update. unfold schema_writes in Hh.
  destruct (lookup s (FRes (RSchema x))) as [v|] eqn:El.
  2:{ exists [LSchemaMissing x dep], dep. split; reflexivity. }
  apply has_cons in Hh. destruct Hh as [Hcy Hh].
  rewrite (config_update_noop s (Some x) a Hcy), (proj2 (get_cy_iff _ _ _) Hcy).
  assert (sourced s x = true) as Hsd by (apply Hsrc; congruence). unfold sourced in Hsd.
  destruct (si_dict (info_of (cy_from (build_config s (Some x))))) as [d|].
  2:{ exists [LCfg (Some x) false], true. split; reflexivity. }
  assert (lookup s (FDict d) <> None) as Hd by (destruct (lookup s (FDict d)); congruence).
  match goal with |- context [compile s d ?p ?pk ?cy a] =>
    destruct (compile_noop s d p pk cy a Hh Hd) as [l [ok [Ec Hl]]] end.
  rewrite Ec. exists ([LCfg (Some x) false] ++ l), ok. split; auto.
Qed.

Definition calm (a : arts) (st : wstate) : Prop := exists l b ok, st = (a, l, b, ok) /\ norebuild l.

Section Settled.
Variables (s : srcs) (a : arts).
Hypothesis Hsrc : forall y, lookup s (FRes (RSchema y)) <> None -> sourced s y = true.

Lemma build_schema_calm dep x st : has a (schema_writes s x) -> calm a st -> calm a (build_schema s dep st x).
Proof.
  intros Hh (l & b & ok & -> & Hl). unfold Stale.build_schema.
  destruct (existsb (N.eqb x) b); [exists l, b, ok; auto|].
  destruct (schema_update_noop s x dep a (Hsrc x) Hh) as [l2 [ok2 [E H2]]]. rewrite E.
  exists (l ++ l2), (x :: b), (ok && ok2). split; [reflexivity | apply norebuild_app; assumption].
Qed.

Lemma visit_calm x st :
  lookup s (FRes (RSchema x)) <> None ->
  (forall y, In y (x :: si_deps (info_of (cy_from (build_config s (Some x))))) -> has a (schema_writes s y)) ->
  calm a st -> calm a (visit s st x).
Proof.
  intros Hx Hh Hc. unfold Stale.visit.
  destruct (build_schema_calm false x st (Hh x (or_introl eq_refl)) Hc) as (l1 & b1 & ok1 & E & H1). rewrite E.
  assert (get_cy a (KCy (Some x)) = Some (build_config s (Some x))) as Hcy.
  { apply get_cy_iff, (Hh x (or_introl eq_refl)). unfold schema_writes.
    destruct (lookup s (FRes (RSchema x))); [left; reflexivity | congruence]. }
  rewrite Hcy. apply fold_left_inv; [exists l1, b1, ok1; auto|].
  intros st' y Hy. apply build_schema_calm, Hh. right. exact Hy.
Qed.
End Settled.

(** workspace-level no-op: the deployment of a settled build directory returns
    the very same store and logs no rebuild *)
Theorem noop_deploy_rewrites_nothing s a :
  In s Hist -> wf_srcs s -> settled s a ->
  exists l ok, deploy s a = (a, l, ok) /\ norebuild l.
Proof.
  intros _ [Hdef [Hlist Hsrc]] [Hcd Hset]. unfold Stale.deploy.
  rewrite (config_update_noop s None a Hcd), (proj2 (get_cy_iff _ _ _) Hcd).
  destruct (fold_left_inv (calm a) (visit s) (list_of (cy_from (build_config s None))) (a, [LCfg None false], [], true))
    as (l & b & ok & E & Hl).
  - exists [LCfg None false], [], true. split; reflexivity.
  - intros st x Hx. apply (visit_calm s a Hsrc x st (Hlist x Hx)). intros y Hy.
    apply Hset, in_flat_map. exists x. split; assumption.
  - rewrite E. exists l, ok. split; [reflexivity | exact Hl].
Qed.

(** a deployment settles the build directory, provided no two updates
    write different artefacts under one name (no two schemas share a prism name
    with different compiled configs; a pack table belongs to one dictionary) *)

Definition no_shared_outputs (s : srcs) : Prop :=
  forall x y k v v', In (k, v) (schema_writes s x) -> In (k, v') (schema_writes s y) -> v = v'.

Theorem deploy_settles s a :
  In s Hist -> wf_srcs s -> no_shared_outputs s -> Inv a ->
  settled s (fst (fst (deploy s a))).
Proof.
  intros Hs Hwf Hno Ha. destruct (deploy_runs s Hs Hwf) as (nb & ok & I & R).
  destruct (R a Ha) as [[_ N] _].
  (* the default config is written once; under [no_shared_outputs] so is every other key *)
  split.
  - apply (patched_get _ _ _ _ _ N); [left; reflexivity|]. intros v' [E|H]; [congruence|].
    apply in_flat_map in H. destruct H as [y [_ Hy]]. apply schema_writes_cy in Hy. destruct Hy as [E _]. discriminate E.
  - intros x Hx k v Hin. apply (patched_get _ _ _ _ _ N).
    + right. apply in_flat_map. exists x. split; [apply -> in_rev; apply I, Hx | exact Hin].
    + intros v' [E|H].
      * injection E as <- _. apply schema_writes_cy in Hin. destruct Hin as [E _]. discriminate E.
      * apply in_flat_map in H. destruct H as [y [_ Hy]]. symmetry. exact (Hno x y k v v' Hin Hy).
Qed.

Theorem noop_second_deploy s a :
  In s Hist -> wf_srcs s -> no_shared_outputs s -> Inv a ->
  let a1 := fst (fst (deploy s a)) in
  exists l ok, deploy s a1 = (a1, l, ok) /\ norebuild l.
Proof.
  intros Hs Hwf Hno Ha a1. apply noop_deploy_rewrites_nothing; auto. apply deploy_settles; auto.
Qed.

End Proofs.

(** [H_crc] and [H_cyid] by name, for statements made outside the section *)
Definition crc_inj (crc : N -> list N -> N) : Prop :=
  forall i l i' l', l <> [] -> l' <> [] -> crc i l = crc i' l' -> i = i' /\ l = l'.
Definition cyid_inj (cyid : cyaml -> N) : Prop := forall c c', cyid c = cyid c' -> c = c'.

(** unconditional no-op statement: a second deployment of unchanged sources logs
    no rebuild.  False of the model (and of librime) when two schema updates
    write different artefacts under one name - [noop_shared_prism_witness];
    proved under that hypothesis as [noop_second_deploy] ([no_shared_outputs]). *)
Definition noop_deploy_rewrites_nothing_full : Prop :=
  forall crc cyid list_of info_of dinfo_of deps_fn, crc_inj crc -> cyid_inj cyid ->
  forall Hist, coherent Hist -> nonzero Hist -> deps_closed deps_fn Hist ->
  forall s a, In s Hist -> wf_srcs list_of info_of deps_fn s -> Inv crc cyid deps_fn Hist a ->
  let a1 := fst (fst (deploy crc cyid list_of info_of dinfo_of deps_fn s a)) in
  forallb (fun e => negb (rebuilt_entry e)) (snd (fst (deploy crc cyid list_of info_of dinfo_of deps_fn s a1))) = true.

Definition demo_crc (i : N) (l : list N) : N := fold_left (fun a x => a * 31 + x + 1) l (i + 7).
Definition demo_cyid (c : cyaml) : N :=
  fold_left (fun a e => a * 17 + snd e + 3) (cy_ts c) 5.
Definition demo_list_of (_ : cyfrom) : list N := [1; 2].
Definition demo_info_of (_ : cyfrom) : schema_info :=
  {| si_dict := Some 10; si_prism := None; si_packs := []; si_deps := [] |}.
Definition demo_dinfo_of (_ : N) : dict_info := {| di_imports := []; di_vocab := None |}.

Definition demo_srcs : srcs :=
  [(FRes RDefault, mkver 1 100); (FRes (RSchema 1), mkver 2 101); (FRes (RSchema 2), mkver 3 102);
   (FDict 10, mkver 4 103)].

Definition demo_deps (_ : srcs) (t : option N) : list rname := deps_of t.
Definition demo_deploy := deploy demo_crc demo_cyid demo_list_of demo_info_of demo_dinfo_of demo_deps.

(** [wf_srcs] is not vacuous: a workspace that meets it, and whose deployment succeeds *)
Example wf_demo : wf_srcs demo_list_of demo_info_of demo_deps demo_srcs.
Proof.
  split; [discriminate|]. split.
  - intros x [<-|[<-|[]]]; discriminate.
  - intros x _. reflexivity.
Qed.

Example deploy_demo_runs :
  snd (demo_deploy demo_srcs []) = true /\
  map fst (fst (fst (demo_deploy demo_srcs []))) =
  [KPrism 10; KCy (Some 2); KPrism 10; KRev 10; KTab 10; KCy (Some 1); KCy None].
Proof. vm_compute. split; reflexivity. Qed.

(** observation 1 (hypothesis, not a finding): two schemas with different compiled
    configs sharing one prism name make every deployment rebuild that prism *)
Example noop_shared_prism_witness :
  let a1 := fst (fst (demo_deploy demo_srcs [])) in
  existsb rebuilt_entry (snd (fst (demo_deploy demo_srcs a1))) = true.
Proof. vm_compute. reflexivity. Qed.

(** observation 2 (outside the edit alphabet): deleting a .dict.yaml keeps the
    old table in use ("no source, reuse the binary") *)
Example delete_dict_keeps_table_witness :
  let a1 := fst (fst (demo_deploy demo_srcs [])) in
  let s2 := firstn 3 demo_srcs in
  get_tab (fst (fst (demo_deploy s2 a1))) (KTab 10) = get_tab a1 (KTab 10) /\
  get_tab a1 (KTab 10) <> None /\
  get_tab (fst (fst (demo_deploy s2 []))) (KTab 10) = None.
Proof. vm_compute. repeat split; discriminate. Qed.

(** [deps_closed] is satisfiable, also by a dependency relation that follows an
    __include: here a root file with an odd content id includes resource [ROther 1] *)
Example deps_closed_demo Hist : deps_closed demo_deps Hist.
Proof. intros s s0 t _ _ _. reflexivity. Qed.

Definition include_deps (s : srcs) (t : option N) : list rname :=
  deps_of t ++ match lookup s (FRes (res_of t)) with
               | Some v => if N.odd (fv_cid v) then [ROther 1] else []
               | None => []
               end.

Example deps_closed_include_demo Hist : deps_closed include_deps Hist.
Proof.
  intros s s0 t _ _ H. unfold include_deps.
  assert (In (res_of t) (include_deps s0 t)) as Hin.
  { unfold include_deps. apply in_or_app. left. destruct t; cbn; auto. }
  rewrite (H _ Hin). reflexivity.
Qed.

(** the shared-prism workspace of [noop_shared_prism_witness] is exactly what
    [no_shared_outputs] excludes: schemas 1 and 2 both write prism 10, differently *)
Example shared_prism_violates_hypothesis :
  ~ no_shared_outputs demo_crc demo_cyid demo_info_of demo_dinfo_of demo_deps demo_srcs.
Proof.
  intro H.
  destruct (aget (schema_writes demo_crc demo_cyid demo_info_of demo_dinfo_of demo_deps demo_srcs 1) (KPrism 10))
    as [v|] eqn:E1; [|vm_compute in E1; discriminate].
  destruct (aget (schema_writes demo_crc demo_cyid demo_info_of demo_dinfo_of demo_deps demo_srcs 2) (KPrism 10))
    as [v'|] eqn:E2; [|vm_compute in E2; discriminate].
  pose proof (H 1 2 (KPrism 10) v v' (aget_In _ _ _ E1) (aget_In _ _ _ E2)) as Eq. subst v'.
  rewrite <- E2 in E1. vm_compute in E1. discriminate.
Qed.
