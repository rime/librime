(** Dep/CrashProofs.v - theorems about killed builders and killed YAML saves (C13). *)
From Coq Require Import List NArith Bool String Lia Arith.
From RimeV Require Import Dep.Crash Dep.Stale.
Import ListNotations.
Local Open Scope N_scope.

Definition untagged (f : option mfile) : Prop :=
  match f with None => True | Some m => m_tag m = false end.

Definition not_tag (e : eff) : Prop := e <> ETag.

Lemma apply_eff_untagged e f : not_tag e -> untagged f -> untagged (apply_eff e f).
Proof.
  intros He Hf. destruct e; destruct f as [m|]; cbn in *; auto. exfalso. apply He. reflexivity.
Qed.

Lemma run_untagged es : forall f, Forall not_tag es -> untagged f -> untagged (run_effs es f).
Proof.
  induction es as [|e r IH]; intros f Hall Hf; cbn; auto.
  inversion Hall as [|? ? He Hr]; subst. apply IH; auto. apply apply_eff_untagged; auto.
Qed.

Lemma firstn_tag_free es : forall n, (n <= tag_index es)%nat -> Forall not_tag (firstn n es).
Proof.
  induction es as [|e r IH]; intros n Hn.
  - rewrite firstn_nil. constructor.
  - destruct n as [|n]; [constructor|]. cbn [firstn].
    destruct e; cbn [tag_index] in Hn; try (constructor; [discriminate | apply IH; lia]); lia.
Qed.

Lemma load_untagged bf k f : bf_open_guarded bf = true -> untagged f -> load bf k f = LReject.
Proof.
  intros Hg Hf. destruct f as [m|]; cbn; auto. cbn in Hf. rewrite Hg, Hf. cbn.
  destruct (m_size m =? 0); reflexivity.
Qed.

Lemma builder_ok_parts bf k :
  builder_ok bf k = true ->
  prog_ok (bf_prog bf k) = true /\ bf_remove_before bf k = true /\ bf_open_guarded bf = true /\
  bf_alloc_zeroes bf = true /\
  forall g, In g (checked_ptrs k) -> In g (prog_fields (bf_prog bf k)).
Proof.
  unfold builder_ok. intro H. apply andb_true_iff in H. destruct H as [H Hck].
  repeat (apply andb_true_iff in H; destruct H as [H ?]). repeat split; auto.
  intros g Hg. apply (proj1 (forallb_forall _ _) Hck), existsb_exists in Hg. destruct Hg as [g' [Hin Heq]].
  apply String.eqb_eq in Heq. subst g'. exact Hin.
Qed.

(** every kill point before the format-tag write leaves a file Load rejects *)
Theorem mmap_prefix_rejected bf k old est fin ext n :
  builder_ok bf k = true ->
  (n <= tag_index (kill_effs bf k old est fin ext))%nat ->
  load bf k (run_effs (firstn n (kill_effs bf k old est fin ext)) (start_file bf k old)) = LReject.
Proof.
  intros Hok Hn. destruct (builder_ok_parts _ _ Hok) as [_ [Hrm [Hg _]]].
  apply load_untagged; auto. apply run_untagged.
  - apply firstn_tag_free. exact Hn.
  - unfold start_file. rewrite Hrm. exact I.
Qed.

Lemma fields_then_tag_shape p : fields_then_tag p = true -> exists fs, p = map SField fs ++ [STag; SRetTrue].
Proof.
  induction p as [|s r IH]; cbn; [discriminate|].
  destruct s; try discriminate.
  - intro H. destruct (IH H) as [fs ->]. exists (f :: fs). reflexivity.
  - destruct r as [|s2 r2]; [discriminate|]. destruct s2; try discriminate.
    destruct r2; [|discriminate]. intros _. exists []. reflexivity.
Qed.

Lemma prog_ok_shape p : prog_ok p = true -> exists fs, p = SCreate :: SAllocMeta :: map SField fs ++ [STag; SRetTrue].
Proof.
  destruct p as [|s1 [|s2 r]]; cbn; try discriminate; destruct s1; try discriminate.
  destruct s2; try discriminate. intro H. destruct (fields_then_tag_shape _ H) as [fs ->]. exists fs. reflexivity.
Qed.

Lemma prog_fields_shape fs : prog_fields (SCreate :: SAllocMeta :: map SField fs ++ [STag; SRetTrue]) = fs.
Proof.
  unfold prog_fields. cbn. induction fs as [|g r IH]; cbn; auto. f_equal. exact IH.
Qed.

Definition stores (ext : string -> N) (fs : list string) : list eff := map (fun g => EStore g (ext g)) fs.

Lemma kill_effs_shape bf k old est fin ext fs :
  bf_prog bf k = SCreate :: SAllocMeta :: map SField fs ++ [STag; SRetTrue] ->
  bf_remove_before bf k = true -> bf_alloc_zeroes bf = true ->
  kill_effs bf k old est fin ext = [ETrunc; ESize est; EZeroMeta] ++ stores ext fs ++ [ETag; EShrink fin].
Proof.
  intros Hp Hrm Hz. unfold kill_effs, builder_effs, start_file. rewrite Hp, Hrm. cbn [is_some flat_map stmt_effs andb].
  rewrite Hz. cbn [app]. f_equal. f_equal. f_equal.
  rewrite flat_map_app. cbn. rewrite <- app_assoc. f_equal.
  unfold stores. clear Hp. induction fs as [|g r IH]; cbn; auto. f_equal. exact IH.
Qed.

Lemma tag_index_stores ext fs tl : tag_index (stores ext fs ++ ETag :: tl) = List.length fs.
Proof. induction fs as [|g r IH]; cbn; auto. Qed.

Lemma run_stores ext fs : forall m,
  exists m', run_effs (stores ext fs) (Some m) = Some m' /\ m_size m' = m_size m /\
             (forall g, In g fs \/ In g (m_fields m) -> In g (m_fields m')) /\
             (forall b, m_extent m <= b -> (forall g, In g fs -> ext g <= b) -> m_extent m' <= b).
Proof.
  induction fs as [|g r IH]; intro m; cbn.
  - exists m. repeat split; auto. intros g [[]|H]; auto.
  - match goal with |- context [Some ?X] => destruct (IH X) as [m' [E [Hs [Hf Hx]]]] end.
    cbn in *. exists m'. repeat split; auto.
    + intros g0 [[<-|H]|H]; apply Hf; auto.
    + intros b Hb Hall. apply Hx.
      * apply N.max_lub; auto.
      * intros g0 H0. apply Hall. auto.
Qed.

Lemma Forall_firstn_x {B} (P : B -> Prop) (l : list B) n : Forall P l -> Forall P (firstn n l).
Proof. intro H. rewrite <- (firstn_skipn n l) in H. apply Forall_app in H. apply H. Qed.

Lemma firstn_within {A} (l r : list A) n : (n <= List.length l)%nat -> firstn n (l ++ r) = firstn n l.
Proof.
  intro H. rewrite firstn_app. replace (n - List.length l)%nat with 0%nat by lia. cbn [firstn]. apply app_nil_r.
Qed.

Lemma firstn_past {A} (pre : list A) x tl n :
  (List.length pre < n)%nat -> firstn n (pre ++ x :: tl) = pre ++ x :: firstn (n - S (List.length pre)) tl.
Proof.
  intro H. rewrite firstn_app, firstn_all2 by lia.
  replace (n - List.length pre)%nat with (S (n - S (List.length pre))) by lia. reflexivity.
Qed.

Lemma load_accepts bf k m :
  m_tag m = true -> 0 < m_size m -> m_extent m <= m_size m ->
  (forall g, In g (checked_ptrs k) -> In g (m_fields m)) -> load bf k (Some m) = LAccept.
Proof.
  intros Ht Hs Hx Hf. unfold load. rewrite Ht.
  destruct (m_size m =? 0) eqn:Ez; [apply N.eqb_eq in Ez; lia|].
  replace (forallb (fun g => has g m) (checked_ptrs k)) with true.
  - apply N.leb_le in Hx. rewrite Hx. reflexivity.
  - symmetry. apply forallb_forall. intros g Hg. apply existsb_exists. exists g.
    split; [apply Hf, Hg | apply String.eqb_refl].
Qed.

Lemma run_past_tag est fin ext fs n f :
  (3 + List.length fs < n)%nat -> (forall g, ext g <= fin) -> fin <= est ->
  exists m, run_effs (firstn n ([ETrunc; ESize est; EZeroMeta] ++ stores ext fs ++ [ETag; EShrink fin])) f = Some m /\
            m_tag m = true /\ (forall g, In g fs -> In g (m_fields m)) /\ fin <= m_size m /\ m_extent m <= fin.
Proof.
  intros Hn Hext Hfe.
  rewrite app_assoc, firstn_past by (rewrite app_length; unfold stores; rewrite map_length; cbn; lia).
  unfold run_effs. rewrite !fold_left_app. cbn [fold_left apply_eff].
  destruct (run_stores ext fs {| m_size := est; m_tag := false; m_fields := []; m_extent := 0 |})
    as [m' [E [Hs [Hf Hx]]]].
  unfold run_effs in E. cbn [blank m_size] in *. rewrite E. cbn [fold_left apply_eff].
  assert (m_extent m' <= fin) as Hxf by (apply Hx; [cbn; lia | intros; apply Hext]).
  destruct (n - _)%nat; [|cbn [firstn]; rewrite firstn_nil]; cbn [fold_left apply_eff].
  all: eexists; split; [reflexivity|]; cbn; repeat split; auto; lia.
Qed.

(** every kill point after the format-tag write leaves the complete file: all
    metadata fields stored, tag present, Load accepts it (sizes permitting) *)
Theorem mmap_tagged_complete bf k old est fin ext n :
  builder_ok bf k = true ->
  (tag_index (kill_effs bf k old est fin ext) < n)%nat ->
  (forall g, ext g <= fin) -> fin <= est -> 0 < fin ->
  exists m, run_effs (firstn n (kill_effs bf k old est fin ext)) (start_file bf k old) = Some m /\
            m_tag m = true /\
            (forall g, In g (prog_fields (bf_prog bf k)) -> In g (m_fields m)) /\
            load bf k (Some m) = LAccept.
Proof.
  intros Hok Hn Hext Hfe Hpos.
  destruct (builder_ok_parts _ _ Hok) as [Hp [Hrm [_ [Hz Hck]]]].
  destruct (prog_ok_shape _ Hp) as [fs Hfs].
  rewrite (kill_effs_shape bf k old est fin ext fs Hfs Hrm Hz) in *.
  rewrite Hfs, prog_fields_shape in *.
  cbn [app tag_index] in Hn. rewrite tag_index_stores in Hn.
  destruct (run_past_tag est fin ext fs n (start_file bf k old) Hn Hext Hfe) as (m & E & Ht & Hf & Hs & Hx).
  exists m. split; [exact E|]. split; [exact Ht|]. split; [exact Hf|].
  apply load_accepts; [exact Ht | lia | lia | intros g Hg; apply Hf, Hck, Hg].
Qed.

Definition demo_prog : list bstmt :=
  [SCreate; SAllocMeta; SField "dict_file_checksum"; SField "key_trie"; SField "value_trie"; STag; SRetTrue]%string.

Definition demo_facts (remove guarded : bool) : build_facts :=
  {| bf_prog := fun _ => demo_prog; bf_remove_before := fun _ => remove;
     bf_create_resizes_existing := true; bf_alloc_zeroes := true; bf_open_guarded := guarded;
     bf_save_mode := InPlace; bf_stamp_last := true |}.

Definition demo_ext (g : string) : N := if String.eqb g "value_trie" then 5000 else 100.

(** OpenReadOnly not guarded: the kill right after the file was created empty
    leaves a file on which Load crashes *)
Theorem unguarded_open_refuted :
  exists n, (n <= tag_index (kill_effs (demo_facts true false) KReverse None 6000 5000 demo_ext))%nat /\
    load (demo_facts true false) KReverse
         (run_effs (firstn n (kill_effs (demo_facts true false) KReverse None 6000 5000 demo_ext))
                   (start_file (demo_facts true false) KReverse None)) = LCrash.
Proof. exists 1%nat. vm_compute. split; [lia | reflexivity]. Qed.

Definition demo_old : mfile :=
  {| m_size := 5000; m_tag := true; m_fields := ["value_trie"; "key_trie"; "dict_file_checksum"]%string; m_extent := 5000 |}.

(** Build not preceded by Remove(): Create only resizes the previous file, which
    keeps its tag - a smaller estimate makes Load read beyond the mapping, a
    larger one leaves the previous contents accepted *)
Theorem reverse_without_remove_refuted :
  (exists n, (n <= tag_index (kill_effs (demo_facts false true) KReverse (Some demo_old) 1100 300 demo_ext))%nat /\
     load (demo_facts false true) KReverse
          (run_effs (firstn n (kill_effs (demo_facts false true) KReverse (Some demo_old) 1100 300 demo_ext))
                    (start_file (demo_facts false true) KReverse (Some demo_old))) = LCrash) /\
  (exists n, (n <= tag_index (kill_effs (demo_facts false true) KReverse (Some demo_old) 6000 5500 demo_ext))%nat /\
     load (demo_facts false true) KReverse
          (run_effs (firstn n (kill_effs (demo_facts false true) KReverse (Some demo_old) 6000 5500 demo_ext))
                    (start_file (demo_facts false true) KReverse (Some demo_old))) = LAccept).
Proof. split; exists 1%nat; vm_compute; (split; [lia | reflexivity]). Qed.

(** the positive theorem is not vacuous: the demo program with Remove() and a
    guarded open satisfies [builder_ok] *)
Example builder_ok_demo : builder_ok (demo_facts true true) KReverse = true.
Proof. reflexivity. Qed.

Lemma stamp_after_updates xs : forall old, stamp_after (map WUpdate xs) old = old.
Proof. induction xs as [|x r IH]; intro old; cbn; auto. Qed.

(** the stamp is written after every schema update: a killed deployment leaves
    var/last_build_time as it was, so whatever made this deployment start
    (DetectModifications or a forced run) makes the next start-up deploy again *)
Theorem killed_deploy_is_redetected now xs old n latest :
  (n < List.length (ws_effs true now xs))%nat ->
  stamp_after (firstn n (ws_effs true now xs)) old = old /\
  detect_modifications latest (stamp_after (firstn n (ws_effs true now xs)) old) = detect_modifications latest old.
Proof.
  intro Hn. unfold ws_effs in *. rewrite app_length, map_length in Hn. cbn in Hn.
  rewrite firstn_within by (rewrite map_length; lia). rewrite firstn_map, stamp_after_updates. split; reflexivity.
Qed.

(** written first, the stamp survives the kill and hides the unfinished work from
    every later start-up deployment until a source changes *)
Theorem stamp_first_refuted :
  exists n, (n < List.length (ws_effs false 2000 [1%N; 2%N]))%nat /\
    stamp_after (firstn n (ws_effs false 2000 [1; 2])) 0 = 2000 /\
    detect_modifications 1500 0 = true /\
    detect_modifications 1500 (stamp_after (firstn n (ws_effs false 2000 [1; 2])) 0) = false.
Proof. exists 1%nat. vm_compute. repeat split. lia. Qed.

Section YamlProofs.
Variable A : Type.
Notation yfs := (yfs A).

Definition tmp_only (e : yeff A) : Prop :=
  match e with YOpenTrunc true => True | YWrite true _ => True | _ => False end.

Lemma tmp_only_final es : forall st : yfs, Forall tmp_only es -> y_final (run_yeffs es st) = y_final st.
Proof.
  induction es as [|e r IH]; intros st Hall; cbn; auto.
  inversion Hall as [|? ? He Hr]; subst. unfold run_yeffs in IH. rewrite IH by exact Hr.
  destruct e as [[|]|[|] c|]; cbn in *; tauto.
Qed.

Lemma run_tmp_writes cs : forall (st : yfs) b,
  y_tmp st = Some b -> y_tmp (run_yeffs (map (YWrite true) cs) st) = Some (b ++ List.concat cs).
Proof.
  induction cs as [|c r IH]; intros st b Hb; cbn.
  - rewrite app_nil_r. exact Hb.
  - unfold run_yeffs in IH. rewrite (IH _ (b ++ c)) by (cbn; rewrite Hb; reflexivity). rewrite <- app_assoc. reflexivity.
Qed.

Lemma Forall_tmp_writes cs : Forall tmp_only (map (@YWrite A true) cs).
Proof. induction cs; cbn; constructor; cbn; auto. Qed.

(** temp+rename: at every kill point the final name holds either what it held
    before or the complete new document - never a strict prefix *)
Theorem yaml_save_atomic chunks (st : yfs) n :
  let st' := run_yeffs (firstn n (save_effs TempRename chunks)) st in
  y_final st' = y_final st \/ y_final st' = Some (List.concat chunks).
Proof.
  cbn zeta. unfold save_effs.
  change (YOpenTrunc true :: map (YWrite true) chunks ++ [YRename])
    with ((YOpenTrunc true :: map (YWrite true) chunks) ++ [@YRename A]).
  set (pre := YOpenTrunc true :: map (YWrite true) chunks).
  assert (Forall tmp_only pre) as Hpre by (constructor; [exact I | apply Forall_tmp_writes]).
  destruct (Nat.le_gt_cases n (List.length pre)) as [Hle | Hgt].
  - left. rewrite firstn_within by exact Hle. apply tmp_only_final. apply Forall_firstn_x. exact Hpre.
  - right. rewrite firstn_all2 by (rewrite app_length; change (List.length [@YRename A]) with 1%nat; lia).
    unfold run_yeffs. rewrite fold_left_app. cbn [fold_left].
    unfold pre. cbn [fold_left apply_yeff].
    pose proof (run_tmp_writes chunks {| y_final := y_final st; y_tmp := Some [] |} [] eq_refl) as E.
    unfold run_yeffs in E. cbn [apply_yeff]. rewrite E. reflexivity.
Qed.

(** in place: the first flush alone is on disk under the final name - a strict
    prefix of the document whenever more than one flush is needed *)
Theorem yaml_inplace_leaves_prefix c1 c2 rest (st : yfs) :
  y_final (run_yeffs (firstn 2 (save_effs InPlace (c1 :: c2 :: rest))) st) = Some c1.
Proof. cbn. reflexivity. Qed.

End YamlProofs.

(** a stump that still carries the timestamps is as "up to date" as the full
    file: ConfigNeedsUpdate reads nothing but __build_info/timestamps *)
Lemma stump_accepted s c c' :
  cy_ts c' = cy_ts c -> needs_update s (Some c') = needs_update s (Some c).
Proof. intro H. unfold needs_update. rewrite H. reflexivity. Qed.
