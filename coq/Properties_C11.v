(** C11 – a kill at any instant leaves the user dictionary openable, whole
    commits intact.  Property theorems only; each closed by [exact] of a lemma
    proved in UdbL/.

    [ops_of d h] are the LevelDb calls the implementation model issues for the
    event history [h] on a store [d]; [spec_units d h] are the units the atomic
    semantics of the same history makes durable (whole commits, single direct
    writes); [abs_units d us] is the dictionary these units produce on their own.
    LevelDB's own contract is the hypothesis about [kill_inside]. *)
From Coq Require Import List NArith ZArith Bool.
From RimeV Require Import Base.Bytes UdbL.Txn UdbL.TxnProofs UdbL.Learn UdbL.LearnProofs
  UdbL.CommitProofs UdbL.Examples.
Import ListNotations.

(** For every history and every crash point (between two calls, or inside one
    call given LevelDB's atomicity), what a fresh process finds is the initial
    store with a prefix of the history's units applied – each commit entirely or
    not at all – and that prefix contains every unit closed before the kill. *)
Theorem C11_txn_atomic :
  forall kill_inside : db -> dbop -> dict,
  (forall s o, kill_inside s o = durable s \/ kill_inside s o = durable (db_step s o)) ->
  forall (d : dict) (h : list event) (c : crash_point),
  exists j,
    closed_before (db0 d) (ops_of d h) c <= j <= opened_before (db0 d) (ops_of d h) c /\
    recovered kill_inside (db0 d) (ops_of d h) c = abs_units d (firstn j (spec_units d h)).
Proof. exact txn_atomic. Qed.
Print Assumptions C11_txn_atomic.

(** The calls of the implementation model close exactly the units of the atomic
    semantics, for every history (the refinement the theorem above rests on). *)
Theorem C11_impl_refines_atomic :
  forall d h, units_of (db0 d) (ops_of d h) = spec_units d h.
Proof. exact impl_units_are_spec_units. Qed.
Print Assumptions C11_impl_refines_atomic.

(** No partial commit: every write call of a commit (entries and tick) goes to
    the batch; the store changes only by the previous commit becoming durable. *)
Theorem C11_no_partial_commit :
  forall s u kind now segs,
  inv (pdb s) -> loaded (pdb s) = true ->
  let s' := ev_step s (ECommit u kind now segs) in
  in_txn (pdb s') = true /\
  durable (pdb s') =
    (if in_txn (pdb s) then apply_batch (batch (pdb s)) (durable (pdb s)) else durable (pdb s)) /\
  batch (pdb s') = fst (commit_writes (durable (pdb s')) (ud_tick (get_ud (puds s) u)) kind segs).
Proof. exact commit_all_in_batch. Qed.
Print Assumptions C11_no_partial_commit.

(** At most the final commit is missing: a commit first makes the pending one
    durable, so what is not yet durable belongs to the single latest commit. *)
Theorem C11_at_most_last_missing :
  forall d h u kind now segs,
  let st := fst (spec_run (sst0 d) h) in
  let st' := fst (spec_step st (ECommit u kind now segs)) in
  s_loaded st = true ->
  spec_units d (h ++ [ECommit u kind now segs]) =
    spec_units d h ++ (match s_pend st with Some w => [w] | None => [] end) /\
  s_dict st' = abs_units d (spec_units d (h ++ [ECommit u kind now segs])) /\
  s_pend st' = Some (fst (commit_writes (s_dict st') (ud_tick (get_ud (s_uds st) u)) kind segs)).
Proof. exact commit_flushes_previous. Qed.
Print Assumptions C11_at_most_last_missing.

(** and a kill inside one call leaves at most that call's unit undecided *)
Theorem C11_one_unit_undecided :
  forall s ops c, opened_before s ops c <= closed_before s ops c + 1.
Proof. exact opened_closed_gap. Qed.
Print Assumptions C11_one_unit_undecided.

(** Everything durable before stays: a later kill finds the earlier kill's
    store with further whole units applied. *)
Theorem C11_durable_monotone :
  forall d h p q, p <= q ->
  exists us,
    recover (db_run (db0 d) (firstn q (ops_of d h))) =
    abs_units (recover (db_run (db0 d) (firstn p (ops_of d h)))) us /\
    firstn (closed_count (db0 d) (firstn q (ops_of d h))) (spec_units d h) =
    firstn (closed_count (db0 d) (firstn p (ops_of d h))) (spec_units d h) ++ us.
Proof. exact durable_monotone. Qed.
Print Assumptions C11_durable_monotone.

(** The tick is consistent with the entries: a commit's writes carry the tick
    (it grows by the number of counted updates and is stored by the same unit)
    and no entry of the commit is stamped beyond it. *)
Theorem C11_tick_consistent :
  forall d tick kind segs d0,
  let calls := commit_calls kind segs ce_empty in
  let ws := fst (commit_writes d tick kind segs) in
  let tick' := snd (commit_writes d tick kind segs) in
  tick' = (tick + N.of_nat (n_counted calls))%N /\
  ((0 < n_counted calls)%nat -> get (apply_batch ws d0) tick_key = Some (VNum tick')) /\
  (forall k c t, In (WPut k (VEnt c t)) ws -> (tick <= t <= tick')%N) /\
  (forall n, In (WPut tick_key (VNum n)) ws -> (tick < n <= tick')%N).
Proof. exact commit_tick_consistent. Qed.
Print Assumptions C11_tick_consistent.

(** Non-vacuity: a history with two commits; killed inside the first commit's
    batch nothing of it is found, killed at the end the first is whole and the
    last is missing. *)
Theorem C11_example_kill_inside_commit :
  let d := recover (db_run (db0 []) (firstn 8 (ops_of [] ex_h))) in
  closed_count (db0 []) (firstn 8 (ops_of [] ex_h)) = 5 /\
  get d ex_key_a = None /\ get d tick_key = Some (VNum 0).
Proof. exact ex_kill_inside_first_commit. Qed.
Print Assumptions C11_example_kill_inside_commit.

Theorem C11_example_kill_at_end :
  let d := recover (db_run (db0 []) (ops_of [] ex_h)) in
  closed_count (db0 []) (ops_of [] ex_h) = 6 /\
  get d ex_key_a = Some (VEnt 1 1) /\ get d tick_key = Some (VNum 1) /\ get d ex_key_b = None.
Proof. exact ex_kill_at_end. Qed.
Print Assumptions C11_example_kill_at_end.
