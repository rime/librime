(** C04 – menu pages are windows onto one stable, duplicate-free candidate list.
    Property theorems only; each closed by [exact]/[apply] of a lemma proved in MenuM/.
    [shown c] = (text, comment) is what the API reports of a candidate;
    [full_list m] is the menu's candidate vector after fetching everything. *)
From Coq Require Import List Arith NArith Bool.
From RimeV Require Import MenuM.Gen MenuM.Menu MenuM.Spec MenuM.GenProofs MenuM.MenuProofs
  MenuM.WfProofs MenuM.SpecProofs MenuM.StackProofs MenuM.UniqProofs MenuM.Examples MenuM.ConstsProofs Gen.MenuConsts.
Import ListNotations.

(** Fetching more candidates only appends: what was shown at an index stays
    shown there (the uniquifier may rewrite an earlier entry, but not its text
    or comment), and the list obtained by fetching everything is unchanged.
    All menus, all requests. *)
Theorem C04_prepare_appends : forall n m,
  (exists suf, map shown (m_cache (prepare n m)) = map shown (m_cache m) ++ suf) /\
  full_list (prepare n m) = full_list m.
Proof. intros n m. split; [apply prepare_appends|apply prepare_full]. Qed.
Print Assumptions C04_prepare_appends.

(** Menu::CreatePage: a page is the window [p*ps, p*ps+ps) of the full list;
    when no page is returned the window is empty.  All menus (any
    translation tree, any filter chain, any fetch state), all page sizes > 0,
    all page numbers. *)
Theorem C04_page_is_window : forall ps pno m, 0 < ps ->
  match fst (create_page ps pno m) with
  | Some pg => map shown (pg_cands pg) = firstn ps (skipn (ps * pno) (map shown (full_list m)))
  | None => length (full_list m) <= ps * pno
  end /\ full_list (snd (create_page ps pno m)) = full_list m.
Proof.
  intros ps pno m Hps. split; [|rewrite create_page_menu; apply prepare_full].
  pose proof (create_page_spec ps pno m) as H.
  destruct (fst (create_page ps pno m)) as [pg|]; [apply H|now apply H].
Qed.
Print Assumptions C04_page_is_window.

(** The last-page flag is set exactly when nothing follows the page, for every
    well-formed menu state ([wf]: the representation invariant the constructors
    establish and Next keeps – see C04_wf_reachable). *)
Theorem C04_last_page_exact : forall ps pno m pg,
  wf (m_res m) = true -> 0 < ps -> fst (create_page ps pno m) = Some pg ->
  (pg_last pg = true <-> length (full_list m) <= ps * pno + ps).
Proof. intros ps pno m pg Hw _. now apply create_page_last. Qed.
Print Assumptions C04_last_page_exact.

(** Every menu built from translations and filters is well-formed and stays so
    under any call sequence. *)
Theorem C04_wf_reachable : forall specs fs ps sel ops,
  wf (m_res (s_menu (snd (run (mkSess (menu_of specs fs) sel ps) ops)))) = true.
Proof. intros. apply run_wf. apply menu_of_wf. Qed.
Print Assumptions C04_wf_reachable.

(** RimeGetContext: page_no = selected/page_size, the highlighted position is
    selected mod page_size, position i of the page is element page_no*page_size+i
    of the full list, and is_last_page is exact. *)
Theorem C04_get_context_window : forall s cm,
  0 < s_ps s -> fst (get_context s) = Some cm ->
  cm_page_no cm = s_sel s / s_ps s /\ cm_hl cm = s_sel s mod s_ps s /\
  map shown (cm_cands cm) =
    firstn (s_ps s) (skipn (cm_page_no cm * s_ps s) (map shown (full_list (s_menu s)))) /\
  (wf (m_res (s_menu s)) = true ->
   (cm_last cm = true <-> length (full_list (s_menu s)) <= cm_page_no cm * s_ps s + s_ps s)).
Proof. intros s cm _. apply get_context_spec. Qed.
Print Assumptions C04_get_context_window.

(** The list iteration API (candidate_list_from_index + next until False)
    enumerates the full list from any offset. *)
Theorem C04_iterator_agrees : forall from m,
  map shown (fst (iterate_all from m)) = skipn from (map shown (full_list m)).
Proof. exact iterate_all_spec. Qed.
Print Assumptions C04_iterator_agrees.

(** For any sequence of Prepare / CreatePage / GetCandidateAt / get_context /
    highlight / change_page / iterator / Selector paging calls, every candidate
    reported at absolute index i shows the text and comment of element i of the
    full list of the initial menu, and the full list never changes. *)
Theorem C04_order_independent : forall ops s,
  Forall (fun ob => Forall (fun ic => nth_error (map shown (full_list (s_menu s))) (fst ic) = Some (shown (snd ic)))
                           (o_items ob)) (fst (run s ops)) /\
  full_list (s_menu (snd (run s ops))) = full_list (s_menu s).
Proof. exact run_spec. Qed.
Print Assumptions C04_order_independent.

(** ... hence two reports of the same index anywhere in a call sequence agree. *)
Theorem C04_reports_stable : forall ops s ob1 ob2 i c1 c2,
  In ob1 (fst (run s ops)) -> In ob2 (fst (run s ops)) ->
  In (i, c1) (o_items ob1) -> In (i, c2) (o_items ob2) -> shown c1 = shown c2.
Proof. exact reports_stable. Qed.
Print Assumptions C04_reports_stable.

(** With the uniquifier as the last filter no two entries of the full list
    have the same text – any translations, any filters before it. *)
Theorem C04_uniq_no_dup : forall ts fs, NoDup (texts (full_list (build_menu ts (fs ++ [FUniquifier])))).
Proof. exact uniq_no_dup. Qed.
Print Assumptions C04_uniq_no_dup.

(** The order of data/minimal/cangjie5.schema.yaml: the uniquifier followed by
    the prefetching single-char filter.  The prefetch drains the uniquified
    stream while the menu's cache is still empty; the uniquifier's record of
    what it has already yielded keeps the list duplicate-free. *)
Theorem C04_uniq_then_single_char_no_dup : forall ts fs,
  NoDup (texts (full_list (build_menu ts (fs ++ [FUniquifier; FSingleChar])))).
Proof. exact uniq_single_no_dup. Qed.
Print Assumptions C04_uniq_then_single_char_no_dup.

(** The simplifier enters as an oracle: each filter instance carries its own
    function [conv] from a candidate to the non-empty list of candidates it is
    replaced by (None = left as it is); nothing is assumed of it (a Gallina
    function is deterministic).  All theorems above quantify over every menu and
    therefore hold for chains containing simplifiers.  The luna_pinyin chain
    (simplifier@zh_simp, simplifier@zh_tw, uniquifier): *)
Theorem C04_luna_pinyin_chain_no_dup : forall ts zh_simp zh_tw,
  NoDup (texts (full_list (build_menu ts [FSimplifier zh_simp; FSimplifier zh_tw; FUniquifier]))).
Proof. intros ts f g. exact (uniq_no_dup ts [FSimplifier f; FSimplifier g]). Qed.
Print Assumptions C04_luna_pinyin_chain_no_dup.

(** ... and cangjie5's (simplifier, uniquifier, single_char_filter) *)
Theorem C04_cangjie5_chain_no_dup : forall ts simp,
  NoDup (texts (full_list (build_menu ts [FSimplifier simp; FUniquifier; FSingleChar]))).
Proof. intros ts f. exact (uniq_single_no_dup ts [FSimplifier f]). Qed.
Print Assumptions C04_cangjie5_chain_no_dup.

(** The general claim: in ANY chain with a uniquifier after which no filter
    creates new texts (the later filters may hold candidates back, reorder or
    drop them: single_char_filter, charset filter, further uniquifiers) the full
    list has no two entries with the same text.  Any filters – simplifiers
    included – may come before; any menu the constructors can build. *)
Theorem C04_uniq_anywhere : forall specs fs1 fs2,
  Forall no_new_text fs2 ->
  NoDup (texts (full_list (menu_of specs (fs1 ++ FUniquifier :: fs2)))).
Proof. intros specs. apply uniq_anywhere_build. Qed.
Print Assumptions C04_uniq_anywhere.

(** the same over arbitrary well-formed translation states *)
Theorem C04_uniq_anywhere_wf : forall ts fs1 fs2,
  forallb wf ts = true -> Forall no_new_text fs2 ->
  NoDup (texts (full_list (build_menu ts (fs1 ++ FUniquifier :: fs2)))).
Proof. exact uniq_anywhere. Qed.
Print Assumptions C04_uniq_anywhere_wf.

(** The condition on the later filters is needed: a simplifier placed after the
    uniquifier maps two distinct texts to one (no stock schema has this order). *)
Theorem C04_uniq_before_simplifier_refuted :
  exists specs conv, ~ NoDup (texts (full_list (menu_of specs [FUniquifier; FSimplifier conv]))).
Proof. exact uniq_before_simplifier_refuted. Qed.
Print Assumptions C04_uniq_before_simplifier_refuted.

(** The charset filter of the model tests exactly the code-point ranges that
    is_extended_cjk() of the current src/rime/gear/charset_filter.cc tests
    (translator gen/menu_consts.py; it refuses rather than guess). *)
Theorem C04_charset_ranges_current :
  ext_cjk_recognised = true /\
  forall ch, is_extended_cjk ch = existsb (fun r => in_range (fst r) (snd r) ch) ext_cjk_ranges.
Proof. exact ext_cjk_ranges_current. Qed.
Print Assumptions C04_charset_ranges_current.

(** Non-vacuity: a live, well-formed menu (lazy merge of a distinct+cached
    stream, a second stream and the echo candidate, behind the uniquifier) in
    which an earlier cache entry is rewritten; its pages, highlight and iterator
    reads in a mixed order. *)
Theorem C04_example_state :
  wf (m_res ex_menu) = true /\ exhausted (m_res ex_menu) = false /\ m_cache ex_menu = [] /\
  texts (full_list ex_menu) = ex_texts /\ map c_uniq (full_list ex_menu) = [0; 2; 2; 0; 0].
Proof.
  split; [exact ex_wf|]. split; [exact (proj1 ex_live)|]. split; [exact (proj2 ex_live)|].
  split; [exact ex_full_list|exact ex_rewritten].
Qed.
Print Assumptions C04_example_state.

Theorem C04_example_run :
  map (fun ob => (o_ret ob, o_flag ob, o_hl ob, map (fun ic => (fst ic, c_text (snd ic))) (o_items ob)))
      (fst (run ex_sess ex_ops)) =
  [ (1, false, 2, []); (2, false, 0, [(2, tC); (3, tD)]); (1, false, 0, [(3, tD); (4, tE)]);
    (1, false, 0, []); (1, false, 0, [(0, tA); (1, tB)]); (1, false, 4, []);
    (3, true, 0, [(4, tE)]); (0, false, 0, []) ].
Proof. exact ex_run. Qed.
Print Assumptions C04_example_run.

Theorem C04_example_uniq_last :
  map (fun c => (c_text c, c_uniq c)) (full_list (build_menu dup_witness [FSingleChar; FUniquifier]))
  = [([0x4E00%N], 2)].
Proof. exact uniq_last_example. Qed.
Print Assumptions C04_example_uniq_last.

(** two table phrases with the same text met during the prefetch: one survives *)
Theorem C04_example_uniq_then_prefetch :
  map (fun c => (c_text c, c_comment c, c_uniq c)) (full_list (build_menu dup_witness [FUniquifier; FSingleChar]))
  = [([0x4E00%N], 1%N, 0)].
Proof. exact uniq_then_prefetch_example. Qed.
Print Assumptions C04_example_uniq_then_prefetch.

(** a concrete luna_pinyin-like chain: one-to-many and duplicate-creating conversions, merged by the uniquifier *)
Theorem C04_example_simplifier_chain :
  map (fun c => (c_text c, c_comment c, c_uniq c)) (full_list ex_simp_menu) =
  [([0x4E01%N], 1%N, 3); ([0x4E8C%N], 2%N, 0); ([66%N; 0x4E01%N], 1%N, 1)].
Proof. exact ex_simp_list. Qed.
Print Assumptions C04_example_simplifier_chain.
