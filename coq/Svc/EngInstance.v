(** Svc/EngInstance.v – the service-layer model (SvcModel.v) instantiated with
    the session-engine model of coq/Eng.

      sess     := Eng.Engine.state            (one Session: engine + context + navigator + commit text)
      op       := Eng.Api.op                  (the session functions of the C API)
      obs      := eng_obs                     (what the client reads: [Live] = Eng.Api.obs of a live
                                               session, [Dead r] = the bare return value a session
                                               function gives when GetSession(id) is null)
      pers     := unit                        (the modelled schemas neither read nor write user.yaml
                                               through these operations)
      snew _   := Eng.Api.init_state cfg
      sstep    := Eng.Api.step cfg translate
      rejected := the return value of each API function on a dead id (rime_api_impl.h:
                  `if (!session) return False;` / `return;` / `return NULL;` / `return 0;`)

    The corollaries below are instances of SvcProofs.{frame, interleave_invariance,
    dead_id_rejected}; [solo_eng] ties SvcModel.solo to Eng.Api.run_from. *)
From Coq Require Import List NArith.
From RimeV Require Import Base.Bytes Svc.SvcModel Svc.SvcProofs Eng.Cand Eng.Engine Eng.Api.
Import ListNotations.

Inductive eng_obs :=
| Live (o : Eng.Api.obs)
| Dead (r : ret).

Definition eng_rejected (o : op) : eng_obs :=
  Dead (match o with
        | OpKey _ _ | OpSetInput _ | OpSelect _ | OpSelectPage _ | OpHighlight _ | OpHighlightPage _
        | OpDelete _ | OpDeletePage _ | OpChangePage _ | OpCommit | OpGetContext | OpGetStatus => RBool false
        | OpGetCommit => RCommit None
        | OpSetCaret _ | OpClear | OpGetInput | OpGetCaret | OpSetOption _ _ | OpTick _ => RNone
        end).

Section EngSvc.
Variable cfg : config.
Variable translate : bytes -> seginfo -> list cand.

Definition eng_new (_ : unit) : state := init_state cfg.
Definition eng_sstep (x : state) (o : op) : state * eng_obs :=
  let (x', b) := Eng.Api.step cfg translate x o in (x', Live b).
Definition eng_pstep (_ : state) (_ : op) (p : unit) : unit := p.

Definition eng_svc := svc state unit.
Definition eng_step : eng_svc -> call op -> eng_svc * out eng_obs :=
  SvcModel.step state op eng_obs unit eng_new eng_sstep eng_pstep eng_rejected.
Definition eng_run : eng_svc -> list (call op) -> eng_svc * list (call op * out eng_obs) :=
  SvcModel.run state op eng_obs unit eng_new eng_sstep eng_pstep eng_rejected.

Lemma solo_eng os : forall x,
  solo state op eng_obs eng_sstep x os
  = (fst (run_from cfg translate x os), map Live (snd (run_from cfg translate x os))).
Proof.
  induction os as [|o r IH]; intros x; [reflexivity|]. cbn [solo run_from]. unfold eng_sstep at 1.
  destruct (Eng.Api.step cfg translate x o) as [x1 b]. rewrite IH.
  destruct (run_from cfg translate x1 r) as [x2 bs]. reflexivity.
Qed.

Lemma eng_frame (s : eng_svc) (c : call op) j :
  mentions op j c = false -> lookup state j (live _ _ (fst (eng_step s c))) = lookup state j (live _ _ s).
Proof. apply frame. Qed.

(** whatever other sessions do in between (creation and destruction included),
    session [i] observes exactly what it observes alone, and ends in the same state *)
Theorem eng_sessions_isolated (h : list (call op)) (s : eng_svc) i x st :
  lookup state i (live _ _ s) = Some (x, st) -> quiet_for op i h = true ->
  obs_on op eng_obs i (snd (eng_run s h)) = map Live (snd (run_from cfg translate x (calls_on op i h))) /\
  option_map fst (lookup state i (live _ _ (fst (eng_run s h)))) = Some (fst (run_from cfg translate x (calls_on op i h))).
Proof.
  intros Hl Hq.
  pose proof (interleave_invariance state op eng_obs unit eng_new eng_sstep eng_pstep eng_rejected h s i x st Hl Hq) as H.
  now rewrite solo_eng in H.
Qed.

Lemma eng_dead_id_rejected (h : list (call op)) (s : eng_svc) i :
  lookup state i (live _ _ s) = None -> never_created op i h = true ->
  Forall (rejected_entry op eng_obs eng_rejected i) (snd (eng_run s h)) /\
  lookup state i (live _ _ (fst (eng_run s h))) = None.
Proof. apply dead_id_rejected. Qed.

End EngSvc.
