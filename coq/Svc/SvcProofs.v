(** C16 – proofs about the service layer, for every per-session engine. *)
From Coq Require Import List NArith Bool Lia.
From RimeV Require Import Svc.SvcModel.
Import ListNotations.

Local Arguments SvcModel.insert : simpl never.

Section SvcProofs.
  Variables sess op obs pers : Type.
  Variable snew : pers -> sess.
  Variable sstep : sess -> op -> sess * obs.
  Variable pstep : sess -> op -> pers -> pers.
  Variable rejected : op -> obs.

  Notation svc := (svc sess pers).
  Notation step := (step sess op obs pers snew sstep pstep rejected).
  Notation run := (run sess op obs pers snew sstep pstep rejected).
  Notation solo := (solo sess op obs sstep).
  Notation lookup := (lookup sess).
  Notation remove := (remove sess).
  Notation insert := (insert sess).
  Notation keys := (keys sess).

  Lemma lookup_remove i j m : lookup j (remove i m) = if N.eqb i j then None else lookup j m.
  Proof.
    induction m as [|[k x] m IH]; cbn; [now destruct (N.eqb i j)|].
    destruct (N.eqb_spec k i) as [->|Hk]; cbn; rewrite IH.
    - now destruct (N.eqb i j).
    - destruct (N.eqb_spec k j), (N.eqb_spec i j); try reflexivity; congruence.
  Qed.

  Lemma lookup_insert i j x m : lookup j (insert i x m) = if N.eqb i j then Some x else lookup j m.
  Proof. unfold SvcModel.insert. cbn. rewrite lookup_remove. now destruct (N.eqb i j). Qed.

  Lemma lookup_none_not_in i m : lookup i m = None <-> ~ In i (keys m).
  Proof.
    induction m as [|[j x] m IH]; cbn; [tauto|].
    destruct (N.eqb_spec j i) as [->|Hj]; [|tauto]. split; [discriminate|]. intros H. exfalso. apply H. now left.
  Qed.

  Lemma remove_absent i m : lookup i m = None -> remove i m = m.
  Proof.
    induction m as [|[k z] m IH]; cbn; [reflexivity|].
    destruct (N.eqb k i); [discriminate|]. intros H. f_equal. now apply IH.
  Qed.

  Lemma length_remove_in i (x : entry sess) m :
    NoDup (keys m) -> lookup i m = Some x -> S (length (remove i m)) = length m.
  Proof.
    induction m as [|[j y] m IH]; cbn; intros Hd Hl; [discriminate|].
    inversion Hd as [|? ? Hn Hd']; subst.
    destruct (N.eqb_spec j i) as [->|Hj]; cbn; f_equal; [|now apply IH].
    f_equal. now apply remove_absent, lookup_none_not_in.
  Qed.

  (** [remove] and the stale sweep are filters: what holds of every filter *)
  Lemma remove_filter i m : remove i m = filter (fun e => negb (N.eqb (fst e) i)) m.
  Proof. induction m as [|[j x] m IH]; cbn; [reflexivity|]. now destruct (N.eqb j i); cbn; rewrite IH. Qed.

  Lemma in_keys_filter (P : sid * entry sess -> bool) k m : In k (keys (filter P m)) -> In k (keys m).
  Proof.
    unfold SvcModel.keys. rewrite !in_map_iff. intros (e & He & Hin).
    apply filter_In in Hin. exists e. tauto.
  Qed.

  Lemma nodup_filter (P : sid * entry sess -> bool) m : NoDup (keys m) -> NoDup (keys (filter P m)).
  Proof.
    induction m as [|[j y] m IH]; cbn; intros H; [constructor|].
    inversion H as [|? ? Hn Hd]; subst.
    destruct (P (j, y)); cbn; [|now apply IH]. constructor; [|now apply IH].
    intros Hin. now apply Hn, in_keys_filter with P.
  Qed.

  Lemma lookup_filter_none (P : sid * entry sess -> bool) i m :
    lookup i m = None -> lookup i (filter P m) = None.
  Proof. rewrite !lookup_none_not_in. intros H Hin. now apply H, in_keys_filter with P. Qed.

  Lemma lookup_filter (P : sid * entry sess -> bool) i m :
    NoDup (keys m) ->
    lookup i (filter P m) = match lookup i m with Some e => if P (i, e) then Some e else None | None => None end.
  Proof.
    induction m as [|[j y] m IH]; cbn; intros Hd; [reflexivity|].
    inversion Hd as [|? ? Hn Hd']; subst. specialize (IH Hd').
    destruct (N.eqb_spec j i) as [->|Hj].
    - destruct (P (i, y)); cbn; [now rewrite N.eqb_refl|].
      apply lookup_filter_none. now apply lookup_none_not_in.
    - destruct (P (j, y)); cbn; [|exact IH]. now destruct (N.eqb_spec j i).
  Qed.

  Lemma nodup_remove i m : NoDup (keys m) -> NoDup (keys (remove i m)).
  Proof. rewrite remove_filter. apply nodup_filter. Qed.

  Lemma nodup_insert i x m : NoDup (keys m) -> NoDup (keys (insert i x m)).
  Proof.
    intros H. unfold SvcModel.insert. cbn. constructor; [|now apply nodup_remove].
    apply lookup_none_not_in. now rewrite lookup_remove, N.eqb_refl.
  Qed.

  Definition mentions (j : sid) (c : call op) : bool :=
    match c with
    | Create i | Destroy i | Call i _ | Find i => N.eqb i j
    | Advance _ => false
    | CleanupAll | CleanupStale => true
    end.

  Theorem frame s c j :
    mentions j c = false -> lookup j (live _ _ (fst (step s c))) = lookup j (live _ _ s).
  Proof.
    destruct c as [i|i|i|i o| |d|]; cbn [mentions]; intros H; try discriminate; cbn.
    - now rewrite lookup_insert, H.
    - destruct (lookup i (live _ _ s)); cbn; [now rewrite lookup_remove, H|reflexivity].
    - destruct (N.eqb i 0); [reflexivity|].
      destruct (lookup i (live _ _ s)) as [[x st]|]; cbn; [now rewrite lookup_insert, H|reflexivity].
    - destruct (lookup i (live _ _ s)) as [[x st]|]; [|reflexivity].
      destruct (sstep x o). cbn. now rewrite lookup_insert, H.
    - reflexivity.
  Qed.

  Lemma step_call s i o x st :
    lookup i (live _ _ s) = Some (x, st) ->
    lookup i (live _ _ (fst (step s (Call i o)))) = Some (fst (sstep x o), now _ _ s) /\
    snd (step s (Call i o)) = OObs (snd (sstep x o)) /\ now _ _ (fst (step s (Call i o))) = now _ _ s.
  Proof. intros H. cbn. rewrite H. destruct (sstep x o). cbn. now rewrite lookup_insert, N.eqb_refl. Qed.

  Lemma step_find s i x st :
    lookup i (live _ _ s) = Some (x, st) ->
    exists st', lookup i (live _ _ (fst (step s (Find i)))) = Some (x, st').
  Proof.
    intros H. cbn. destruct (N.eqb i 0); [eauto|]. rewrite H. cbn. rewrite lookup_insert, N.eqb_refl. eauto.
  Qed.

  Definition never_created (i : sid) (h : list (call op)) : bool :=
    forallb (fun c => match c with Create j => negb (N.eqb j i) | _ => true end) h.

  Definition rejected_entry (i : sid) (co : call op * out obs) : Prop :=
    match co with
    | (Call j o, r) => j = i -> r = OObs (rejected o)
    | (Find j, r) => j = i -> r = OBool false
    | (Destroy j, r) => j = i -> r = OBool false
    | _ => True
    end.

  Lemma step_dead s c i :
    lookup i (live _ _ s) = None -> c <> Create i ->
    lookup i (live _ _ (fst (step s c))) = None /\ rejected_entry i (c, snd (step s c)).
  Proof.
    intros Hl Hc. destruct (mentions i c) eqn:Hm.
    - destruct c as [j|j|j|j o| |d|]; cbn in Hm; try discriminate Hm;
        try (apply N.eqb_eq in Hm; subst j); cbn.
      + now destruct Hc.
      + now rewrite Hl.
      + destruct (N.eqb i 0); now rewrite ?Hl.
      + now rewrite Hl.
      + auto.
      + split; [now apply lookup_filter_none|exact I].
    - rewrite frame by exact Hm. split; [exact Hl|].
      destruct c; cbn in Hm |- *; trivial; intros ->; now rewrite N.eqb_refl in Hm.
  Qed.

  Lemma run_cons s c h :
    run s (c :: h) = (fst (run (fst (step s c)) h), (c, snd (step s c)) :: snd (run (fst (step s c)) h)).
  Proof. cbn [SvcModel.run]. destruct (step s c) as [s1 o]. cbn [fst snd]. now destruct (run s1 h). Qed.

  Lemma calls_on_skip i c h : mentions i c = false -> calls_on op i (c :: h) = calls_on op i h.
  Proof.
    destruct c; try reflexivity. cbn [mentions]. intros H. unfold calls_on. cbn [flat_map]. now rewrite H.
  Qed.

  Lemma obs_on_skip i c o t : mentions i c = false -> obs_on op obs i ((c, o) :: t) = obs_on op obs i t.
  Proof.
    destruct c, o; try reflexivity. cbn [mentions]. intros H. unfold obs_on. cbn [flat_map]. now rewrite H.
  Qed.

  Lemma calls_on_self i o h : calls_on op i (Call i o :: h) = o :: calls_on op i h.
  Proof. unfold calls_on. cbn [flat_map]. now rewrite N.eqb_refl. Qed.

  Lemma obs_on_self i o b t : obs_on op obs i ((Call i o, OObs b) :: t) = b :: obs_on op obs i t.
  Proof. unfold obs_on. cbn [flat_map]. now rewrite N.eqb_refl. Qed.

  Lemma solo_cons x o os :
    solo x (o :: os) = (fst (solo (fst (sstep x o)) os), snd (sstep x o) :: snd (solo (fst (sstep x o)) os)).
  Proof. cbn [SvcModel.solo]. destruct (sstep x o) as [x1 b]. cbn [fst snd]. now destruct (solo x1 os). Qed.

  Theorem interleave_invariance h : forall s i x st,
    lookup i (live _ _ s) = Some (x, st) -> quiet_for op i h = true ->
    obs_on op obs i (snd (run s h)) = snd (solo x (calls_on op i h)) /\
    option_map fst (lookup i (live _ _ (fst (run s h)))) = Some (fst (solo x (calls_on op i h))).
  Proof.
    induction h as [|c h IH]; intros s i x st Hl Hq; [cbn; rewrite Hl; auto|].
    cbn [quiet_for forallb] in Hq. apply andb_true_iff in Hq. destruct Hq as [Hc Hq].
    rewrite run_cons. cbn [fst snd]. destruct (mentions i c) eqn:Hm.
    - (* [c] names [i] and is no life-cycle event: find_session or a call *)
      destruct c as [j|j|j|j o| |d|]; cbn in Hc, Hm; try discriminate;
        apply N.eqb_eq in Hm; subst j; rewrite ?N.eqb_refl in Hc; try discriminate Hc.
      + destruct (step_find s i x st Hl) as [st' Hl1]. exact (IH _ i x st' Hl1 Hq).
      + destruct (step_call s i o x st Hl) as (Hl1 & -> & _). destruct (IH _ i _ _ Hl1 Hq) as [IH1 IH2].
        rewrite obs_on_self, calls_on_self, solo_cons. cbn [fst snd]. now rewrite IH1.
    - rewrite obs_on_skip, calls_on_skip by exact Hm. apply (IH _ i x st); [|exact Hq]. now rewrite frame.
  Qed.

  (** what a session observes from its creation on is its solo run from the
      settings persisted at that moment – whatever other sessions do meanwhile *)
  Corollary created_session_is_solo s h1 i h2 :
    quiet_for op i h2 = true ->
    let s1 := fst (run s h1) in
    let s2 := fst (step s1 (Create i)) in
    obs_on op obs i (snd (run s2 h2)) = snd (solo (snew (settings _ _ s1)) (calls_on op i h2)).
  Proof.
    intros Hq s1 s2.
    apply (interleave_invariance h2 s2 i (snew (settings _ _ s1)) (now _ _ s1)); [|exact Hq].
    cbn. now rewrite lookup_insert, N.eqb_refl.
  Qed.

  (** dead or never-issued ids are rejected by every call until issued again *)
  Theorem dead_id_rejected h : forall s i,
    lookup i (live _ _ s) = None -> never_created i h = true ->
    Forall (rejected_entry i) (snd (run s h)) /\ lookup i (live _ _ (fst (run s h))) = None.
  Proof.
    induction h as [|c h IH]; intros s i Hl Hn; [cbn; auto|].
    cbn [never_created forallb] in Hn. apply andb_true_iff in Hn. destruct Hn as [Hc Hn].
    destruct (step_dead s c i Hl) as [Hl1 Hre]; [intros ->; now rewrite N.eqb_refl in Hc|].
    destruct (IH _ i Hl1 Hn) as [IH1 IH2]. rewrite run_cons. split; [now constructor|exact IH2].
  Qed.

  Lemma step_nodup s c : NoDup (keys (live _ _ s)) -> NoDup (keys (live _ _ (fst (step s c)))).
  Proof.
    intros Hd. destruct c as [j|j|j|j o'| |d|]; unfold SvcModel.step.
    - now apply nodup_insert.
    - destruct (lookup j _); [now apply nodup_remove|exact Hd].
    - destruct (N.eqb j 0); [exact Hd|].
      destruct (lookup j _) as [[y st]|]; [now apply nodup_insert|exact Hd].
    - destruct (lookup j _) as [[y st]|]; [|exact Hd]. destruct (sstep y o'). now apply nodup_insert.
    - apply NoDup_nil.
    - exact Hd.
    - now apply nodup_filter.
  Qed.

  Theorem ids_distinct h : forall s,
    NoDup (keys (live _ _ s)) -> NoDup (keys (live _ _ (fst (run s h)))).
  Proof.
    induction h as [|c h IH]; intros s Hd; [exact Hd|]. rewrite run_cons. now apply IH, step_nodup.
  Qed.

  (** the stale sweep: a session idle for longer than the life span is gone
      (and, by [dead_id_rejected], its id is rejected from then on); the others stay *)
  Theorem stale_swept s i e :
    NoDup (keys (live _ _ s)) -> lookup i (live _ _ s) = Some e ->
    lookup i (live _ _ (fst (step s CleanupStale))) = (if stale sess (now _ _ s) e then None else Some e).
  Proof.
    intros Hd Hl. cbn. rewrite lookup_filter, Hl by exact Hd. cbn. now destruct (stale sess (now _ _ s) e).
  Qed.

  Lemma fresh_stamp_survives s i x d :
    NoDup (keys (live _ _ s)) -> lookup i (live _ _ s) = Some (x, now _ _ s) -> (d <= life_span)%N ->
    lookup i (live _ _ (fst (step (fst (step s (Advance d))) CleanupStale))) <> None.
  Proof.
    intros Hd Hl Hdl. rewrite (stale_swept _ i _ (step_nodup s (Advance d) Hd) Hl).
    unfold stale. cbn [snd SvcModel.step fst SvcModel.now].
    destruct (N.ltb_spec (now _ _ s) (now _ _ s + d - life_span)); [unfold life_span in *; lia|discriminate].
  Qed.

  (** any accepted call on a session makes it survive a sweep for another life span *)
  Theorem active_session_survives s i o d :
    NoDup (keys (live _ _ s)) -> lookup i (live _ _ s) <> None -> (d <= life_span)%N ->
    let s1 := fst (step s (Call i o)) in
    let s2 := fst (step s1 (Advance d)) in
    lookup i (live _ _ (fst (step s2 CleanupStale))) <> None.
  Proof.
    intros Hd Hl Hdl s1 s2.
    destruct (lookup i (live _ _ s)) as [[x st]|] eqn:E; [|congruence].
    destruct (step_call s i o x st E) as (Hl1 & _ & Hn1). rewrite <- Hn1 in Hl1.
    exact (fresh_stamp_survives s1 i _ d (step_nodup s _ Hd) Hl1 Hdl).
  Qed.
End SvcProofs.
