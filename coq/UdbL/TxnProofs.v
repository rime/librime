(** C11 – facts about the LevelDb wrapper model that hold for *every* sequence of
    calls: what is durable after any prefix of the calls is the result of
    applying a prefix of the *units* (whole batches and single direct writes),
    never part of a unit. *)
From Coq Require Import List NArith ZArith Bool Arith Lia.
From RimeV Require Import Base.Bytes Base.ListX UdbL.Txn.
Import ListNotations.

Lemma N_of_byte_inj a b : N_of_byte a = N_of_byte b -> a = b.
Proof.
  intro H. rewrite <- (byte_of_N_of_byte a), <- (byte_of_N_of_byte b). now rewrite H.
Qed.

Lemma bytes_cmp_eq a : forall b, bytes_cmp a b = Eq <-> a = b.
Proof.
  induction a as [|x a IH]; intros [|y b]; cbn [bytes_cmp]; split; intro H;
    try reflexivity; try discriminate.
  - destruct (N.compare (N_of_byte x) (N_of_byte y)) eqn:E; try discriminate.
    apply N.compare_eq in E. apply N_of_byte_inj in E. subst y.
    f_equal. now apply IH.
  - injection H as -> ->. rewrite N.compare_refl. now apply IH.
Qed.

Lemma bytes_eqb_eq a b : bytes_eqb a b = true <-> a = b.
Proof.
  unfold bytes_eqb. rewrite <- bytes_cmp_eq. destruct (bytes_cmp a b); split; intro H;
    try reflexivity; discriminate.
Qed.

Lemma bytes_eqb_refl a : bytes_eqb a a = true.
Proof. now apply bytes_eqb_eq. Qed.

Lemma bytes_eqb_neq a b : a <> b -> bytes_eqb a b = false.
Proof. intro H. apply not_true_is_false. now rewrite bytes_eqb_eq. Qed.

Lemma bytes_eqb_sym a b : bytes_eqb a b = bytes_eqb b a.
Proof. apply eq_true_iff_eq. rewrite !bytes_eqb_eq. split; intro; now symmetry. Qed.

Lemma get_put_same k v d : get (put k v d) k = Some v.
Proof.
  induction d as [|[k' v'] r IH]; cbn [put get].
  - now rewrite bytes_eqb_refl.
  - destruct (bytes_cmp k k') eqn:E; cbn [get].
    + now rewrite bytes_eqb_refl.
    + now rewrite bytes_eqb_refl.
    + assert (bytes_eqb k k' = false) as ->; [|exact IH].
      unfold bytes_eqb. now rewrite E.
Qed.

Lemma get_put_other k v d k2 : k2 <> k -> get (put k v d) k2 = get d k2.
Proof.
  intro Hne. induction d as [|[k' v'] r IH]; cbn [put get].
  - now rewrite (bytes_eqb_neq _ _ Hne).
  - destruct (bytes_cmp k k') eqn:E; cbn [get].
    + apply bytes_cmp_eq in E. subst k'. now rewrite (bytes_eqb_neq _ _ Hne).
    + now rewrite (bytes_eqb_neq _ _ Hne).
    + now rewrite IH.
Qed.

Lemma get_del_same k d : get (del k d) k = None.
Proof.
  induction d as [|[k' v'] r IH]; cbn [del get]; [reflexivity|].
  destruct (bytes_eqb k k') eqn:E; [exact IH|]. cbn [get]. now rewrite E.
Qed.

Lemma get_del_other k d k2 : k2 <> k -> get (del k d) k2 = get d k2.
Proof.
  intro Hne. induction d as [|[k' v'] r IH]; cbn [del get]; [reflexivity|].
  destruct (bytes_eqb k k') eqn:E; cbn [get].
  - apply bytes_eqb_eq in E. subst k'. now rewrite (bytes_eqb_neq _ _ Hne).
  - now rewrite IH.
Qed.

Lemma apply_batch_app a b d : apply_batch (a ++ b) d = apply_batch b (apply_batch a d).
Proof. unfold apply_batch. apply fold_left_app. Qed.

Lemma db_run_cons s o r : db_run s (o :: r) = db_run (db_step s o) r.
Proof. reflexivity. Qed.

Lemma db_run_app s a b : db_run s (a ++ b) = db_run (db_run s a) b.
Proof. unfold db_run. apply fold_left_app. Qed.

Lemma units_of_app a : forall s b,
  units_of s (a ++ b) = units_of s a ++ units_of (db_run s a) b.
Proof.
  induction a as [|o a IH]; intros s b; [reflexivity|].
  cbn [app units_of db_run fold_left]. rewrite IH. now rewrite app_assoc.
Qed.

Lemma abs_units_app d a b : abs_units d (a ++ b) = abs_units (abs_units d a) b.
Proof. unfold abs_units. apply fold_left_app. Qed.

Lemma durable_step s o :
  durable (db_step s o) =
  if effective s o then apply_batch (unit_of s o) (durable s) else durable s.
Proof.
  unfold effective. destruct s as [d b t l]. destruct o; cbn [db_step db_write unit_of loaded in_txn durable batch];
    destruct l, t; reflexivity.
Qed.

Lemma durable_run ops : forall s,
  durable (db_run s ops) = abs_units (durable s) (units_of s ops).
Proof.
  induction ops as [|o r IH]; intro s; [reflexivity|].
  cbn [units_of]. rewrite db_run_cons, IH, durable_step.
  destruct (effective s o); reflexivity.
Qed.

Lemma units_of_prefix s ops p q : p <= q ->
  units_of s (firstn q ops) =
  units_of s (firstn p ops) ++ units_of (db_run s (firstn p ops)) (skipn p (firstn q ops)).
Proof.
  intro H. rewrite <- units_of_app. f_equal.
  rewrite <- (firstn_skipn p (firstn q ops)) at 1. now rewrite firstn_firstn, Nat.min_l.
Qed.

Lemma units_of_firstn s ops p :
  units_of s (firstn p ops) = firstn (closed_count s (firstn p ops)) (units_of s ops).
Proof.
  unfold closed_count.
  rewrite <- (firstn_skipn p ops) at 3. rewrite units_of_app.
  rewrite firstn_app, Nat.sub_diag, firstn_O, app_nil_r. now rewrite firstn_all.
Qed.

Lemma crash_between s ops p :
  recover (db_run s (firstn p ops)) =
  abs_units (durable s) (firstn (closed_count s (firstn p ops)) (units_of s ops)).
Proof. unfold recover. now rewrite durable_run, units_of_firstn. Qed.

(** what is durable at a kill stays so: a later kill finds further whole units applied *)
Lemma durable_prefix s ops p q : p <= q ->
  exists us,
    recover (db_run s (firstn q ops)) = abs_units (recover (db_run s (firstn p ops))) us /\
    units_of s (firstn q ops) = units_of s (firstn p ops) ++ us.
Proof.
  intro H. eexists. split; [|apply units_of_prefix, H].
  unfold recover. now rewrite !durable_run, <- abs_units_app, <- units_of_prefix.
Qed.

Lemma closed_count_mono s ops p q :
  p <= q -> closed_count s (firstn p ops) <= closed_count s (firstn q ops).
Proof.
  intro H. unfold closed_count. rewrite (units_of_prefix s ops p q H), app_length. lia.
Qed.

Lemma closed_count_S s ops p o :
  nth_error ops p = Some o ->
  closed_count s (firstn (S p) ops) =
  closed_count s (firstn p ops) + (if effective (db_run s (firstn p ops)) o then 1 else 0).
Proof.
  intro H. unfold closed_count. rewrite (firstn_S_snoc _ _ _ H), units_of_app, app_length.
  cbn [units_of]. destruct (effective _ o); cbn [length app]; lia.
Qed.

(** LevelDB's own contract, as a hypothesis (validated by the kill-point
    harness on the installed LevelDB, never an axiom of the development) *)
Section LevelDBContract.
  (** the store a fresh process finds when the process was killed *inside* the
      LevelDB call that implements [o] in state [s] (Put, Delete, Write(batch)
      of leveldb::DB; the other calls do not touch the store) *)
  Variable kill_inside : db -> dbop -> dict.
  (** Put/Delete/Write(batch) are atomic: a kill inside one leaves the store as
      before or as after the call, and the directory opens (or is repaired) *)
  Hypothesis kill_inside_atomic :
    forall s o, kill_inside s o = durable s \/ kill_inside s o = durable (db_step s o).

  Inductive crash_point :=
  | Between (p : nat)      (* after p calls, before the next *)
  | Inside (p : nat).      (* inside call number p (counting from 0) *)

  Definition recovered (s : db) (ops : list dbop) (c : crash_point) : dict :=
    match c with
    | Between p => recover (db_run s (firstn p ops))
    | Inside p =>
        match nth_error ops p with
        | Some o => kill_inside (db_run s (firstn p ops)) o
        | None => recover (db_run s ops)
        end
    end.

  (** units certainly durable / possibly durable at the crash point *)
  Definition closed_before (s : db) (ops : list dbop) (c : crash_point) : nat :=
    match c with
    | Between p | Inside p => closed_count s (firstn p ops)
    end.
  Definition opened_before (s : db) (ops : list dbop) (c : crash_point) : nat :=
    match c with
    | Between p => closed_count s (firstn p ops)
    | Inside p => closed_count s (firstn (S p) ops)
    end.

  (** a kill inside a call is, to the store, a kill just before or just after it *)
  Lemma recovered_between s ops c :
    exists q, closed_before s ops c <= closed_count s (firstn q ops) <= opened_before s ops c /\
              recovered s ops c = recover (db_run s (firstn q ops)).
  Proof.
    destruct c as [p|p]; cbn [recovered closed_before opened_before].
    - exists p. split; [lia|reflexivity].
    - assert (forall q, p <= q <= S p ->
                closed_count s (firstn p ops) <= closed_count s (firstn q ops)
                <= closed_count s (firstn (S p) ops)) as M
        by (intros q Hq; split; apply closed_count_mono; lia).
      destruct (nth_error ops p) as [o|] eqn:E.
      + destruct (kill_inside_atomic (db_run s (firstn p ops)) o) as [-> | ->].
        * exists p. split; [apply M; lia|reflexivity].
        * exists (S p). split; [apply M; lia|].
          now rewrite (firstn_S_snoc _ _ _ E), db_run_app.
      + exists p. split; [apply M; lia|]. apply nth_error_None in E. now rewrite firstn_all2.
  Qed.

  Lemma crash_any s ops c :
    exists j, closed_before s ops c <= j <= opened_before s ops c /\
              recovered s ops c = abs_units (durable s) (firstn j (units_of s ops)).
  Proof.
    destruct (recovered_between s ops c) as (q & Hq & ->).
    exists (closed_count s (firstn q ops)). split; [exact Hq|apply crash_between].
  Qed.

  Lemma opened_closed_gap s ops c : opened_before s ops c <= closed_before s ops c + 1.
  Proof.
    destruct c as [p|p]; cbn [closed_before opened_before]; [lia|].
    destruct (nth_error ops p) as [o|] eqn:E.
    - rewrite (closed_count_S _ _ _ _ E). destruct (effective _ o); lia.
    - apply nth_error_None in E. rewrite !firstn_all2; lia.
  Qed.
End LevelDBContract.
