(** C10 – src/rime/algo/dynamics.h over the reals: what can be proved about
    formula_d / formula_p towards H_weight_mono.  The branch d < 20 (where
    entries with few commits live) is linear in the decayed weight; the
    pow(4, d/kM) branch and the double rounding are not treated – H_weight_mono
    stays a named hypothesis of the ranking theorem and is validated numerically
    by the harness. *)
From Coq Require Import Reals Lra.
Local Open Scope R_scope.

Definition formula_d (d t da ta : R) : R := d + da * exp ((ta - t) / 200).

Definition kM : R := / (1 - exp (- (5 / 1000))).

(** formula_p(s, u, t, d) on the branch d < 20 *)
Definition m_of (s u t : R) : R := s - (s - u) * (1 - exp (- t / 10000)) ^ 10.
Definition formula_p_low (s u t d : R) : R :=
  let m := m_of s u t in m + (1 / 2 - m) * (d / kM).

Lemma formula_d_commit_gain c t da ta : 0 < c -> formula_d 0 t da ta < formula_d c t da ta.
Proof. unfold formula_d. lra. Qed.

Lemma formula_d_nonneg d t da ta : 0 <= d -> 0 <= da -> 0 <= formula_d d t da ta.
Proof.
  intros H1 H2. unfold formula_d.
  pose proof (exp_pos ((ta - t) / 200)) as E.
  assert (0 <= da * exp ((ta - t) / 200)) by (apply Rmult_le_pos; lra). lra.
Qed.

Lemma exp_neg_lt_1 x : 0 < x -> exp (- x) < 1.
Proof. intro H. rewrite <- exp_0. apply exp_increasing. lra. Qed.

Lemma kM_pos : 0 < kM.
Proof.
  unfold kM. apply Rinv_0_lt_compat.
  pose proof (exp_neg_lt_1 (5 / 1000)) as H. lra.
Qed.

(** with s = 0: m = u * g(t), 0 <= g(t) < 1 for t > 0 *)
Lemma g_range t : 0 < t -> 0 <= (1 - exp (- t / 10000)) ^ 10 <= 1.
Proof.
  intro H.
  assert (0 < 1 - exp (- t / 10000) < 1) as [G1 G2].
  { replace (- t / 10000) with (- (t / 10000)) by lra.
    pose proof (exp_neg_lt_1 (t / 10000)). pose proof (exp_pos (- (t / 10000))). lra. }
  split.
  - apply pow_le. lra.
  - rewrite <- (pow1 10). apply pow_incr. lra.
Qed.

(** the slope in the decayed weight is (1/2 - m) / kM: increasing as long as the frequency
    part m stays below 1/2 *)
Lemma formula_p_low_affine s u t d1 d2 :
  formula_p_low s u t d2 - formula_p_low s u t d1 = (1 / 2 - m_of s u t) * (d2 - d1) * / kM.
Proof. unfold formula_p_low. cbv zeta. unfold Rdiv. ring. Qed.

Lemma formula_p_low_mono_d s u t d1 d2 :
  m_of s u t <= 1 / 2 -> d1 <= d2 -> formula_p_low s u t d1 <= formula_p_low s u t d2.
Proof.
  intros Hm Hd. pose proof (formula_p_low_affine s u t d1 d2) as E.
  pose proof (Rinv_0_lt_compat _ kM_pos) as K.
  assert (0 <= (1 / 2 - m_of s u t) * (d2 - d1) * / kM) by (repeat apply Rmult_le_pos; lra).
  lra.
Qed.

Lemma formula_p_low_strict_d s u t d1 d2 :
  m_of s u t < 1 / 2 -> d1 < d2 -> formula_p_low s u t d1 < formula_p_low s u t d2.
Proof.
  intros Hm Hd. pose proof (formula_p_low_affine s u t d1 d2) as E.
  pose proof (Rinv_0_lt_compat _ kM_pos) as K.
  assert (0 < (1 / 2 - m_of s u t) * (d2 - d1) * / kM) by (repeat apply Rmult_lt_0_compat; lra).
  lra.
Qed.

(** u = commits / tick *)
Lemma formula_p_low_mono_u u1 u2 t d :
  0 < t -> d <= kM -> u1 <= u2 -> formula_p_low 0 u1 t d <= formula_p_low 0 u2 t d.
Proof.
  intros Ht Hd Hu. pose proof kM_pos as K. destruct (g_range t Ht) as [G0 G1].
  assert (formula_p_low 0 u2 t d - formula_p_low 0 u1 t d =
          (u2 - u1) * (1 - exp (- t / 10000)) ^ 10 * ((kM - d) * / kM)) as E.
  { unfold formula_p_low, m_of. cbv zeta. field. apply Rgt_not_eq, K. }
  pose proof (Rinv_0_lt_compat _ K) as K'. set (g := (1 - exp (- t / 10000)) ^ 10) in *.
  assert (0 <= (u2 - u1) * g * ((kM - d) * / kM)) by (apply Rmult_le_pos; apply Rmult_le_pos; lra).
  lra.
Qed.

(** The full statement H_weight_mono stands for (not proved) *)

Definition formula_p (s u t d : R) : R :=
  let m := m_of s u t in
  if Rlt_dec d 20 then m + (1 / 2 - m) * (d / kM)
  else m + (1 - m) * (Rpower 4 (d / kM) - 1) / 3.

(** the quantity UserDictionary::CreateDictEntry takes the logarithm of, for a
    record (c, d, t) looked up at present tick p (user_dictionary.cc:537-546);
    [eps] is DBL_EPSILON *)
Definition entry_p (eps c d t p : R) : R :=
  let d' := if Rlt_dec t p then formula_d 0 p d t else d in
  Rmax eps (formula_p 0 (c / p) p d').

(** T = (cT, dT, tT) is committed when the in-memory tick is [tick] (lookups
    before the commit use present tick [tick + 1], afterwards [tick + 2]);
    X = (cX, dX, tX) is another record of the same code that is not committed.
    If X weighed no more than T before, it weighs strictly less afterwards. *)
Definition weight_mono_full : Prop :=
  forall eps cT dT tT cX dX tX tick,
    0 < eps -> 0 <= cT -> 0 <= dT -> 0 <= cX -> 0 <= dX ->
    0 <= tT <= tick -> 0 <= tX <= tick ->
    entry_p eps cX dX tX (tick + 1) <= entry_p eps cT dT tT (tick + 1) ->
    entry_p eps cX dX tX (tick + 2) <
    entry_p eps (cT + 1) (formula_d 1 (tick + 1) dT tT) (tick + 1) (tick + 2).
