(** C10/C11 – concrete histories showing that the theorems' hypotheses are met
    by non-trivial states (all by computation). *)
From Coq Require Import List NArith ZArith Bool.
From Coq.Strings Require Import Byte.
From RimeV Require Import UdbL.Txn UdbL.Learn.
Import ListNotations.

Definition ex_a : dentry := mkde [x41] [] [[x61]].          (* "A" spelled a *)
Definition ex_b : dentry := mkde [x42] [] [[x62]].          (* "B" spelled b *)
Definition ex_ab : dentry := mkde [x41; x42] [] [[x61]; [x62]].
Definition ex_key_a : key := [x61; x20; x09; x41].
Definition ex_key_b : key := [x62; x20; x09; x42].
Definition ex_key_ab : key := [x61; x20; x62; x20; x09; x41; x42].

(** open the dictionary, commit "A", type on (the commit is flushed), commit "B" *)
Definition ex_h : list event :=
  [ELoad 0; ECommit 0 KScript 0 [mkseg true true ex_a [ex_a]]; EFinish 0;
   ECommit 0 KScript 5 [mkseg true true ex_b [ex_b]]].

Lemma ex_ops :
  ops_of [] ex_h =
  [OOpen; OUpdate db_name_key VStr; OUpdate rime_version_key VStr; OUpdate db_type_key VStr;
   OUpdate user_id_key VStr; OUpdate tick_key (VNum 0);
   OBegin; OUpdate tick_key (VNum 1); OUpdate ex_key_a (VEnt 1 1); OCommit;
   OBegin; OUpdate tick_key (VNum 2); OUpdate ex_key_b (VEnt 1 2)].
Proof. vm_compute. reflexivity. Qed.

(** six units: five single metadata writes and the whole first commit; the
    second commit is still pending at the end of the history *)
Lemma ex_units :
  spec_units [] ex_h =
  [[WPut db_name_key VStr]; [WPut rime_version_key VStr]; [WPut db_type_key VStr];
   [WPut user_id_key VStr]; [WPut tick_key (VNum 0)];
   [WPut tick_key (VNum 1); WPut ex_key_a (VEnt 1 1)]].
Proof. vm_compute. reflexivity. Qed.

(** killed inside the first commit's batch (after 8 calls): nothing of it is there *)
Lemma ex_kill_inside_first_commit :
  let d := recover (db_run (db0 []) (firstn 8 (ops_of [] ex_h))) in
  closed_count (db0 []) (firstn 8 (ops_of [] ex_h)) = 5 /\
  get d ex_key_a = None /\ get d tick_key = Some (VNum 0).
Proof. vm_compute. repeat split. Qed.

(** killed at the very end: the first commit is whole, the last one is missing *)
Lemma ex_kill_at_end :
  let d := recover (db_run (db0 []) (ops_of [] ex_h)) in
  closed_count (db0 []) (ops_of [] ex_h) = 6 /\
  get d ex_key_a = Some (VEnt 1 1) /\ get d tick_key = Some (VNum 1) /\ get d ex_key_b = None.
Proof. vm_compute. repeat split. Qed.

(** a phrase assembled from two partial selections is one commit entry *)
Lemma ex_partials :
  commit_calls KScript [mkseg true false ex_a [ex_a]; mkseg true true ex_b [ex_b]] ce_empty =
  [(ex_ab, 1%Z)] /\ entry_key ex_ab = Some ex_key_ab.
Proof. vm_compute. split; reflexivity. Qed.

(** delete, then commit again: hidden, then visible with count |c|+1 *)
Lemma ex_delete_revive :
  let d1 := apply_batch (fst (upd_writes [(ex_key_a, VEnt 3 7)] 9 ex_a (-1))) [(ex_key_a, VEnt 3 7)] in
  let d2 := apply_batch (fst (upd_writes d1 9 ex_a 1)) d1 in
  get d1 ex_key_a = Some (VEnt (-3) 9) /\ get d2 ex_key_a = Some (VEnt 4 10) /\
  get d2 tick_key = Some (VNum 10).
Proof. vm_compute. repeat split. Qed.
