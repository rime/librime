(** C10 – a committed text is offered no later than before, in the model of the
    merged user/system emission, under the named hypothesis H_weight_mono. *)
From Coq Require Import List Bool Arith Lia.
From RimeV Require Import Base.Bytes Base.ListX UdbL.Txn UdbL.TxnProofs UdbL.Rank.
Import ListNotations.

Lemma mem_In x l : mem x l = true <-> In x l.
Proof.
  induction l as [|y r IH]; cbn [mem In]; [split; [discriminate|contradiction]|].
  rewrite orb_true_iff, IH, bytes_eqb_eq. split; intros [H|H]; auto.
Qed.

Lemma mem_false x l : mem x l = false <-> ~ In x l.
Proof.
  rewrite <- mem_In. destruct (mem x l); intuition congruence.
Qed.

Lemma index_dedup_prefix t a : forall seen rest,
  NoDup (a ++ [t]) -> (forall x, In x (a ++ [t]) -> ~ In x seen) ->
  index_of t (dedup_acc seen (a ++ t :: rest)) = Some (length a).
Proof.
  induction a as [|x a IH]; intros seen rest ND Hs; cbn [app dedup_acc length].
  - assert (mem t seen = false) as -> by (apply mem_false, Hs; now left).
    cbn [index_of]. now rewrite bytes_eqb_refl.
  - assert (mem x seen = false) as -> by (apply mem_false, Hs; now left).
    cbn [index_of]. inversion ND as [|? ? Hx ND']; subst.
    assert (bytes_eqb t x = false) as ->.
    { apply bytes_eqb_neq. intro E. subst x. apply Hx. apply in_or_app. right. now left. }
    rewrite IH; [reflexivity|exact ND'|].
    intros y Hy [E|Hin].
    + subst y. contradiction.
    + apply (Hs y); [now right|exact Hin].
Qed.

Lemma index_dedup_after t l1 : forall seen l2 i,
  NoDup l1 -> ~ In t l1 -> (forall x, In x l1 -> ~ In x seen) ->
  index_of t (dedup_acc seen (l1 ++ l2)) = Some i -> length l1 <= i.
Proof.
  induction l1 as [|x r IH]; intros seen l2 i ND Ht Hs H; cbn [app length] in *; [lia|].
  cbn [dedup_acc] in H.
  assert (mem x seen = false) as E by (apply mem_false, Hs; now left). rewrite E in H.
  cbn [index_of] in H.
  assert (bytes_eqb t x = false) as E2 by (apply bytes_eqb_neq; intro; subst; apply Ht; now left).
  rewrite E2 in H.
  destruct (index_of t (dedup_acc (x :: seen) (r ++ l2))) as [j|] eqn:Ej; [|discriminate].
  injection H as <-. inversion ND as [|? ? Hx ND']; subst.
  apply IH in Ej; [lia|exact ND'|intro; apply Ht; now right|].
  intros y Hy [Ey|Hin]; [subst; contradiction|apply (Hs y); [now right|exact Hin]].
Qed.

Lemma nodup_prefix_snoc {A} (a b : list A) t : NoDup (a ++ t :: b) -> NoDup (a ++ [t]).
Proof.
  intro H. replace (a ++ t :: b) with ((a ++ [t]) ++ b) in H by (now rewrite <- app_assoc).
  now apply NoDup_app_l in H.
Qed.

Section RankNoLater.
  Variable W : Type.
  Variable wle : W -> W -> bool.

  Lemma sorted_split A : forall t w B,
    sorted_desc W wle (A ++ (t, w) :: B) ->
    (forall y v, In (y, v) B -> wle v w = true) /\
    (forall y v, In (y, v) A -> wle w v = true).
  Proof.
    induction A as [|[x u] A IH]; intros t w B S; cbn [app sorted_desc] in S.
    - destruct S as [S _]. split; [exact S|contradiction].
    - destruct S as [S1 S2]. destruct (IH t w B S2) as [H1 H2]. split; [exact H1|].
      intros y v [E|Hin].
      + injection E as -> ->. apply (S1 t w). apply in_or_app. right. now left.
      + now apply (H2 y).
  Qed.

  Lemma in_fst_split (L : list (bytes * W)) t :
    In t (map fst L) -> exists A w B, L = A ++ (t, w) :: B.
  Proof.
    intro H. apply in_map_iff in H. destruct H as ([x w] & E & Hin). cbn in E. subst x.
    apply in_split in Hin. destruct Hin as (A & B & ->). now exists A, w, B.
  Qed.

  Lemma index_of_split (A B : list (bytes * W)) t w sys :
    NoDup (map fst (A ++ (t, w) :: B)) ->
    index_of t (emission W (A ++ (t, w) :: B) sys) = Some (length A).
  Proof.
    unfold emission, dedup. rewrite map_app, <- app_assoc, <- (map_length fst A). intro ND.
    apply index_dedup_prefix; [exact (nodup_prefix_snoc _ _ _ ND)|intros x _ []].
  Qed.

  (** the committed text [T]; the user phrases of the full code as the code sorts
      them before ([L0]) and after ([L1]) the commit; what follows them ([sys]) *)
  Variable T : bytes.
  Variables L0 L1 : list (bytes * W).
  Variable sys : list bytes.
  Hypothesis S0 : sorted_desc W wle L0.
  Hypothesis S1 : sorted_desc W wle L1.
  Hypothesis ND0 : NoDup (map fst L0).      (* one record per (code, text) *)
  Hypothesis ND1 : NoDup (map fst L1).
  (** after the commit the text is a visible user phrase (count >= 1) *)
  Hypothesis T_learned : In T (map fst L1).
  (** no other user phrase appears by itself *)
  Hypothesis others_kept : forall x, x <> T -> In x (map fst L1) -> In x (map fst L0).
  (** H_weight_mono – the statement about dynamics.h: a user phrase that was
      not committed and weighed no more than the committed one before weighs
      strictly less than it afterwards *)
  Hypothesis H_weight_mono :
    forall x w0x w1x wT0 wT1, x <> T ->
      In (x, w0x) L0 -> In (x, w1x) L1 -> In (T, wT0) L0 -> In (T, wT1) L1 ->
      wle w0x wT0 = true -> wle wT1 w1x = false.

  Theorem rank_no_later i0 :
    index_of T (emission W L0 sys) = Some i0 ->
    exists i1, index_of T (emission W L1 sys) = Some i1 /\ i1 <= i0.
  Proof.
    intro H0.
    destruct (in_fst_split L1 T T_learned) as (A1 & wT1 & B1 & E1).
    exists (length A1). split; [rewrite E1; apply index_of_split; now rewrite <- E1|].
    (* the texts before T afterwards are distinct, differ from T and were user phrases before *)
    rewrite E1, map_app in ND1, others_kept.
    pose proof (NoDup_app_l _ _ ND1) as NDa. apply NoDup_remove_2 in ND1.
    assert (forall x, In x (map fst A1) -> x <> T /\ In x (map fst L0)) as HA1.
    { intros x Hx. assert (x <> T) as Hne by (intros ->; apply ND1, in_or_app; now left).
      split; [exact Hne|]. apply others_kept; [exact Hne|]. apply in_or_app. now left. }
    rewrite <- (map_length fst A1).
    destruct (in_dec (list_eq_dec Coq.Strings.Byte.byte_eq_dec) T (map fst L0)) as [HT0|HT0].
    - (* T was at the end of A0 before: none of them was behind it, by the weights *)
      destruct (in_fst_split L0 T HT0) as (A0 & wT0 & B0 & E0).
      rewrite E0, index_of_split in H0 by (now rewrite <- E0). injection H0 as <-.
      rewrite <- (map_length fst A0). apply NoDup_incl_length; [exact NDa|].
      intros x Hx. destruct (HA1 x Hx) as [Hne HxL0].
      apply in_map_iff in Hx. destruct Hx as ([x' w1x] & Ex & HinA1). cbn in Ex. subst x'.
      rewrite E0, map_app in HxL0. apply in_app_or in HxL0.
      destruct HxL0 as [HA|[HTx|HB]]; [exact HA|now symmetry in HTx|exfalso].
      apply in_map_iff in HB. destruct HB as ([x' w0x] & Ex & HinB0). cbn in Ex. subst x'.
      rewrite E0 in S0. rewrite E1 in S1.
      destruct (sorted_split A0 T wT0 B0 S0) as [Hafter0 _].
      destruct (sorted_split A1 T wT1 B1 S1) as [_ Hbefore1].
      pose proof (Hbefore1 x w1x HinA1) as Hge.
      rewrite (H_weight_mono x w0x w1x wT0 wT1 Hne) in Hge;
        [discriminate|rewrite E0|rewrite E1|rewrite E0|rewrite E1|apply (Hafter0 x), HinB0];
        auto with datatypes.
    - (* T was not a user phrase before: it came after all of them *)
      apply index_dedup_after in H0; [|exact ND0|exact HT0|intros x _ []].
      etransitivity; [|exact H0]. apply NoDup_incl_length; [exact NDa|].
      intros x Hx. apply HA1, Hx.
  Qed.
End RankNoLater.
