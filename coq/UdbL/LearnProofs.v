(** C11 – the implementation model of the learning protocol (one LevelDb call at a
    time) refines the atomic semantics: the units its calls make durable are
    exactly the units of the atomic semantics, event by event. *)
From Coq Require Import List NArith ZArith Bool Arith.
From RimeV Require Import UdbL.Txn UdbL.TxnProofs UdbL.Learn.
Import ListNotations.

Lemma find_set_same l u x : find_ud (set_ud l u x) u = Some x.
Proof.
  induction l as [|[u' x'] r IH]; cbn [set_ud find_ud].
  - now rewrite Nat.eqb_refl.
  - destruct (Nat.eqb u u') eqn:E; cbn [find_ud]; [now rewrite Nat.eqb_refl|]. now rewrite E.
Qed.

Lemma get_set_same l u x : get_ud (set_ud l u x) u = x.
Proof. unfold get_ud. now rewrite find_set_same. Qed.

Lemma set_set_same l u x y : set_ud (set_ud l u x) u y = set_ud l u y.
Proof.
  induction l as [|[u' x'] r IH]; cbn [set_ud].
  - now rewrite Nat.eqb_refl.
  - destruct (Nat.eqb u u') eqn:E; cbn [set_ud]; [now rewrite Nat.eqb_refl|]. now rewrite E, IH.
Qed.

Lemma set_tick_tick l u a b : set_tick (set_tick l u a) u b = set_tick l u b.
Proof. unfold set_tick. now rewrite get_set_same, set_set_same. Qed.

Lemma tick_set_tick l u a : ud_tick (get_ud (set_tick l u a) u) = a.
Proof. unfold set_tick. now rewrite get_set_same. Qed.

Lemma set_tick_time l u now :
  set_tick (set_time l u now) u (ud_tick (get_ud l u)) = set_time l u now.
Proof. unfold set_tick, set_time. now rewrite get_set_same, set_set_same. Qed.

Lemma tick_set_time l u now : ud_tick (get_ud (set_time l u now) u) = ud_tick (get_ud l u).
Proof. unfold set_time. now rewrite get_set_same. Qed.

Lemma set_tick_set_time l u now a :
  set_tick (set_tick (set_time l u now) u a) u a = set_tick (set_time l u now) u a.
Proof. apply set_tick_tick. Qed.

Definition ops (s : pst) : list dbop := rev (plog s).

(** [s] after issuing the calls [L], with the object table [uds]: every
    operation of the implementation model leads from [s] to such a state *)
Definition nf (s : pst) (L : list dbop) (uds : list (nat * ud)) : pst :=
  mkpst (db_run (pdb s) L) uds (rev L ++ plog s).

Lemma nf_nil s : s = nf s [] (puds s).
Proof. destruct s; reflexivity. Qed.

Lemma nf_issue s o : issue s o = nf s [o] (puds s).
Proof. reflexivity. Qed.

Lemma nf_nf s L1 u1 L2 u2 : nf (nf s L1 u1) L2 u2 = nf s (L1 ++ L2) u2.
Proof.
  unfold nf. cbn [pdb plog]. now rewrite db_run_app, rev_app_distr, app_assoc.
Qed.

Lemma nf_with_uds s L u u' : with_uds (nf s L u) u' = nf s L u'.
Proof. reflexivity. Qed.

Lemma nf_issue_ws ws : forall s,
  fold_left issue_w ws s = nf s (map op_of_wop ws) (puds s).
Proof.
  induction ws as [|w ws IH]; intro s; cbn [fold_left map]; [apply nf_nil|].
  rewrite IH. unfold issue_w. rewrite nf_issue. cbn [puds nf]. now rewrite nf_nf.
Qed.

Lemma ops_nf s L u : ops (nf s L u) = ops s ++ L.
Proof. unfold ops, nf. cbn [plog]. now rewrite rev_app_distr, rev_involutive. Qed.

(** Open keeps [in_transaction_], Close clears it: no call breaks this *)
Definition inv (b : db) : Prop := in_txn b = true -> loaded b = true.

Lemma inv_step b o : inv b -> inv (db_step b o).
Proof.
  unfold inv. destruct b as [d bt t l], o; cbn; unfold db_write; cbn; destruct l, t; cbn; auto.
Qed.

Lemma inv_run L : forall b, inv b -> inv (db_run b L).
Proof. induction L as [|o L IH]; intros b I; [exact I|]. apply IH, inv_step, I. Qed.

Lemma run_writes ws : forall b,
  db_run b (map op_of_wop ws) =
  if loaded b
  then if in_txn b then mkdb (durable b) (batch b ++ ws) true true
       else mkdb (apply_batch ws (durable b)) (batch b) false true
  else b.
Proof.
  induction ws as [|w ws IH]; intros [d bt t l].
  - cbn. rewrite app_nil_r. now destruct l, t.
  - cbn [map]. rewrite db_run_cons, IH.
    destruct w, l, t; cbn; try rewrite <- app_assoc; reflexivity.
Qed.

Lemma units_writes ws : forall b,
  units_of b (map op_of_wop ws) =
  if loaded b && negb (in_txn b) then map (fun w => [w]) ws else [].
Proof.
  induction ws as [|w ws IH]; intros [d bt t l].
  - cbn. now destruct (l && negb t).
  - cbn [map units_of]. rewrite IH. destruct w, l, t; reflexivity.
Qed.

Definition projdb (b : db) (uds : list (nat * ud)) : sst :=
  mksst (durable b) (if in_txn b then Some (batch b) else None) (loaded b) uds.

Definition proj (s : pst) : sst := projdb (pdb s) (puds s).

Lemma view_proj b uds : s_view (projdb b uds) = view b.
Proof. reflexivity. Qed.

Lemma spec_writes_proj b uds ws :
  spec_writes (projdb b uds) ws =
  (projdb (db_run b (map op_of_wop ws)) uds, units_of b (map op_of_wop ws)).
Proof.
  rewrite run_writes, units_writes. destruct b as [d bt t l]. now destruct l, t.
Qed.

(** CommitPendingTransaction / FinishSession *)
Definition flush_ops (b : db) : list dbop := if in_txn b then [OCommit] else [].

Lemma commit_pending_nf s : commit_pending s = nf s (flush_ops (pdb s)) (puds s).
Proof.
  unfold commit_pending, flush_ops. destruct (in_txn (pdb s)); [apply nf_issue|apply nf_nil].
Qed.

Lemma spec_flush_proj b uds : inv b ->
  spec_flush (projdb b uds) = (projdb (db_run b (flush_ops b)) uds, units_of b (flush_ops b)).
Proof.
  intro I. destruct b as [d bt [] l]; [|reflexivity].
  assert (l = true) as -> by now apply I. reflexivity.
Qed.

Lemma inv_flush b : inv b -> in_txn (db_run b (flush_ops b)) = false.
Proof.
  intro I. destruct b as [d bt [] l]; [|reflexivity].
  assert (l = true) as -> by now apply I. reflexivity.
Qed.

Lemma loaded_flush b : loaded (db_run b (flush_ops b)) = loaded b.
Proof. now destruct b as [d bt [] []]. Qed.

(** [refines s s' (st, us)]: [s'] is [s] after some calls, which make exactly the
    units [us] durable and leave what the atomic semantics calls [st] *)
Definition refines (s s' : pst) (r : sst * list (list wop)) : Prop :=
  exists L uds, s' = nf s L uds /\ r = (projdb (db_run (pdb s) L) uds, units_of (pdb s) L).

Lemma refines_refl s : refines s s (proj s, []).
Proof. exists [], (puds s). split; [apply nf_nil|reflexivity]. Qed.

Lemma update_entry_nf s u e c ws t' :
  upd_writes (view (pdb s)) (ud_tick (get_ud (puds s) u)) e c = (ws, t') ->
  update_entry s u (e, c) = nf s (map op_of_wop ws) (set_tick (puds s) u t').
Proof.
  intro E. unfold update_entry. cbn [fst snd]. rewrite E. apply nf_issue_ws.
Qed.

(** writes leave the view unchanged when they go to the batch or nowhere *)
Definition buffered (b : db) : bool := in_txn b || negb (loaded b).

Lemma buffered_writes b ws : buffered b = true ->
  view (db_run b (map op_of_wop ws)) = view b /\ buffered (db_run b (map op_of_wop ws)) = true.
Proof.
  rewrite run_writes. destruct b as [d bt t l]. now destruct l, t.
Qed.

(** the UpdateEntry calls of one commit, all seeing the same view *)
Lemma calls_nf u calls : forall s uds t,
  buffered (pdb s) = true -> puds s = set_tick uds u t ->
  fold_left (fun s ec => update_entry s u ec) calls s =
  nf s (map op_of_wop (fst (calls_writes (view (pdb s)) t calls)))
       (set_tick uds u (snd (calls_writes (view (pdb s)) t calls))).
Proof.
  induction calls as [|[e c] r IH]; intros s uds t H E; cbn [fold_left calls_writes].
  - cbn [fst snd map]. rewrite <- E. apply nf_nil.
  - destruct (upd_writes (view (pdb s)) t e c) as [w1 t1] eqn:E1.
    rewrite (update_entry_nf s u e c w1 t1), E, set_tick_tick by (now rewrite E, tick_set_tick).
    destruct (buffered_writes (pdb s) w1 H) as [V H'].
    rewrite (IH _ uds t1); [|exact H'|reflexivity]. cbn [pdb nf]. rewrite V.
    destruct (calls_writes (view (pdb s)) t1 r) as [w2 t2]. cbn [fst snd].
    now rewrite nf_nf, map_app.
Qed.

(** FetchTickCount *)
Definition ft_uds (b : db) (uds : list (nat * ud)) (u : nat) : list (nat * ud) :=
  match fetch_tick_val (view b) with Some n => set_tick uds u n | None => uds end.
Definition ft_ok (b : db) : bool :=
  match fetch_tick_val (view b) with Some _ => true | None => false end.

Lemma fetch_tick_nf s u :
  fetch_tick s u = (nf s [] (ft_uds (pdb s) (puds s) u), ft_ok (pdb s)).
Proof.
  unfold fetch_tick, ft_uds, ft_ok. destruct (fetch_tick_val (view (pdb s))); [reflexivity|].
  now rewrite <- nf_nil.
Qed.

Lemma spec_fetch_tick_proj b uds u :
  spec_fetch_tick (projdb b uds) u = (projdb b (ft_uds b uds u), ft_ok b).
Proof.
  unfold spec_fetch_tick, ft_uds, ft_ok. rewrite view_proj.
  destruct (fetch_tick_val (view b)); reflexivity.
Qed.

Lemma fetch_sim s u : refines s (fst (fetch_tick s u)) (spec_step (proj s) (EFetchTick u)).
Proof.
  unfold proj. cbn [spec_step]. rewrite fetch_tick_nf, spec_fetch_tick_proj.
  eexists _, _. split; reflexivity.
Qed.

(** UserDictionary::Load *)
Definition spec_open (st0 : sst) : sst * list (list wop) :=
  if s_loaded st0 then (st0, [])
  else let o := mksst (s_dict st0) (s_pend st0) true (s_uds st0) in
       match get (s_dict st0) db_name_key with
       | Some _ => (o, [])
       | None => spec_writes o metadata_writes
       end.

Lemma open_sim s : inv (pdb s) ->
  refines s (if loaded (pdb s) then s else db_open s) (spec_open (proj s)).
Proof.
  intro I. unfold spec_open, proj. cbn [projdb s_loaded s_dict s_pend s_uds].
  destruct (loaded (pdb s)) eqn:El; [apply refines_refl|].
  unfold db_open. rewrite nf_issue. cbn [pdb nf].
  destruct (pdb s) as [d bt t l] eqn:Eb. cbn in El. subst l.
  assert (t = false) as -> by (destruct t; [discriminate (I eq_refl)|reflexivity]).
  cbn [db_run fold_left db_step loaded view durable in_txn]. destruct (get d db_name_key).
  - eexists _, _. split; [reflexivity|]. now rewrite Eb.
  - rewrite nf_issue_ws, nf_nf. eexists _, _. split; [reflexivity|].
    rewrite Eb, db_run_app, units_of_app. apply (spec_writes_proj (mkdb d [] false true)).
Qed.

Lemma load_sim s u : inv (pdb s) -> refines s (load s u) (spec_step (proj s) (ELoad u)).
Proof.
  intro I. unfold load.
  set (s0 := with_uds s (set_ud (puds s) u (mkud 0 0))).
  change (spec_step (proj s) (ELoad u)) with
    (let '(st1, us1) := spec_open (proj s0) in
     let '(st2, ok) := spec_fetch_tick st1 u in
     if ok then (st2, us1)
     else let '(st3, us3) := spec_writes st2 [WPut tick_key (VNum 0)] in (st3, us1 ++ us3)).
  destruct (open_sim s0 I) as (L1 & uds1 & -> & ->).
  rewrite fetch_tick_nf, spec_fetch_tick_proj. cbn [pdb puds nf].
  destruct (ft_ok _).
  - eexists _, _. split; [|reflexivity]. now rewrite nf_nf, app_nil_r.
  - rewrite spec_writes_proj. unfold issue_w. rewrite nf_issue, !nf_nf.
    eexists _, _. split; [reflexivity|]. now rewrite db_run_app, units_of_app.
Qed.

(** Memory::OnCommit *)
Lemma new_transaction_nf s u now :
  new_transaction s u now = nf s (flush_ops (pdb s) ++ [OBegin]) (set_time (puds s) u now).
Proof.
  unfold new_transaction. rewrite commit_pending_nf. cbn [puds nf].
  rewrite nf_with_uds, nf_issue. cbn [puds nf]. now rewrite nf_nf.
Qed.

Lemma on_commit_nf s u kind now segs : inv (pdb s) ->
  let b1 := db_run (pdb s) (flush_ops (pdb s)) in
  let cw := commit_writes (view b1) (ud_tick (get_ud (puds s) u)) kind segs in
  on_commit s u kind now segs =
  nf s (flush_ops (pdb s) ++ OBegin :: map op_of_wop (fst cw))
       (set_tick (set_time (puds s) u now) u (snd cw)).
Proof.
  intros I b1 cw. unfold on_commit. rewrite new_transaction_nf.
  rewrite (calls_nf _ _ _ (set_time (puds s) u now) (ud_tick (get_ud (puds s) u)));
    cbn [pdb puds nf]; rewrite ?db_run_app; fold b1.
  - rewrite nf_nf, <- app_assoc.
    replace (view (db_run b1 [OBegin])) with (view b1) by (now destruct b1 as [? ? ? []]).
    reflexivity.
  - pose proof (inv_flush _ I) as T. fold b1 in T.
    destruct b1 as [? ? ? []]; cbn in T |- *; now subst.
  - now rewrite set_tick_time.
Qed.

Lemma commit_sim s u kind now segs : inv (pdb s) ->
  refines s (on_commit s u kind now segs) (spec_step (proj s) (ECommit u kind now segs)).
Proof.
  intro I. eexists _, _. split; [apply on_commit_nf, I|].
  unfold proj. cbn [spec_step]. rewrite (spec_flush_proj _ _ I), view_proj. cbn [projdb s_uds].
  rewrite db_run_app, units_of_app.
  pose proof (inv_flush _ I) as T.
  destruct (db_run (pdb s) (flush_ops (pdb s))) as [d1 bt1 t1 l1]. cbn in T. subst t1.
  destruct (commit_writes _ _ kind segs) as [ws t']. cbn [fst snd].
  rewrite db_run_cons. cbn [units_of]. rewrite run_writes, units_writes.
  destruct l1; cbn; now rewrite app_nil_r.
Qed.

(** Memory::OnDeleteEntry *)
Lemma delete_sim s u e : refines s (update_entry s u (e, -1)%Z) (spec_step (proj s) (EDelete u e)).
Proof.
  unfold proj. cbn [spec_step]. rewrite view_proj. cbn [projdb s_uds].
  destruct (upd_writes _ _ e _) as [ws t'] eqn:E.
  eexists _, _. split; [apply update_entry_nf, E|]. apply spec_writes_proj.
Qed.

Lemma flush_sim s : inv (pdb s) -> refines s (commit_pending s) (spec_flush (proj s)).
Proof.
  intro I. eexists _, _. split; [apply commit_pending_nf|]. apply spec_flush_proj, I.
Qed.

(** Memory::OnUnhandledKey: BackSpace within the undo window aborts the open
    transaction, any other plain key makes it durable *)
Lemma key_sim s u plain bs now : inv (pdb s) ->
  refines s (on_key s u plain bs now) (spec_step (proj s) (EKey u plain bs now)).
Proof.
  intro I. unfold on_key, proj. cbn [spec_step].
  destruct plain; [|apply refines_refl].
  destruct bs; [|apply flush_sim, I].
  unfold revert_recent. cbn [projdb s_pend s_uds andb].
  destruct (in_txn (pdb s)) eqn:T; cbn [negb]; [|apply flush_sim, I].
  destruct (3 <? now - ud_time (get_ud (puds s) u))%Z; cbn [negb]; [apply flush_sim, I|].
  rewrite (I T). cbn [andb]. exists [OAbort], (puds s). split; [apply nf_issue|].
  destruct (pdb s) as [d bt t l]. cbn in T. pose proof (I T) as E. cbn in E. now subst.
Qed.

(** ~UserDictionary: the db is closed with the last object on it *)
Lemma destroy_sim s u : inv (pdb s) -> refines s (destroy s u) (spec_step (proj s) (EDestroy u)).
Proof.
  intro I. unfold destroy, proj. cbn [spec_step].
  (* an unloaded db has no open transaction: the destructor's test changes nothing *)
  replace (if loaded (pdb s) then commit_pending s else s) with (commit_pending s).
  2:{ unfold commit_pending. destruct (in_txn (pdb s)) eqn:T; [now rewrite (I T)|now destruct (loaded (pdb s))]. }
  rewrite commit_pending_nf, nf_with_uds, (spec_flush_proj _ _ I).
  cbn [puds nf pdb projdb s_uds s_dict s_pend s_loaded].
  pose proof (inv_flush _ I) as T. rewrite T.
  (* the calls are the flush, then OClose iff [u] was the last object and the db is loaded;
     no transaction is open after the flush, so each of the three cases computes *)
  destruct (remove_ud (puds s) u) as [|x r]; [destruct (loaded _) eqn:El; [rewrite nf_issue, nf_nf|]|].
  all: eexists _, _; (split; [reflexivity|]); rewrite ?db_run_app, ?units_of_app.
  all: destruct (db_run (pdb s) (flush_ops (pdb s))) as [d1 bt1 t1 l1]; cbn in *; subst; now rewrite ?app_nil_r.
Qed.

Lemma step_sim s e : inv (pdb s) -> refines s (ev_step s e) (spec_step (proj s) e).
Proof.
  intro I. destruct e; cbn [ev_step].
  - apply load_sim, I.
  - apply fetch_sim.
  - apply commit_sim, I.
  - apply delete_sim.
  - apply key_sim, I.
  - apply flush_sim, I.
  - apply destroy_sim, I.
Qed.

Lemma run_sim h : forall s, inv (pdb s) ->
  refines s (fold_left ev_step h s) (spec_run (proj s) h).
Proof.
  induction h as [|e r IH]; intros s I; cbn [fold_left spec_run]; [apply refines_refl|].
  destruct (step_sim s e I) as (L1 & uds1 & -> & ->).
  destruct (IH (nf s L1 uds1)) as (L2 & uds2 & -> & E2); [apply inv_run, I|].
  unfold proj in E2. cbn [pdb puds nf] in E2. rewrite E2.
  exists (L1 ++ L2), uds2. now rewrite nf_nf, db_run_app, units_of_app.
Qed.

Lemma inv_db0 d : inv (db0 d).
Proof. discriminate. Qed.

Lemma history_sim d h :
  pdb (run_events d h) = db_run (db0 d) (ops_of d h) /\
  spec_run (sst0 d) h = (proj (run_events d h), units_of (db0 d) (ops_of d h)).
Proof.
  unfold ops_of, run_events.
  destruct (run_sim h (pst0 d) (inv_db0 d)) as (L & uds & -> & E).
  unfold nf. cbn [plog pdb pst0]. rewrite app_nil_r, rev_involutive.
  split; [reflexivity|exact E].
Qed.

Theorem impl_units_are_spec_units d h :
  units_of (db0 d) (ops_of d h) = spec_units d h.
Proof. unfold spec_units. now rewrite (proj2 (history_sim d h)). Qed.

Theorem impl_state_is_spec_state d h :
  proj (run_events d h) = fst (spec_run (sst0 d) h) /\ inv (pdb (run_events d h)).
Proof.
  destruct (history_sim d h) as [P E]. rewrite E, P. split; [reflexivity|apply inv_run, inv_db0].
Qed.

Section HistoryCrash.
  Variable kill_inside : db -> dbop -> dict.
  Hypothesis kill_inside_atomic :
    forall s o, kill_inside s o = durable s \/ kill_inside s o = durable (db_step s o).

  (** whatever the history and wherever the kill: the store found afterwards is
      the initial store with a prefix of the history's units applied *)
  Lemma txn_atomic d h c :
    exists j,
      closed_before (db0 d) (ops_of d h) c <= j <= opened_before (db0 d) (ops_of d h) c /\
      recovered kill_inside (db0 d) (ops_of d h) c = abs_units d (firstn j (spec_units d h)).
  Proof.
    rewrite <- impl_units_are_spec_units. apply crash_any, kill_inside_atomic.
  Qed.
End HistoryCrash.

(** the prefix only grows with the crash position: what was durable stays *)
Lemma durable_monotone d h p q : p <= q ->
  exists us,
    recover (db_run (db0 d) (firstn q (ops_of d h))) =
    abs_units (recover (db_run (db0 d) (firstn p (ops_of d h)))) us /\
    firstn (closed_count (db0 d) (firstn q (ops_of d h))) (spec_units d h) =
    firstn (closed_count (db0 d) (firstn p (ops_of d h))) (spec_units d h) ++ us.
Proof.
  intro H. rewrite <- impl_units_are_spec_units, <- !units_of_firstn. apply durable_prefix, H.
Qed.

Lemma spec_run_app h1 : forall st h2,
  spec_run st (h1 ++ h2) =
  (fst (spec_run (fst (spec_run st h1)) h2), snd (spec_run st h1) ++ snd (spec_run (fst (spec_run st h1)) h2)).
Proof.
  induction h1 as [|e r IH]; intros st h2; cbn [app spec_run].
  - cbn [fst snd app]. now destruct (spec_run st h2).
  - destruct (spec_step st e) as [st1 us1]. rewrite IH.
    destruct (spec_run st1 r) as [st2 us2]. cbn [fst snd].
    destruct (spec_run st2 h2) as [st3 us3]. cbn [fst snd]. now rewrite app_assoc.
Qed.

Lemma spec_dict_is_abs d h :
  s_dict (fst (spec_run (sst0 d) h)) = abs_units d (spec_units d h).
Proof.
  destruct (history_sim d h) as [P E]. unfold spec_units. rewrite E.
  cbn [fst snd proj projdb s_dict]. rewrite P. apply (durable_run _ (db0 d)).
Qed.

(** a commit makes the previous commit durable first and is itself pending as a
    whole: at any moment the writes that are not yet durable belong to the one
    latest commit (plus deletions issued after it) *)
Lemma commit_flushes_previous d h u kind now segs :
  let st := fst (spec_run (sst0 d) h) in
  let st' := fst (spec_step st (ECommit u kind now segs)) in
  s_loaded st = true ->
  spec_units d (h ++ [ECommit u kind now segs]) =
    spec_units d h ++ (match s_pend st with Some w => [w] | None => [] end) /\
  s_dict st' = abs_units d (spec_units d (h ++ [ECommit u kind now segs])) /\
  s_pend st' = Some (fst (commit_writes (s_dict st') (ud_tick (get_ud (s_uds st) u)) kind segs)).
Proof.
  intros st st' Hl.
  assert (spec_run (sst0 d) (h ++ [ECommit u kind now segs]) =
          (st', spec_units d h ++ match s_pend st with Some w => [w] | None => [] end)) as E.
  { rewrite spec_run_app. cbn [spec_run]. fold st. subst st'. unfold spec_units.
    cbn [spec_step]. unfold spec_flush.
    destruct (s_pend st); destruct (commit_writes _ _ kind segs); cbn [fst snd app];
      now rewrite ?app_nil_r. }
  pose proof (spec_dict_is_abs d (h ++ [ECommit u kind now segs])) as D.
  unfold spec_units at 1. rewrite E in D |- *. repeat split; [exact D|].
  subst st'. cbn [spec_step]. unfold spec_flush, s_view.
  destruct (s_pend st); cbn [s_dict s_loaded s_uds]; rewrite Hl;
    destruct (commit_writes _ _ kind segs) eqn:Ec; cbn [fst s_pend s_dict]; now rewrite Ec.
Qed.

(** implementation level: every write call of a commit goes to the batch – after
    the event the store holds none of them and the batch holds all of them *)
Lemma commit_all_in_batch s u kind now segs :
  inv (pdb s) -> loaded (pdb s) = true ->
  let s' := ev_step s (ECommit u kind now segs) in
  in_txn (pdb s') = true /\
  durable (pdb s') = (if in_txn (pdb s) then apply_batch (batch (pdb s)) (durable (pdb s)) else durable (pdb s)) /\
  batch (pdb s') = fst (commit_writes (durable (pdb s')) (ud_tick (get_ud (puds s) u)) kind segs).
Proof.
  intros I Hl s'. subst s'. cbn [ev_step]. rewrite (on_commit_nf _ _ _ _ _ I). cbn [pdb nf].
  rewrite db_run_app, db_run_cons, run_writes.
  destruct (pdb s) as [d bt t l]. cbn in Hl. subst l. now destruct t.
Qed.
