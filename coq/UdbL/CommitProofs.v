(** C10/C11 – what one commit writes: counts, ticks, grouping, deletion. *)
From Coq Require Import List NArith ZArith Bool Arith Lia.
From RimeV Require Import UdbL.Txn UdbL.TxnProofs UdbL.Learn.
Import ListNotations.
Local Open Scope Z_scope.

Definition wkey (w : wop) : key := match w with WPut k _ | WDel k => k end.

Lemma get_apply_w_other d w k : wkey w <> k -> get (apply_w d w) k = get d k.
Proof.
  intro H. destruct w as [k' v|k']; cbn [apply_w wkey] in *.
  - apply get_put_other. congruence.
  - apply get_del_other. congruence.
Qed.

Lemma get_apply_batch_other ws : forall d k,
  (forall w, In w ws -> wkey w <> k) -> get (apply_batch ws d) k = get d k.
Proof.
  induction ws as [|w ws IH]; intros d k H; [reflexivity|].
  cbn [apply_batch fold_left]. fold (apply_batch ws (apply_w d w)).
  rewrite IH by (intros w' Hw; apply H; now right).
  apply get_apply_w_other. apply H. now left.
Qed.

(** keys of entries contain a tab; metadata keys do not *)
Lemma entry_key_has_tab e k : entry_key e = Some k -> In tab k.
Proof.
  unfold entry_key. destruct (match de_custom e with [] => _ | _ => _ end) as [c|]; [|discriminate].
  intro H. injection H as <-. apply in_or_app. right. now left.
Qed.

Lemma tick_key_no_tab : ~ In tab tick_key.
Proof. cbv. intuition discriminate. Qed.

Lemma entry_key_not_tick e : entry_key e <> Some tick_key.
Proof. intro H. apply tick_key_no_tab. now apply (entry_key_has_tab e). Qed.

(** the stored count after UpdateEntry(entry, commits) as a function of the old one *)
Definition new_commits (old c : Z) : Z :=
  if 0 <? c then Z.abs old + c else if c =? 0 then old else Z.min (-1) (- old).

Lemma abs_if c : (if c <? 0 then - c else c) = Z.abs c.
Proof. destruct (Z.ltb_spec c 0); lia. Qed.

Lemma upd_writes_some d tick e c k : entry_key e = Some k ->
  upd_writes d tick e c =
  (if 0 <? c
   then ([WPut tick_key (VNum (tick + 1)%N); WPut k (VEnt (new_commits (old_commits (get d k)) c) (tick + 1)%N)],
         (tick + 1)%N)
   else ([WPut k (VEnt (new_commits (old_commits (get d k)) c) tick)], tick)).
Proof.
  intro H. unfold upd_writes, new_commits. rewrite H, abs_if.
  destruct (0 <? c); [reflexivity|]. destruct (c =? 0); reflexivity.
Qed.

Lemma upd_writes_none d tick e c : entry_key e = None -> upd_writes d tick e c = ([], tick).
Proof. intro H. unfold upd_writes. now rewrite H. Qed.

Definition counted (ec : dentry * Z) : bool :=
  (0 <? snd ec) && match entry_key (fst ec) with Some _ => true | None => false end.

(** UpdateTickCount(1) happens exactly in a counted update *)
Lemma upd_tick d tick e c :
  snd (upd_writes d tick e c) = (tick + if counted (e, c) then 1 else 0)%N.
Proof.
  unfold counted. cbn [fst snd]. destruct (entry_key e) as [k|] eqn:Ek.
  - rewrite (upd_writes_some _ _ _ _ _ Ek). destruct (0 <? c); cbn [snd andb]; lia.
  - rewrite (upd_writes_none _ _ _ _ Ek), andb_false_r. cbn [snd]. lia.
Qed.

Lemma upd_writes_shape d tick e c w : In w (fst (upd_writes d tick e c)) ->
  (exists k cc, entry_key e = Some k /\ w = WPut k (VEnt cc (snd (upd_writes d tick e c)))) \/
  (w = WPut tick_key (VNum (snd (upd_writes d tick e c))) /\ (tick < snd (upd_writes d tick e c))%N).
Proof.
  destruct (entry_key e) as [k|] eqn:Ek.
  - rewrite (upd_writes_some _ _ _ _ _ Ek). destruct (0 <? c); cbn [fst snd In].
    + intros [<-|[<-|[]]]; [right; split; [reflexivity|lia]|left; now eexists _, _].
    + intros [<-|[]]. left. now eexists _, _.
  - now rewrite (upd_writes_none _ _ _ _ Ek).
Qed.

Lemma upd_writes_get d tick e c k d0 : entry_key e = Some k ->
  get (apply_batch (fst (upd_writes d tick e c)) d0) k =
  Some (VEnt (new_commits (old_commits (get d k)) c) (snd (upd_writes d tick e c))).
Proof.
  intro Ek. rewrite (upd_writes_some _ _ _ _ _ Ek).
  destruct (0 <? c); cbn [fst snd apply_batch fold_left apply_w]; apply get_put_same.
Qed.

Definition n_counted (calls : list (dentry * Z)) : nat := length (filter counted calls).

Lemma n_counted_cons ec r :
  n_counted (ec :: r) = ((if counted ec then 1 else 0) + n_counted r)%nat.
Proof. unfold n_counted. cbn [filter]. destruct (counted ec); reflexivity. Qed.

Lemma calls_writes_cons d tick e c r :
  calls_writes d tick ((e, c) :: r) =
  (fst (upd_writes d tick e c) ++ fst (calls_writes d (snd (upd_writes d tick e c)) r),
   snd (calls_writes d (snd (upd_writes d tick e c)) r)).
Proof.
  cbn [calls_writes]. destruct (upd_writes d tick e c) as [w1 t1]. cbn [fst snd].
  now destruct (calls_writes d t1 r).
Qed.

Lemma calls_writes_app d a : forall tick b,
  calls_writes d tick (a ++ b) =
  (fst (calls_writes d tick a) ++ fst (calls_writes d (snd (calls_writes d tick a)) b),
   snd (calls_writes d (snd (calls_writes d tick a)) b)).
Proof.
  induction a as [|[e c] r IH]; intros tick b; cbn [app].
  - cbn [calls_writes fst snd app]. now destruct (calls_writes d tick b).
  - rewrite !calls_writes_cons, IH. cbn [fst snd]. now rewrite app_assoc.
Qed.

Lemma calls_tick d calls : forall tick,
  snd (calls_writes d tick calls) = (tick + N.of_nat (n_counted calls))%N.
Proof.
  induction calls as [|[e c] r IH]; intro tick.
  - cbn. lia.
  - rewrite calls_writes_cons, n_counted_cons. cbn [snd]. rewrite IH, upd_tick.
    destruct (counted (e, c)); lia.
Qed.

Lemma calls_tick_mono d calls tick : (tick <= snd (calls_writes d tick calls))%N.
Proof. rewrite calls_tick. lia. Qed.

Lemma calls_writes_shape d calls : forall tick w,
  In w (fst (calls_writes d tick calls)) ->
  (exists e c k cc t, In (e, c) calls /\ entry_key e = Some k /\ w = WPut k (VEnt cc t) /\
                      (tick <= t <= snd (calls_writes d tick calls))%N) \/
  (exists n, w = WPut tick_key (VNum n) /\ (tick < n <= snd (calls_writes d tick calls))%N).
Proof.
  induction calls as [|[e c] r IH]; intros tick w; [contradiction|].
  rewrite calls_writes_cons. cbn [fst snd].
  pose proof (upd_tick d tick e c) as M1.
  pose proof (calls_tick_mono d r (snd (upd_writes d tick e c))) as M2.
  intro H. apply in_app_or in H. destruct H as [H|H].
  - destruct (upd_writes_shape _ _ _ _ _ H) as [(k & cc & Hk & ->)|[-> Ht]].
    + left. exists e, c, k, cc. eexists. repeat split; [now left|exact Hk|lia|lia].
    + right. eexists. split; [reflexivity|lia].
  - destruct (IH _ _ H) as [(e' & c' & k & cc & t & Hin & Hk & -> & Ht)|(n & -> & Hn)].
    + left. exists e', c', k, cc, t. repeat split; [now right|exact Hk|lia|lia].
    + right. exists n. split; [reflexivity|lia].
Qed.

Lemma untouched_keys_kept d tick calls k d0 :
  (forall ec, In ec calls -> entry_key (fst ec) <> Some k) ->
  k <> tick_key \/ n_counted calls = 0%nat ->
  get (apply_batch (fst (calls_writes d tick calls)) d0) k = get d0 k.
Proof.
  intros Hno Hk. apply get_apply_batch_other. intros w Hw.
  destruct (calls_writes_shape d calls tick w Hw)
    as [(e & c & k' & cc & t & Hin & Hk' & -> & _)|(n & -> & Hn)]; cbn [wkey].
  - intros ->. exact (Hno (e, c) Hin Hk').
  - rewrite calls_tick in Hn. intros <-. destruct Hk; [congruence|lia].
Qed.

Lemma calls_tick_stored d calls : forall tick d0,
  (0 < n_counted calls)%nat ->
  get (apply_batch (fst (calls_writes d tick calls)) d0) tick_key =
  Some (VNum (snd (calls_writes d tick calls))).
Proof.
  induction calls as [|[e c] r IH]; intros tick d0 Hn; [cbn in Hn; lia|].
  rewrite calls_writes_cons. cbn [fst snd]. rewrite apply_batch_app.
  destruct (n_counted r) as [|m] eqn:Er; [|apply IH; lia].
  (* no counted call follows: nothing later writes "/tick" *)
  rewrite untouched_keys_kept, calls_tick, Er
    by (try (now right); intros ec _; apply entry_key_not_tick).
  rewrite n_counted_cons, Er in Hn. unfold counted in Hn. cbn [fst snd] in Hn.
  destruct (entry_key e) as [k|] eqn:Ek; [|rewrite andb_false_r in Hn; lia].
  rewrite (upd_writes_some _ _ _ _ _ Ek). destruct (0 <? c); [|cbn in Hn; lia].
  cbn [fst snd apply_batch fold_left apply_w]. rewrite get_put_other, get_put_same.
  - f_equal. f_equal. lia.
  - intros <-. now apply (entry_key_not_tick e).
Qed.

(** the last call that targets a key decides its stored count, computed from
    the count the dictionary held *before the commit* *)
Lemma last_call_wins d tick calls1 e c calls2 k d0 :
  entry_key e = Some k ->
  (forall ec, In ec calls2 -> entry_key (fst ec) <> Some k) ->
  let calls := calls1 ++ (e, c) :: calls2 in
  exists t,
    get (apply_batch (fst (calls_writes d tick calls)) d0) k =
      Some (VEnt (new_commits (old_commits (get d k)) c) t) /\
    (tick <= t <= snd (calls_writes d tick calls))%N.
Proof.
  intros Hk Hno calls. subst calls.
  rewrite calls_writes_app, calls_writes_cons. cbn [fst snd].
  rewrite !apply_batch_app, untouched_keys_kept, (upd_writes_get _ _ _ _ _ _ Hk).
  - eexists. split; [reflexivity|].
    pose proof (calls_tick_mono d calls1 tick).
    pose proof (upd_tick d (snd (calls_writes d tick calls1)) e c).
    pose proof (calls_tick_mono d calls2 (snd (upd_writes d (snd (calls_writes d tick calls1)) e c))).
    destruct (counted (e, c)); lia.
  - exact Hno.
  - left. intros ->. now apply (entry_key_not_tick e).
Qed.

Definition fold_ce (ce : centry) (segs : list seg) : centry := fold_left ce_append segs ce.

Lemma commit_calls_partials kind partials : forall ce final,
  Forall (fun sg => sg_rec sg = true /\ sg_conf sg = false) partials ->
  sg_rec final = true -> sg_conf final = true ->
  commit_calls kind (partials ++ [final]) ce =
  match ce_text (fold_ce ce (partials ++ [final])) with
  | [] => []
  | _ => memorize_calls kind (fold_ce ce (partials ++ [final]))
  end.
Proof.
  induction partials as [|sg r IH]; intros ce final HF Hr Hc; cbn [app commit_calls].
  - rewrite Hr, Hc. cbn [negb orb fold_ce fold_left]. now rewrite app_nil_r.
  - inversion HF as [|? ? [H1 H2] HF']; subst. rewrite H1, H2. cbn [negb orb].
    rewrite IH by assumption. reflexivity.
Qed.

Lemma fold_ce_concat segs : forall ce,
  fold_ce ce segs =
  mkce (ce_text ce ++ concat (map (fun sg => de_text (sg_entry sg)) segs))
       (ce_code ce ++ concat (map (fun sg => de_code (sg_entry sg)) segs))
       (ce_elems ce ++ concat (map sg_elems segs)).
Proof.
  induction segs as [|sg r IH]; intro ce; cbn [fold_ce fold_left map concat].
  - destruct ce. cbn. now rewrite !app_nil_r.
  - fold (fold_ce (ce_append ce sg) r). rewrite IH. cbn [ce_append ce_text ce_code ce_elems].
    now rewrite !app_assoc.
Qed.

Lemma memorize_script_last ce :
  exists pre, memorize_calls KScript ce = pre ++ [(ce_entry ce, 1)] /\
              forall ec, In ec pre -> snd ec = 0.
Proof.
  unfold memorize_calls. eexists. split; [reflexivity|].
  intros ec H. destruct (_ && _); [|contradiction].
  apply in_map_iff in H. destruct H as (x & <- & _). reflexivity.
Qed.

Lemma deleted_hidden c t : visible (VEnt (Z.min (-1) (- c)) t) = false.
Proof. cbn [visible]. apply Z.leb_gt. lia. Qed.

Lemma counted_visible old c t : 0 < c -> visible (VEnt (new_commits old c) t) = true.
Proof.
  intro H. cbn [visible]. unfold new_commits. apply Z.ltb_lt in H. rewrite H. apply Z.leb_le. lia.
Qed.

(** the tick of a commit is written with it and bounds the stamps of its entries *)
Lemma commit_tick_consistent d tick kind segs d0 :
  let calls := commit_calls kind segs ce_empty in
  let ws := fst (commit_writes d tick kind segs) in
  let tick' := snd (commit_writes d tick kind segs) in
  tick' = (tick + N.of_nat (n_counted calls))%N /\
  ((0 < n_counted calls)%nat -> get (apply_batch ws d0) tick_key = Some (VNum tick')) /\
  (forall k c t, In (WPut k (VEnt c t)) ws -> (tick <= t <= tick')%N) /\
  (forall n, In (WPut tick_key (VNum n)) ws -> (tick < n <= tick')%N).
Proof.
  intros calls ws tick'. subst ws tick'. unfold commit_writes. fold calls.
  split; [apply calls_tick|]. split; [apply calls_tick_stored|]. split.
  - intros k c t H.
    destruct (calls_writes_shape d calls tick _ H) as [(e' & c' & k' & cc & t' & _ & _ & E & Ht)|(n & E & _)];
      [|discriminate]. now injection E as _ _ ->.
  - intros n H.
    destruct (calls_writes_shape d calls tick _ H) as [(e' & c' & k' & cc & t' & _ & _ & E & _)|(n' & E & Hn)];
      [discriminate|]. now injection E as ->.
Qed.

Lemma counted_once_is_abs_plus_one old : new_commits old 1 = Z.abs old + 1.
Proof. reflexivity. Qed.

Lemma touched_keeps_count old : new_commits old 0 = old.
Proof. reflexivity. Qed.

Lemma commit_counts_exactly d tick calls :
  let ws := fst (calls_writes d tick calls) in
  let tick' := snd (calls_writes d tick calls) in
  (forall calls1 e c calls2 k,
     calls = calls1 ++ (e, c) :: calls2 -> entry_key e = Some k ->
     (forall ec, In ec calls2 -> entry_key (fst ec) <> Some k) ->
     exists t, get (apply_batch ws d) k = Some (VEnt (new_commits (old_commits (get d k)) c) t) /\
               (tick <= t <= tick')%N) /\
  (forall k, (forall ec, In ec calls -> entry_key (fst ec) <> Some k) -> k <> tick_key ->
     get (apply_batch ws d) k = get d k) /\
  tick' = (tick + N.of_nat (n_counted calls))%N.
Proof.
  intros ws tick'. subst ws tick'. split; [|split].
  - intros calls1 e c calls2 k -> Hk Hno. now apply last_call_wins.
  - intros k Hno Hkt. apply untouched_keys_kept; auto.
  - apply calls_tick.
Qed.

Lemma table_calls_all_counted ce ec : In ec (memorize_calls KTable ce) -> snd ec = 1.
Proof.
  unfold memorize_calls. intro H. apply in_map_iff in H. destruct H as (x & <- & _). reflexivity.
Qed.

(** k partial selections closed by a confirming one are saved as one entry under
    the concatenated code, counted once; its elements are only touched *)
Lemma partials_one_entry partials final :
  Forall (fun sg => sg_rec sg = true /\ sg_conf sg = false) partials ->
  sg_rec final = true -> sg_conf final = true ->
  let T := concat (map (fun sg => de_text (sg_entry sg)) (partials ++ [final])) in
  let C := concat (map (fun sg => de_code (sg_entry sg)) (partials ++ [final])) in
  T <> [] ->
  exists pre, commit_calls KScript (partials ++ [final]) ce_empty = pre ++ [(mkde T [] C, 1)] /\
              forall ec, In ec pre -> snd ec = 0.
Proof.
  intros HF Hr Hc T C HT.
  rewrite (commit_calls_partials KScript partials ce_empty final HF Hr Hc), fold_ce_concat.
  cbn [ce_empty ce_text ce_code app]. fold T C.
  destruct T; [contradiction|]. apply memorize_script_last.
Qed.

Lemma delete_marks_and_hides d tick e k :
  entry_key e = Some k ->
  let c' := Z.min (-1) (- old_commits (get d k)) in
  upd_writes d tick e (-1) = ([WPut k (VEnt c' tick)], tick) /\
  c' < 0 /\ (0 <= old_commits (get d k) -> c' = - Z.max 1 (old_commits (get d k))) /\
  visible (VEnt c' tick) = false.
Proof.
  intros Hk c'. split; [now rewrite (upd_writes_some _ _ _ _ _ Hk)|].
  split; [subst c'; lia|]. split; [subst c'; lia|]. apply deleted_hidden.
Qed.

Lemma recommit_revives old t :
  let del := Z.min (-1) (- old) in
  new_commits del 1 = Z.abs del + 1 /\ 0 < new_commits del 1 /\ visible (VEnt (new_commits del 1) t) = true.
Proof.
  intro del. split; [reflexivity|]. split; [unfold new_commits; cbn; lia|]. now apply counted_visible.
Qed.
