(** C14: the port of the implementation on a directive-free document:
    ConfigBuilder::LoadConfig (Compile, the vacuous automatic patch, Link,
    BuildInfoPlugin) returns the document itself. *)
From Coq Require Import List Lia.
From RimeV Require Import CfgC.Str CfgC.Tree CfgC.Spec CfgC.Impl CfgC.Facts CfgC.ImplFacts
  CfgC.SpecProofs CfgC.ConvProofs.
Import ListNotations.

Lemma filter_sset_drop (k : str) (v : item) vs :
  (forall e, In e vs -> str_eqb (fst e) k = false) ->
  filter (fun e => negb (str_eqb (fst e) k)) (sset k v vs) = vs.
Proof.
  induction vs as [|[k' v'] vs IH]; intros H; cbn [sset].
  - cbn. now rewrite str_eqb_refl.
  - pose proof (H (k', v') (or_introl eq_refl)) as Hk. cbn [fst] in Hk.
    rewrite str_eqb_sym, Hk.
    destruct (str_ltb k k'); cbn [filter fst].
    + rewrite str_eqb_refl, Hk. cbn [negb]. f_equal.
      apply filter_all. intros e He. now rewrite (H e (or_intror He)).
    + rewrite Hk. cbn [negb]. f_equal. apply IH. intros e He. apply H. now right.
Qed.

Lemma Forall_fold_sset (P : str * item -> Prop) (m : list (str * ydoc)) : forall acc,
  (forall e, In e m -> P (fst e, y2item (snd e))) -> Forall P acc ->
  Forall P (fold_left (fun a e => sset (fst e) (y2item (snd e)) a) m acc).
Proof.
  induction m as [|e m IH]; intros acc H Ha; cbn [fold_left]; [exact Ha|].
  apply IH; [intros x Hx; apply H; now right|].
  apply Forall_sset; [apply H; now left|exact Ha].
Qed.

Lemma custom_id_ne id : ends_with id s_custom = false -> str_eqb (custom_id id) id = false.
Proof.
  intros H. destruct (str_eqb (custom_id id) id) eqn:E; [|reflexivity].
  apply str_eqb_eq in E. unfold custom_id in E. rewrite <- E in H.
  now rewrite ends_with_app in H.
Qed.

Lemma to_resource_id_custom_id id : to_resource_id (custom_id id) = custom_id id.
Proof. unfold custom_id. apply to_resource_id_custom. Qed.
Lemma ends_with_custom_id id : ends_with (custom_id id) s_custom = true.
Proof. apply ends_with_app. Qed.

Section PlainImpl.
  Variable ds : docs.
  Variables (wf f : nat) (name : str) (m : list (str * ydoc)).
  Let id := to_resource_id name.
  Let y := YMap m.
  Hypothesis Hy : alookup id ds = Some y.
  Hypothesis Hd : directive_free y = true.
  Hypothesis Hc : alookup (custom_id id) ds = None.
  Hypothesis Hs : ends_with id s_schema = false.
  Hypothesis Hcu : ends_with id s_custom = false.
  Hypothesis Hbi : forall e, In e m -> str_eqb (fst e) s_build_info = false.
  Hypothesis Hwf : S (ydepth y) <= wf.

  Let r0 := {| rs_root := None; rs_loaded := false |}.
  Let root := id ++ [c_colon].
  Let st1 := with_res st0 (aset id r0 (st_res st0)).

  (* after Compile: the document's tree on the heap, the automatic patch pending at the root *)
  Definition stA (a : nat) (h2 : heap) : state :=
    {| st_heap := h2; st_res := [(id, {| rs_root := Some a; rs_loaded := true |})];
       st_deps := [(root, [DPatchRef (auto_patch_ref id) (RRes id)])]; st_chain := [];
       st_oof := false; st_woof := false; st_ub := false |}.

  Lemma compile_h_plain :
    exists a h2 mfin,
      compile_h ds st0 name = (id, true, stA a h2) /\
      hget h2 a = Some (HMap mfin) /\
      forall w h'', ydepth y <= S w -> agree_on 0 (length h2) h2 h'' ->
        rb_map (readback w h'') mfin =
        (fold_left (fun acc e => sset (fst e) (y2item (snd e)) acc) m [], true).
  Proof.
    destruct (directive_free_map m Hd) as [HK Hdc].
    assert (HC : Forall (fun e => conv_plain (snd e)) m) by (apply Forall_forall; auto using convert_plain).
    pose proof (convert_map_plain m HC HK [RRes id] [root] st1) as K. fold y in K.
    unfold compile_h. fold id. rewrite Hy.
    change (with_res st0 (aset id {| rs_root := None; rs_loaded := false |} (st_res st0))) with st1.
    change (id ++ [c_colon]) with root.
    destruct (convert y [RRes id] [root] st1) as [p st2].
    cbn [fst snd st_heap st1 with_res st0 length] in K. destruct K as (-> & (O & _) & L & mfin & Hg & R).
    destruct O as (Od & Or & Och & Oo & Ow & Ou).
    destruct st2 as [h2 r2 d2 c2 o2 w2 u2]. cbn in Od, Or, Och, Oo, Ow, Ou, L, R, Hg. subst.
    exists 0, h2, mfin. split; [|split; [exact Hg|]].
    - cbn [st_res with_res aset]. rewrite str_eqb_refl.
      unfold auto_patch_h. rewrite Hcu. unfold deps_at. cbn [st_deps with_res alookup].
      unfold graph_add. cbn [rev app join_path join_with].
      unfold pending_at, deps_at. cbn [st_deps with_res alookup length Nat.eqb orb].
      unfold add_dep_at, deps_at. cbn [st_deps with_res alookup aset insert_by_priority with_deps].
      reflexivity.
    - intros w h'' Hw Hag. apply R; [cbn [y ydepth] in Hw; lia|].
      eapply agree_on_sub; [| |exact Hag]; lia.
  Qed.

  Definition stB (a : nat) (h2 : heap) : state :=
    {| st_heap := h2;
       st_res := [(id, {| rs_root := Some a; rs_loaded := true |}); (custom_id id, r0)];
       st_deps := [(root, [])]; st_chain := [];
       st_oof := false; st_woof := false; st_ub := false |}.

  (* the automatic patch refers to a document that does not exist: resolved, nothing changes *)
  Lemma resolve_root_plain a h2 :
    resolve_deps ds wf (S f) root (stA a h2) = (true, stB a h2).
  Proof.
    cbn [resolve_deps]. unfold resolve_deps_body, deps_at.
    cbn [st_deps stA alookup]. rewrite str_eqb_refl.
    unfold has_circular. cbn [st_chain stA existsb app with_chain].
    cbn [resolve_loop resolve_dep]. unfold resolve_reference.
    cbn [r_res auto_patch_ref st_res with_chain stA alookup].
    rewrite (custom_id_ne id Hcu).
    unfold compile_h. rewrite to_resource_id_custom_id, Hc.
    unfold auto_patch_h. rewrite ends_with_custom_id.
    cbn [r_opt auto_patch_ref].
    unfold erase_head_dep, deps_at. cbn [st_deps with_res with_chain stA alookup]. rewrite str_eqb_refl.
    cbn [with_deps st_deps st_heap st_res st_chain st_oof st_woof st_ub with_res with_chain stA aset].
    rewrite str_eqb_refl. cbn [resolve_loop removelast app].
    rewrite (custom_id_ne id Hcu). reflexivity.
  Qed.

  Definition stC (a : nat) (h2 : heap) (mfin : list (str * ptr)) : state :=
    {| st_heap := hset ((h2 ++ [HMap []]) ++ [HMap mfin]) (S (length h2))
                       (HMap (sset s_build_info (Some (length h2)) mfin));
       st_res := [(id, {| rs_root := Some (S (length h2)); rs_loaded := true |}); (custom_id id, r0)];
       st_deps := [(root, [])]; st_chain := [];
       st_oof := false; st_woof := false; st_ub := false |}.

  (* BuildInfoPlugin: the root map is copied, the copy gets the extra key *)
  Lemma build_info_plain a h2 mfin :
    hget h2 a = Some (HMap mfin) ->
    fst (set_item (with_heap (stB a h2) (h2 ++ [HMap []])) (cow (RRes id) s_build_info) (Some (length h2)))
    = stC a h2 mfin.
  Proof.
    intros Hg. pose proof (hget_Some_lt _ _ _ Hg) as Ha.
    set (s' := with_heap (stB a h2) (h2 ++ [HMap []])).
    assert (E1 : get_item s' (RRes id) = Some a).
    { cbn [get_item]. unfold res_root. subst s'. cbn [st_res with_heap stB alookup].
      now rewrite str_eqb_refl. }
    assert (E3 : hget (st_heap s') a = Some (HMap mfin)).
    { subst s'. cbn [st_heap with_heap]. rewrite hget_app_old by exact Ha. exact Hg. }
    assert (E2 : as_map s' (Some a) = Some (a, mfin)) by (unfold as_map; now rewrite E3).
    unfold cow. change (is_list_ref s_build_info) with false.
    cbn [set_item]. rewrite E1, E2. cbn [option_map fst]. rewrite E3.
    unfold alloc.
    assert (Ls : length (st_heap s') = S (length h2)).
    { subst s'. cbn [st_heap with_heap]. rewrite app_length. cbn. lia. }
    rewrite Ls.
    unfold set_root. subst s'. cbn [st_res st_heap with_heap stB alookup]. rewrite str_eqb_refl.
    cbn [aset]. rewrite str_eqb_refl. cbn [rs_loaded fst].
    unfold cow_write. cbn [st_heap with_res with_heap].
    replace (S (length h2)) with (length (h2 ++ [HMap []])) at 1 by (rewrite app_length; cbn; lia).
    rewrite hget_app_new. reflexivity.
  Qed.

  (* the copy carries the entries of the root map (they lie below the two new nodes) and the empty build info *)
  Lemma readback_stC a h2 mfin vs w :
    (forall h'', agree_on 0 (length h2) h2 h'' -> rb_map (readback w h'') mfin = (vs, true)) -> 0 < w ->
    readback (S w) (st_heap (stC a h2 mfin)) (Some (S (length h2))) = (Map (sset s_build_info (Map []) vs), true).
  Proof.
    clear Hwf. (* or [lia] uses the section's bound on [wf] *)
    intros R Hw. cbn [st_heap stC]. set (n := length h2). set (h3 := (h2 ++ [HMap []]) ++ [HMap mfin]).
    set (hf := hset h3 (S n) (HMap (sset s_build_info (Some n) mfin))).
    assert (L3 : length h3 = S (S n)) by (subst h3 n; rewrite !app_length; cbn; lia).
    assert (Hfo : forall x, x <> S n -> hget hf x = hget h3 x) by (intros x Hx; apply hget_hset_other; congruence).
    cbn [readback]. unfold hf at 1. rewrite hget_hset_same by lia.
    pose proof (rb_map_sset (readback w hf) s_build_info (Some n) mfin (Map []) vs) as RB.
    unfold ptr in RB. rewrite RB; [reflexivity| |].
    - destruct w as [|w']; [lia|]. cbn [readback]. rewrite Hfo by lia. unfold h3.
      rewrite hget_app_old by (rewrite app_length; cbn; fold n; lia). unfold n. now rewrite hget_app_new.
    - apply R. intros x _ Hx. rewrite Hfo by (fold n in Hx; lia). unfold h3.
      rewrite hget_app_old by (rewrite app_length; cbn; lia). now apply hget_app_old.
  Qed.

  Theorem impl_plain_fixed :
    let o := compile_impl ds wf (S f) name in
    o_tree o = y2item y /\ o_loaded o = true /\ o_linked o = true /\
    o_oof o = false /\ o_woof o = false /\ o_ub o = false.
  Proof.
    destruct compile_h_plain as (a & h2 & mfin & Ec & Hg & R).
    unfold compile_impl. rewrite Ec.
    unfold link_h. cbn [st_res stA alookup]. rewrite str_eqb_refl.
    change (id ++ [c_colon]) with root. rewrite resolve_root_plain. cbn [negb]. rewrite Hs. cbn [negb].
    change (alloc (stB a h2) (HMap [])) with (length h2, with_heap (stB a h2) (h2 ++ [HMap []])).
    cbv beta iota.
    rewrite (build_info_plain a h2 mfin Hg).
    unfold res_root. cbn [st_res stC alookup]. rewrite str_eqb_refl. cbn [rs_root].
    destruct wf as [|w]; [lia|].
    rewrite (readback_stC a h2 mfin _ w (fun h'' => R w h'' ltac:(lia))) by (unfold y in Hwf; cbn [ydepth] in Hwf; lia).
    cbn [strip_build_info st_oof st_woof st_ub orb negb stC o_tree o_loaded o_linked o_oof o_woof o_ub].
    split; [|repeat split].
    change (y2item y) with (Map (fold_left (fun acc e => sset (fst e) (y2item (snd e)) acc) m [])).
    f_equal. apply filter_sset_drop.
    assert (F : Forall (fun e : str * item => str_eqb (fst e) s_build_info = false)
                  (fold_left (fun acc e => sset (fst e) (y2item (snd e)) acc) m [])).
    { apply Forall_fold_sset; [|constructor]. intros e He. cbn [fst]. now apply Hbi. }
    intros e He. rewrite Forall_forall in F. now apply F.
  Qed.
End PlainImpl.
