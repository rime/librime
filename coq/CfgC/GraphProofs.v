(** C14: the dependency graph.  The graph operations (ConfigDependencyGraph::Add
    with its spreading of the pending state, ConfigCompiler::Parse, the
    automatic patch, erasing a resolved dependency) change nothing but the
    graph, and keep whatever is claimed of every path and every dependency in
    it, as long as the claim holds of what they add.  ResolveDependencies
    keeps an invariant that its primitive steps keep. *)
From Coq Require Import List Arith Bool Lia.
From RimeV Require Import CfgC.Str CfgC.Tree CfgC.Spec CfgC.Impl CfgC.Facts CfgC.ImplFacts.
Import ListNotations.

Definition graph_only (st st' : state) : Prop :=
  st_heap st' = st_heap st /\ st_res st' = st_res st /\ st_chain st' = st_chain st /\
  st_oof st' = st_oof st.

Lemma graph_only_refl st : graph_only st st. Proof. now repeat split. Qed.
Lemma graph_only_trans a b c : graph_only a b -> graph_only b c -> graph_only a c.
Proof. unfold graph_only. intros (?&?&?&?) (?&?&?&?). repeat split; congruence. Qed.
Lemma add_dep_at_only st p d : graph_only st (add_dep_at st p d). Proof. now repeat split. Qed.

Lemma spread_pending_only ks : forall st, graph_only st (spread_pending st ks).
Proof.
  induction ks as [|k rest IH]; intros st; cbn [spread_pending]; [apply graph_only_refl|].
  destruct rest as [|k2 rest']; [apply graph_only_refl|].
  destruct (_ || _); [apply add_dep_at_only|].
  eapply graph_only_trans; [apply add_dep_at_only|apply IH].
Qed.

Lemma graph_add_only st ns ks mk : graph_only st (graph_add st ns ks mk).
Proof.
  unfold graph_add. destruct ns as [|t ns]; [apply graph_only_refl|].
  destruct (_ || _); [apply add_dep_at_only|].
  eapply graph_only_trans; [apply add_dep_at_only|apply spread_pending_only].
Qed.

Lemma parse_patch_h_only st ns ks item : graph_only st (snd (parse_patch_h st ns ks item)).
Proof.
  unfold parse_patch_h. destruct item as [a|]; [|apply graph_only_refl].
  destruct (hget (st_heap st) a) as [[s|l|m]|]; first [apply graph_add_only | apply graph_only_refl].
Qed.

Lemma parse_patch_list_h_only ns ks : forall l st, graph_only st (snd (parse_patch_list_h st ns ks l)).
Proof.
  induction l as [|x l IH]; intros st; cbn [parse_patch_list_h]; [apply graph_only_refl|].
  pose proof (parse_patch_h_only st ns ks x) as H. destruct (parse_patch_h st ns ks x) as [ok st1].
  destruct ok; [|exact H]. eapply graph_only_trans; [exact H|apply IH].
Qed.

Lemma parse_h_only st ns ks key item : graph_only st (snd (parse_h st ns ks key item)).
Proof.
  unfold parse_h. destruct (str_eqb key s_include).
  - destruct (deref st item) as [[s|l|m]|]; first [apply graph_add_only | apply graph_only_refl].
  - destruct (str_eqb key s_patch); [|apply graph_only_refl].
    destruct (as_list st item) as [[a l]|]; [apply parse_patch_list_h_only|apply parse_patch_h_only].
Qed.

Lemma auto_patch_h_only st id : graph_only st (auto_patch_h st id).
Proof.
  unfold auto_patch_h. destruct (ends_with id s_custom); [apply graph_only_refl|].
  destruct (deps_at st (id ++ [c_colon])) as [[|d l]|]; try apply graph_add_only.
  destruct (2 <=? priority (last l d)); [apply graph_only_refl|apply graph_add_only].
Qed.

Lemma erase_head_dep_only st path : graph_only st (erase_head_dep st path).
Proof. unfold erase_head_dep. destruct (deps_at st path) as [[|d l]|]; now repeat split. Qed.

Definition ptr_ge (L : nat) (p : ptr) : Prop := match p with Some a => L <= a | None => True end.

Definition node_ok (L : nat) (Sc : list str) (n : hnode) : Prop :=
  match n with
  | HScalar s => In s Sc
  | HList l => Forall (ptr_ge L) l
  | HMap m => Forall (fun e => ptr_ge L (snd e)) m
  end.
Definition conv_inv (L : nat) (Sc : list str) (st : state) : Prop :=
  forall a n, L <= a -> hget (st_heap st) a = Some n -> node_ok L Sc n.

Lemma conv_inv_heap_eq L Sc st st' : st_heap st' = st_heap st -> conv_inv L Sc st -> conv_inv L Sc st'.
Proof. unfold conv_inv. intros E H. now rewrite E. Qed.

Lemma conv_inv_alloc L Sc st n :
  conv_inv L Sc st -> node_ok L Sc n -> conv_inv L Sc (snd (alloc st n)).
Proof.
  intros H Hn a n' Ha Hg. cbn in Hg.
  destruct (Nat.lt_ge_cases a (length (st_heap st))) as [Hlt|Hge].
  - rewrite hget_app_old in Hg by exact Hlt. eapply H; eauto.
  - pose proof (hget_Some_lt _ _ _ Hg) as Hl. rewrite app_length in Hl. cbn in Hl.
    assert (a = length (st_heap st)) by lia. subst a.
    rewrite hget_app_new in Hg. now inversion Hg; subst.
Qed.

Lemma conv_inv_hset L Sc st a n :
  conv_inv L Sc st -> (L <= a -> node_ok L Sc n) ->
  conv_inv L Sc (with_heap st (hset (st_heap st) a n)).
Proof.
  intros H Hn b n' Hb Hg. cbn in Hg.
  destruct (Nat.eq_dec a b) as [->|Hne].
  - pose proof (hget_Some_lt _ _ _ Hg) as Hl. rewrite hset_length in Hl.
    rewrite hget_hset_same in Hg by exact Hl. inversion Hg; subst. now apply Hn.
  - rewrite hget_hset_other in Hg by exact Hne. eapply H; eauto.
Qed.

Lemma conv_inv_heap_map_set L Sc st a k v :
  conv_inv L Sc st -> ptr_ge L v -> conv_inv L Sc (heap_map_set st a k v).
Proof.
  intros H Hv. unfold heap_map_set.
  destruct (hget (st_heap st) a) as [[s|l|m]|] eqn:E; try exact H.
  apply conv_inv_hset; [exact H|]. intros Ha. cbn.
  apply Forall_sset; [exact Hv|]. exact (H a (HMap m) Ha E).
Qed.

Lemma conv_inv_heap_list_append L Sc st a v :
  conv_inv L Sc st -> ptr_ge L v -> conv_inv L Sc (heap_list_append st a v).
Proof.
  intros H Hv. unfold heap_list_append.
  destruct (hget (st_heap st) a) as [[s|l|m]|] eqn:E; try exact H.
  apply conv_inv_hset; [exact H|]. intros Ha. cbn.
  apply Forall_app. split; [exact (H a (HList l) Ha E)|]. constructor; [exact Hv|constructor].
Qed.

Lemma current_resource_id_cons k ks : ks <> [] -> current_resource_id (k :: ks) = current_resource_id ks.
Proof.
  intros H. unfold current_resource_id. cbn [rev].
  destruct (rev ks) as [|x r] eqn:E; [|reflexivity].
  apply (f_equal (@rev str)) in E. rewrite rev_involutive in E. cbn in E. congruence.
Qed.

Section GraphSat.
  Variable Q : str -> Prop.          (* of the paths that carry dependencies *)
  Variable Pr : reference -> Prop.   (* of the references of includes and patches *)
  Variable Pt : iref -> Prop.        (* of their target slots *)

  Definition dep_sat (d : dep) : Prop :=
    match d with
    | DPending _ => True
    | DInclude r t | DPatchRef r t => Pr r /\ Pt t
    | DPatchLit _ t => Pt t
    end.

  Definition graph_sat (st : state) : Prop :=
    forall p l, In (p, l) (st_deps st) -> Q p /\ Forall dep_sat l.

  Lemma graph_sat_deps_eq st st' : st_deps st' = st_deps st -> graph_sat st -> graph_sat st'.
  Proof. unfold graph_sat. now intros ->. Qed.

  Lemma graph_sat_at st p l : graph_sat st -> deps_at st p = Some l -> Q p /\ Forall dep_sat l.
  Proof. intros G E. apply G. now apply alookup_In. Qed.

  Lemma graph_sat_set st p l :
    graph_sat st -> Q p -> Forall dep_sat l -> graph_sat (with_deps st (aset p l (st_deps st))).
  Proof.
    intros G Hp Hl q l' Hin. apply In_aset in Hin. destruct Hin as [[= -> ->]|Hin]; [auto|now apply G].
  Qed.

  Lemma Forall_insert_by_priority (P : dep -> Prop) l d :
    Forall P l -> P d -> Forall P (insert_by_priority l d).
  Proof.
    intros Hl Hd. induction Hl as [|x l Hx Hl IH]; cbn [insert_by_priority]; [auto|].
    destruct (priority d <? priority x); auto.
  Qed.

  Lemma add_dep_at_sat st p d : graph_sat st -> Q p -> dep_sat d -> graph_sat (add_dep_at st p d).
  Proof.
    intros G Hp Hd. apply graph_sat_set; [exact G|exact Hp|].
    apply Forall_insert_by_priority; [|exact Hd].
    destruct (deps_at st p) as [l|] eqn:E; [now apply (graph_sat_at st p)|constructor].
  Qed.

  Lemma erase_head_dep_sat st p : graph_sat st -> graph_sat (erase_head_dep st p).
  Proof.
    intros G. unfold erase_head_dep. destruct (deps_at st p) as [[|d l]|] eqn:E; try exact G.
    destruct (graph_sat_at st p _ G E) as [Hp Hl]. apply graph_sat_set; [exact G|exact Hp|now inversion Hl].
  Qed.

  (** key stacks are innermost first *)
  Fixpoint tails_sat (ks : list str) : Prop :=
    match ks with
    | [] => True
    | _ :: r => Q (join_path (rev ks)) /\ tails_sat r
    end.

  Lemma spread_pending_sat ks : forall st, graph_sat st -> tails_sat ks -> graph_sat (spread_pending st ks).
  Proof.
    induction ks as [|k rest IH]; intros st G T; cbn [spread_pending]; [exact G|].
    destruct rest as [|k2 rest']; [exact G|].
    destruct T as [_ T]. pose proof T as [Tp _].
    set (pp := join_path (rev (k2 :: rest'))) in *.
    assert (G1 : graph_sat (add_dep_at st pp (DPending (pp ++ s_slash ++ k)))) by now apply add_dep_at_sat.
    destruct (_ || _); [exact G1|now apply IH].
  Qed.

  Lemma graph_add_sat st ns ks mk :
    graph_sat st -> ks <> [] -> tails_sat ks -> (forall t, In t ns -> dep_sat (mk t)) ->
    graph_sat (graph_add st ns ks mk).
  Proof.
    intros G Hne T Hmk. unfold graph_add. destruct ns as [|t ns]; [exact G|].
    destruct ks as [|k rest]; [congruence|]. pose proof T as [Tp _].
    assert (G1 : graph_sat (add_dep_at st (join_path (rev (k :: rest))) (mk t)))
      by (apply add_dep_at_sat; [exact G|exact Tp|apply Hmk; now left]).
    destruct (_ || _); [exact G1|now apply spread_pending_sat].
  Qed.

  Definition stack_sat (Sc : list str) (ns : list iref) (ks : list str) : Prop :=
    ks <> [] /\ tails_sat ks /\ Forall Pt ns /\
    forall s, In s Sc -> Pr (create_reference (current_resource_id ks) s).

  Lemma stack_add_sat Sc st ns ks mk :
    graph_sat st -> stack_sat Sc ns ks -> (forall t, Pt t -> dep_sat (mk t)) ->
    graph_sat (graph_add st ns ks mk).
  Proof.
    intros G (Hne & T & Hns & _) Hmk. apply graph_add_sat; auto.
    intros t Ht. apply Hmk. rewrite Forall_forall in Hns. auto.
  Qed.

  Lemma scalar_ref_sat L Sc st ns ks a s :
    stack_sat Sc ns ks -> conv_inv L Sc st -> L <= a -> hget (st_heap st) a = Some (HScalar s) ->
    Pr (create_reference (current_resource_id ks) s).
  Proof. intros (_ & _ & _ & R) C Ha E. apply R. exact (C a (HScalar s) Ha E). Qed.

  Lemma parse_patch_h_sat L Sc st ns ks item :
    graph_sat st -> stack_sat Sc ns ks -> conv_inv L Sc st -> ptr_ge L item ->
    graph_sat (snd (parse_patch_h st ns ks item)).
  Proof.
    intros G K C Hp. unfold parse_patch_h. destruct item as [a|]; [|exact G].
    destruct (hget (st_heap st) a) as [[s|l|m]|] eqn:E; cbn [snd]; try exact G;
      apply (stack_add_sat Sc); auto; intros t Ht; cbn; auto.
    split; [now apply (scalar_ref_sat L Sc st ns ks a)|exact Ht].
  Qed.

  Lemma parse_patch_list_h_sat L Sc ns ks : forall l st,
    graph_sat st -> stack_sat Sc ns ks -> conv_inv L Sc st -> Forall (ptr_ge L) l ->
    graph_sat (snd (parse_patch_list_h st ns ks l)).
  Proof.
    induction l as [|x l IH]; intros st G K C F; cbn [parse_patch_list_h]; [exact G|].
    inversion F as [|? ? Fx Fl]; subst.
    pose proof (parse_patch_h_sat L Sc st ns ks x G K C Fx) as G1.
    pose proof (parse_patch_h_only st ns ks x) as O1.
    destruct (parse_patch_h st ns ks x) as [ok st1]. cbn [snd] in *.
    destruct ok; [|exact G1]. apply IH; auto. eapply conv_inv_heap_eq; [apply O1|exact C].
  Qed.

  Lemma parse_h_sat L Sc st ns ks key item :
    graph_sat st -> stack_sat Sc ns ks -> conv_inv L Sc st -> ptr_ge L item ->
    graph_sat (snd (parse_h st ns ks key item)).
  Proof.
    intros G K C Hp. unfold parse_h. destruct (str_eqb key s_include).
    - destruct item as [a|]; cbn [deref]; [|exact G].
      destruct (hget (st_heap st) a) as [[s|l|m]|] eqn:E; cbn [snd]; try exact G.
      apply (stack_add_sat Sc); auto. intros t Ht.
      split; [now apply (scalar_ref_sat L Sc st ns ks a)|exact Ht].
    - destruct (str_eqb key s_patch); [|exact G].
      destruct (as_list st item) as [[a l]|] eqn:E; [|now apply (parse_patch_h_sat L Sc)].
      apply (parse_patch_list_h_sat L Sc); auto.
      unfold as_list in E. destruct item as [a'|]; [|discriminate].
      destruct (hget (st_heap st) a') as [[s|l'|m]|] eqn:E'; try discriminate.
      injection E as <- <-. exact (C a' (HList l') Hp E').
  Qed.

  Lemma auto_patch_h_sat st id :
    graph_sat st -> Q (id ++ [c_colon]) -> Pt (RRes id) ->
    (ends_with id s_custom = false -> Pr (auto_patch_ref id)) ->
    graph_sat (auto_patch_h st id).
  Proof.
    intros G Hr Ht Hc. unfold auto_patch_h.
    destruct (ends_with id s_custom); [exact G|].
    assert (K : graph_sat (graph_add st [RRes id] [id ++ [c_colon]] (DPatchRef (auto_patch_ref id)))).
    { apply graph_add_sat; [exact G|discriminate|now split|]. intros t [<-|[]]. now split; auto. }
    destruct (deps_at st (id ++ [c_colon])) as [[|d l]|]; try exact K.
    destruct (2 <=? priority (last l d)); [exact G|exact K].
  Qed.
End GraphSat.

(** ResolveDependencies, one level: an invariant [I] and a progress
    relation [R] that the primitive steps keep are kept by the walk through
    the dependencies of a path, whatever the recursive call [rec] is as long
    as it keeps them too.  [Dr], [Dt]: what the invariant says of the
    references and targets of the dependencies in the graph. *)
Definition keeps (I : state -> Prop) (R : state -> state -> Prop) (st st' : state) : Prop :=
  I st' /\ R st st'.

Set Implicit Arguments.
Record resolve_steps (ds : docs) (wf : nat) (rec : str -> state -> bool * state)
  (I : state -> Prop) (R : state -> state -> Prop) (Dr : reference -> Prop) (Dt : iref -> Prop) : Prop := {
  k_refl : forall st, R st st;
  k_trans : forall a b c, R a b -> R b c -> R a c;
  k_rec : forall p st, I st -> keeps I R st (snd (rec p st));
  k_compile : forall st r, I st -> Dr r -> keeps I R st (snd (compile_h ds st (r_res r)));
  k_include : forall st t inc, I st -> Dt t -> keeps I R st (snd (fst (include_h wf st t inc)));
  k_patch : forall st t m, I st -> Dt t -> keeps I R st (snd (fst (patch_literal_h wf m st t)));
  k_ub : forall st, I st -> keeps I R st (set_ub st);
  k_erase : forall st p, I st -> keeps I R st (erase_head_dep st p) }.
Unset Implicit Arguments.

Section ResolveWalk.
  Variables (ds : docs) (wf : nat) (rec : str -> state -> bool * state).
  Variables (I : state -> Prop) (R : state -> state -> Prop) (Dr : reference -> Prop) (Dt : iref -> Prop).
  Hypothesis K : resolve_steps ds wf rec I R Dr Dt.
  Let keeps := keeps I R.

  Lemma keeps_refl st : I st -> keeps st st.
  Proof. split; [assumption|apply (k_refl K)]. Qed.
  Lemma keeps_trans a b c : keeps a b -> keeps b c -> keeps a c.
  Proof. intros (_ & r1) (i2 & r2). split; [exact i2|eapply (k_trans K); eauto]. Qed.

  Lemma walk_keys_keeps : forall keys st node np, I st -> keeps st (snd (walk_keys rec keys st node np)).
  Proof.
    induction keys as [|key keys IH]; intros st node np W; cbn [walk_keys].
    - pose proof (k_rec K np st W) as H. now destruct (rec np st).
    - set (st1 := if blocking st np then snd (rec np st) else st).
      assert (K1 : keeps st st1).
      { subst st1. destruct (blocking st np); [now apply (k_rec K)|now apply keeps_refl]. }
      destruct (get_item st1 node) as [a|]; [|exact K1].
      destruct (hget (st_heap st1) a) as [[s|l|m]|]; try exact K1.
      + destruct (is_list_ref key); [|exact K1]. eapply keeps_trans; [exact K1|]. apply IH. apply K1.
      + eapply keeps_trans; [exact K1|]. apply IH. apply K1.
  Qed.

  Lemma resolve_reference_keeps st r : I st -> Dr r -> keeps st (snd (resolve_reference ds rec st r)).
  Proof.
    intros W Hr. unfold resolve_reference, get_resolved_item.
    destruct (alookup (r_res r) (st_res st)) as [rs|].
    - destruct (rs_loaded rs); [now apply walk_keys_keeps|now apply keeps_refl].
    - pose proof (k_compile K st r W Hr) as K1.
      destruct (compile_h ds st (r_res r)) as [[id loaded] st1]. cbn [snd] in *.
      destruct loaded; [|exact K1]. eapply keeps_trans; [exact K1|]. apply walk_keys_keeps. apply K1.
  Qed.

  Lemma resolve_dep_keeps st d : I st -> dep_sat Dr Dt d -> keeps st (snd (resolve_dep ds wf rec st d)).
  Proof.
    intros W Hd. destruct d as [cp|r t|r t|a t]; cbn [resolve_dep dep_sat] in *.
    - now apply (k_rec K).
    - pose proof (resolve_reference_keeps st r W (proj1 Hd)) as K1.
      destruct (resolve_reference ds rec st r) as [inc st1]. cbn [snd] in K1.
      destruct inc as [ia|]; [|exact K1].
      pose proof (k_include K st1 t (Some ia) (proj1 K1) (proj2 Hd)) as K2.
      destruct (include_h wf st1 t (Some ia)) as [[ok st2] t']. eapply keeps_trans; eauto.
    - pose proof (resolve_reference_keeps st r W (proj1 Hd)) as K1.
      destruct (resolve_reference ds rec st r) as [p st1]. cbn [snd] in K1.
      destruct p as [pa|]; [|exact K1].
      destruct (as_map st1 (Some pa)) as [[a' m]|]; [|exact K1].
      pose proof (k_patch K st1 t m (proj1 K1) (proj2 Hd)) as K2.
      destruct (patch_literal_h wf m st1 t) as [[ok st2] t']. eapply keeps_trans; eauto.
    - destruct (as_map st (Some a)) as [[a' m]|]; [|now apply (k_ub K)].
      pose proof (k_patch K st t m W Hd) as K2.
      now destruct (patch_literal_h wf m st t) as [[ok st2] t'].
  Qed.

  Lemma resolve_loop_keeps path : forall l st,
    I st -> Forall (dep_sat Dr Dt) l -> keeps st (snd (resolve_loop ds wf rec l path st)).
  Proof.
    induction l as [|d l IH]; intros st W Hd; cbn [resolve_loop]; [now apply keeps_refl|].
    inversion Hd as [|? ? Hd1 Hdl]; subst.
    pose proof (resolve_dep_keeps st d W Hd1) as K1.
    destruct (resolve_dep ds wf rec st d) as [ok st1]. cbn [snd] in K1.
    destruct ok; [|exact K1].
    pose proof (k_erase K st1 path (proj1 K1)) as K2.
    eapply keeps_trans; [exact K1|]. eapply keeps_trans; [exact K2|]. apply IH; [apply K2|exact Hdl].
  Qed.
End ResolveWalk.
Arguments walk_keys_keeps {ds wf rec I R Dr Dt} K.
Arguments resolve_reference_keeps {ds wf rec I R Dr Dt} K.
Arguments resolve_dep_keeps {ds wf rec I R Dr Dt} K.
Arguments resolve_loop_keeps {ds wf rec I R Dr Dt} K.
