(** C14: the repository's own compiler fixtures (data/test/config_*.yaml,
    starcraft.yaml) as documents, and what the two models make of them.
    Generated once from the YAML files; scalars are kept as written. *)
From Coq Require Import List Arith Bool.
From Coq.Strings Require Import Byte.
From Coq.Strings Require String.
Import String.StringSyntax.
Open Scope string_scope.
From RimeV Require Import Base.Bytes CfgC.Str CfgC.Tree CfgC.Spec CfgC.Impl CfgC.Facts.
Import ListNotations.

Definition y_starcraft : ydoc := Eval vm_compute in
  YMap [(bs "terrans", YMap [(bs "player", YScalar (bs "slayers_boxer"))]);
    (bs "protoss", YMap [(bs "ground_units", YSeq [YScalar (bs "probe"); YScalar (bs "zealot"); YScalar (bs "dragoon"); YScalar (bs "high templar"); YScalar (bs "archon"); YScalar (bs "reaver")]);
    (bs "player", YScalar (bs "grrrr"))]);
    (bs "zerg", YMap [(bs "ground_units", YSeq [YScalar (bs "drone"); YScalar (bs "zergling"); YScalar (bs "hydralisk"); YScalar (bs "ultralisk"); YScalar (bs "defiler")]);
    (bs "player", YScalar (bs "yellow"))])].

Definition y_config_test : ydoc := Eval vm_compute in
  YMap [(bs "terrans", YMap [(bs "tank", YMap [(bs "seiged", YScalar (bs "false"));
    (bs "cost", YMap [(bs "mineral", YScalar (bs "150"));
    (bs "gas", YScalar (bs "100"));
    (bs "time", YScalar (bs "30 seconds"))])]);
    (bs "supply", YMap [(bs "produced", YScalar (bs "0x1c"))]);
    (bs "math", YMap [(bs "pi", YScalar (bs "3.1415926"))])]);
    (bs "protoss", YMap [(bs "battery", YMap [(bs "energy", YScalar (bs "10.111"))]);
    (bs "residence", YScalar (bs "Aiur"));
    (bs "air_force", YSeq [YScalar (bs "scout"); YScalar (bs "cossair"); YScalar (bs "carrier"); YScalar (bs "arbiter")])]);
    (bs "zerg", YMap [(bs "lurker", YMap [(bs "burrowed", YScalar (bs "true"))]);
    (bs "zergling", YMap [(bs "lost", YScalar (bs "1234"))]);
    (bs "queen", YScalar (bs "Kerrigan"))])].

Definition y_config_compiler_test : ydoc := Eval vm_compute in
  YMap [(bs "include_local_reference", YSeq [YMap [(bs "__include", YScalar (bs "starcraft"))]; YMap [(bs "__include", YScalar (bs "/starcraft"))]; YMap [(bs "__include", YScalar (bs ":starcraft"))]; YMap [(bs "__include", YScalar (bs ":/starcraft"))]]);
    (bs "include_external_reference", YMap [(bs "terrans", YMap [(bs "__include", YScalar (bs "config_test:/terrans"))])]);
    (bs "include_external_file", YMap [(bs "__include", YScalar (bs "config_test:/"))]);
    (bs "patch_reference", YMap [(bs "__patch", YScalar (bs "/local/patch"));
    (bs "battlefields", YSeq [YScalar (bs "lost temple"); YScalar (bs "luna"); YScalar (bs "hunters")])]);
    (bs "patch_literal", YMap [(bs "__patch", YMap [(bs "zerg/ground_units/@next", YScalar (bs "lurker"))]);
    (bs "zerg", YMap [(bs "__include", YScalar (bs "/starcraft/zerg"))])]);
    (bs "patch_list", YMap [(bs "protoss", YMap [(bs "__include", YScalar (bs "/starcraft/protoss"))]);
    (bs "__patch", YSeq [YMap [(bs "protoss/ground_units/@next", YScalar (bs "dark templar"))]; YMap [(bs "protoss/ground_units/@next", YScalar (bs "dark archon"))]])]);
    (bs "local", YMap [(bs "patch", YMap [(bs "battlefields/@next", YScalar (bs "match point"))])]);
    (bs "starcraft", YMap [(bs "__include", YScalar (bs "starcraft:/"))])].

Definition y_config_circular_dependency_test : ydoc := Eval vm_compute in
  YMap [(bs "test", YMap [(bs "__patch", YScalar (bs "sometimes?"));
    (bs "home", YScalar (bs "excited"));
    (bs "work", YMap [(bs "__include", YScalar (bs "/test/home"))])]);
    (bs "sometimes", YMap [(bs "home", YScalar (bs "naive"))])].

Definition y_config_merge_test : ydoc := Eval vm_compute in
  YMap [(bs "starcraft", YMap [(bs "__include", YScalar (bs "starcraft:/"))]);
    (bs "append_with_include", YMap [(bs "list", YMap [(bs "__include", YScalar (bs "starcraft/protoss/ground_units"));
    (bs "__append", YSeq [YScalar (bs "dark templar"); YScalar (bs "dark archon")])])]);
    (bs "append_with_patch", YMap [(bs "__include", YScalar (bs "starcraft"));
    (bs "__patch", YMap [(bs "terrans/player/+", YScalar (bs ", nada"));
    (bs "terrans/air_units/+", YSeq [YScalar (bs "wraith"); YScalar (bs "battlecruiser")]);
    (bs "protoss/ground_units/+", YSeq [YScalar (bs "dark templar"); YScalar (bs "dark archon")])])]);
    (bs "merge_tree", YMap [(bs "__include", YScalar (bs "starcraft"));
    (bs "terrans", YMap [(bs "ground_units", YSeq [YScalar (bs "scv"); YScalar (bs "marine"); YScalar (bs "firebat"); YScalar (bs "vulture"); YScalar (bs "tank")]);
    (bs "__patch", YMap [(bs "ground_units/+", YSeq [YScalar (bs "medic"); YScalar (bs "goliath")])])]);
    (bs "protoss", YMap [(bs "ground_units", YMap [(bs "__append", YSeq [YScalar (bs "dark templar"); YScalar (bs "dark archon")])])]);
    (bs "zerg", YMap [(bs "ground_units", YSeq [])])]);
    (bs "create_list_with_inplace_patch", YMap [(bs "all_ground_units", YMap [(bs "__patch", YSeq [YMap [(bs "__append", YSeq [YScalar (bs "scv"); YScalar (bs "marine"); YScalar (bs "firebat"); YScalar (bs "vulture"); YScalar (bs "tank")])]; YMap [(bs "__append", YMap [(bs "__include", YScalar (bs "starcraft/protoss/ground_units"))])]; YMap [(bs "__append", YMap [(bs "__include", YScalar (bs "starcraft/zerg/ground_units"))])]])])])].

Definition y_config_dependency_test : ydoc := Eval vm_compute in
  YMap [(bs "dependency_chaining", YMap [(bs "alpha", YMap [(bs "__include", YScalar (bs "/dependency_chaining/beta"))]);
    (bs "beta", YMap [(bs "__include", YScalar (bs "/dependency_chaining/epsilon"))]);
    (bs "delta", YMap [(bs "__include", YScalar (bs "/dependency_chaining/beta"))]);
    (bs "epsilon", YScalar (bs "success"))]);
    (bs "dependency_priorities", YMap [(bs "terrans", YMap [(bs "__include", YScalar (bs "starcraft:/terrans"));
    (bs "__patch", YMap [(bs "player", YScalar (bs "nada"))])]);
    (bs "protoss", YMap [(bs "__patch", YMap [(bs "player", YScalar (bs "bisu"))]);
    (bs "__include", YScalar (bs "starcraft:/protoss"))])])].

Definition y_config_optional_reference_test : ydoc := Eval vm_compute in
  YMap [(bs "__include", YScalar (bs "nonexistent.yaml:/?"));
    (bs "__patch", YSeq [YScalar (bs "local/nonexistent_patch?"); YScalar (bs "config_test:/nonexistent_patch?"); YScalar (bs "nonexistent:/patch?")]);
    (bs "untouched", YScalar (bs "true"))].

Definition fixture_docs : docs := Eval vm_compute in
  [(bs "starcraft", y_starcraft);
   (bs "config_test", y_config_test);
   (bs "config_compiler_test", y_config_compiler_test);
   (bs "config_circular_dependency_test", y_config_circular_dependency_test);
   (bs "config_merge_test", y_config_merge_test);
   (bs "config_dependency_test", y_config_dependency_test);
   (bs "config_optional_reference_test", y_config_optional_reference_test)].


Definition fx_spec (name : String.string) := spec_link fixture_docs 40 (bs name).
Definition fx_impl (name : String.string) := compile_impl fixture_docs 60 400 (bs name).
Definition at_path (v : item) (p : String.string) : item := item_lookup v (split_path (bs p)).
Definition agree (name : String.string) : bool :=
  let '(loaded, v, fl, linked) := fx_spec name in
  let o := fx_impl name in
  loaded && linked && fl_clear fl && o_linked o && negb (o_oof o || o_woof o || o_ub o) && item_eqb (o_tree o) v.

Example fixtures_agree :
  forallb agree ["config_compiler_test"; "config_merge_test"; "config_dependency_test";
                 "starcraft"; "config_test"] = true.
Proof. vm_compute. reflexivity. Qed.

Lemma agree_tree name : agree name = true -> o_tree (fx_impl name) = compile_spec fixture_docs 40 (bs name).
Proof.
  unfold agree, compile_spec, fx_spec. destruct (spec_link fixture_docs 40 (bs name)) as [[[loaded v] fl] linked].
  intros H. apply andb_true_iff in H. apply item_eqb_eq, H.
Qed.

(** what the unit tests of the repository assert, on both models *)
Example patch_list_appends_in_order :
  let v := o_tree (fx_impl "config_compiler_test") in
  at_path v "patch_list/protoss/ground_units/@6" = Scalar (bs "dark templar") /\
  at_path v "patch_list/protoss/ground_units/@7" = Scalar (bs "dark archon") /\
  (* the included source keeps its six units *)
  at_path v "starcraft/protoss/ground_units/@6" = Null.
Proof.
  (* by [fixtures_agree] the port's tree is the specification's, which is much the cheaper to
     evaluate; the instance is taken with [forallb_forall], because unfolding [forallb] in
     [fixtures_agree] makes the kernel evaluate [agree] once more *)
  rewrite (agree_tree _ (proj1 (forallb_forall _ _) fixtures_agree "config_compiler_test" (or_introl eq_refl))).
  vm_compute. repeat split.
Qed.

Example merge_tree_fixture :
  let v := compile_spec fixture_docs 40 (bs "config_merge_test") in
  at_path v "merge_tree/terrans/ground_units/@6" = Scalar (bs "goliath") /\
  at_path v "append_with_patch/terrans/player" = Scalar (bs "slayers_boxer, nada") /\
  at_path v "starcraft/terrans/player" = Scalar (bs "slayers_boxer") /\
  at_path v "create_list_with_inplace_patch/all_ground_units/@15" = Scalar (bs "defiler").
Proof. vm_compute. repeat split. Qed.

(** the cyclic fixture: the specification classifies it as cyclic, the port
    terminates with the best-effort result the unit test expects *)
Example circular_fixture :
  let '(_, _, fl, _) := fx_spec "config_circular_dependency_test" in
  let o := fx_impl "config_circular_dependency_test" in
  f_cyc fl = true /\ o_linked o = true /\ o_oof o = false /\
  at_path (o_tree o) "test/home" = Scalar (bs "naive") /\
  at_path (o_tree o) "test/work" = Scalar (bs "excited").
Proof. vm_compute. repeat split. Qed.

(** optional references to missing documents / nodes are tolerated; the root
    patch that refers into its own document makes the set cyclic in the
    specification's sense, the port still links it *)
Example optional_reference_fixture :
  let '(_, _, fl, _) := fx_spec "config_optional_reference_test" in
  let o := fx_impl "config_optional_reference_test" in
  f_cyc fl = true /\ f_err fl = false /\ o_linked o = true /\
  o_tree o = Map [(bs "untouched", Scalar (bs "true"))].
Proof. vm_compute. repeat split. Qed.
