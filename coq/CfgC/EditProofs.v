(** C14: algebra of the pure node editor ([write_keys], [edit_node]). *)
From Coq Require Import List Arith Bool Lia.
From Coq.Strings Require Import Byte.
From RimeV Require Import CfgC.Str CfgC.Tree CfgC.Spec CfgC.Facts.
Import ListNotations.

Lemma list_set_at_mid {A} (d : A) l r x i v :
  length l = i -> list_set_at d (l ++ x :: r) i v = l ++ v :: r.
Proof.
  intros <-. unfold list_set_at. rewrite app_length. cbn [length].
  rewrite (proj2 (Nat.ltb_lt _ _)) by lia.
  rewrite firstn_app, firstn_all, Nat.sub_diag. cbn [firstn]. rewrite app_nil_r.
  rewrite skipn_app, skipn_all2 by lia. replace (S (length l) - length l) with 1 by lia. reflexivity.
Qed.

Lemma list_set_at_shape {A} (d : A) l i :
  exists l' r, length l' = i /\ forall v, list_set_at d l i v = l' ++ v :: r.
Proof.
  unfold list_set_at. destruct (i <? length l) eqn:E.
  - apply Nat.ltb_lt in E. exists (firstn i l), (skipn (S i) l). split; [apply firstn_length_le; lia|reflexivity].
  - apply Nat.ltb_ge in E. exists (l ++ repeat d (i - length l)), []. split.
    + rewrite app_length, repeat_length. lia.
    + intros v. now rewrite app_assoc.
Qed.

Lemma nth_list_set_at {A} (d : A) l i v : nth i (list_set_at d l i v) d = v.
Proof. destruct (list_set_at_shape d l i) as (l' & r & <- & E). rewrite E. apply nth_middle. Qed.

Lemma list_set_at_twice {A} (d : A) l i v w :
  list_set_at d (list_set_at d l i v) i w = list_set_at d l i w.
Proof. destruct (list_set_at_shape d l i) as (l' & r & H & E). rewrite !E. now apply list_set_at_mid. Qed.

(** the list-index forms that insert: [@before i] / [@after i-1] on a list
    that is long enough put the value in front of the old element [i] *)
Lemma write_child_insert l k i v :
  is_list_ref k = true -> resolve_index (length l) k = (i, true) -> i <= length l ->
  write_child (Lst l) k v = Lst (firstn i l ++ v :: skipn i l).
Proof.
  intros Hk Hr Hi. unfold write_child. rewrite Hk, Hr.
  unfold list_insert. rewrite (proj2 (Nat.ltb_ge _ _) Hi).
  f_equal. apply list_set_at_mid. now apply firstn_length_le.
Qed.

(** keys that denote the same place whatever the container's size *)
Definition stable_key (k : str) : Prop :=
  is_list_ref k = false \/ (is_list_ref k = true /\ exists i, forall n, resolve_index n k = (i, false)).

Lemma read_write_child k cur v : stable_key k -> read_child (write_child cur k v) k = v.
Proof.
  intros [Hk|[Hk [i Hi]]]; unfold read_child, write_child; rewrite Hk.
  - now rewrite alookup_sset_same.
  - rewrite Hi. cbn [fst]. rewrite Hi. cbn [fst]. unfold list_get. apply nth_list_set_at.
Qed.

Lemma write_write_child k cur v w : stable_key k ->
  write_child (write_child cur k v) k w = write_child cur k w.
Proof.
  intros [Hk|[Hk [i Hi]]]; unfold write_child; rewrite Hk.
  - now rewrite sset_sset_same.
  - rewrite !Hi. f_equal. apply list_set_at_twice.
Qed.

Theorem set_then_get : forall ks top v,
  Forall stable_key ks -> read_keys (write_keys top ks v) ks = v.
Proof.
  induction ks as [|k ks IH]; intros top v H; cbn [read_keys write_keys]; [reflexivity|].
  inversion H; subst. rewrite read_write_child by assumption. now apply IH.
Qed.

Theorem set_then_set : forall ks top v w,
  Forall stable_key ks -> write_keys (write_keys top ks v) ks w = write_keys top ks w.
Proof.
  induction ks as [|k ks IH]; intros top v w H; cbn [write_keys]; [reflexivity|].
  inversion H; subst. rewrite read_write_child by assumption.
  rewrite IH by assumption. now apply write_write_child.
Qed.

(* [__append] names no child: the target is the head itself *)
Lemma append_target value top path (mt : bool) :
  (if mt then type_checked top path (strip_operator s_append (is_appending s_append || is_merging s_append value mt))
   else traverse_cow top path (strip_operator s_append (is_appending s_append || is_merging s_append value mt)))
  = Some path.
Proof. now destruct mt. Qed.

Lemma edit_append_list path top tl vl mt :
  read_keys top path = Lst tl ->
  edit_node (Lst vl) top path s_append mt =
  (match vl with [] => top | _ => write_keys top path (Lst (tl ++ vl)) end, true).
Proof. intros Hr. cbn [edit_node]. now rewrite append_target, Hr. Qed.

Theorem append_assoc path top tl l1 l2 mt :
  Forall stable_key path -> read_keys top path = Lst tl ->
  edit_node (Lst l2) (fst (edit_node (Lst l1) top path s_append mt)) path s_append mt =
  edit_node (Lst (l1 ++ l2)) top path s_append mt.
Proof.
  intros Hs Hr. rewrite (edit_append_list path top tl l1 mt Hr). cbn [fst].
  destruct l1 as [|x l1].
  - cbn [app]. reflexivity.
  - rewrite (edit_append_list path _ (tl ++ x :: l1) l2 mt) by (now apply set_then_get).
    rewrite (edit_append_list path top tl ((x :: l1) ++ l2) mt Hr).
    destruct l2 as [|y l2].
    + now rewrite app_nil_r.
    + rewrite set_then_set by assumption. cbn [app]. now rewrite <- app_assoc.
Qed.

Lemma edit_append_string path top t s mt :
  read_keys top path = Scalar t ->
  edit_node (Scalar s) top path s_append mt = (write_keys top path (Scalar (t ++ s)), true).
Proof. intros Hr. cbn [edit_node]. now rewrite append_target, Hr. Qed.

Theorem append_assoc_string path top t s1 s2 mt :
  Forall stable_key path -> read_keys top path = Scalar t ->
  edit_node (Scalar s2) (fst (edit_node (Scalar s1) top path s_append mt)) path s_append mt =
  edit_node (Scalar (s1 ++ s2)) top path s_append mt.
Proof.
  intros Hs Hr. rewrite (edit_append_string path top t s1 mt Hr). cbn [fst].
  rewrite (edit_append_string path _ (t ++ s1) s2 mt) by (now apply set_then_get).
  rewrite (edit_append_string path top t (s1 ++ s2) mt Hr).
  rewrite set_then_set by assumption. now rewrite <- app_assoc.
Qed.

Definition no_slash (k : str) : Prop := ~ In c_slash k.

Lemma starts_with_second_slash s c1 : starts_with s [c1; c_slash] = true -> In c_slash s.
Proof.
  destruct s as [|a [|b r]]; cbn; try discriminate.
  - now rewrite andb_false_r.
  - intros H. apply andb_true_iff in H. destruct H as [_ H].
    apply andb_true_iff in H. destruct H as [H _]. apply beqb_eq in H. subst. right. now left.
Qed.

Lemma no_slash_ends_with k c1 : no_slash k -> ends_with k [c_slash; c1] = false.
Proof.
  intros H. unfold ends_with. cbn [rev app].
  destruct (starts_with (rev k) [c1; c_slash]) eqn:E; [|reflexivity].
  apply starts_with_second_slash in E. apply in_rev in E. contradiction.
Qed.

Lemma erase_first_none s c1 : ~ In c_slash s -> erase_first s [c1; c_slash] = s.
Proof.
  induction s as [|x s IH]; intros H; cbn [erase_first]; [reflexivity|].
  destruct (starts_with (x :: s) [c1; c_slash]) eqn:E.
  - apply starts_with_second_slash in E. contradiction.
  - f_equal. apply IH. intros Hin. apply H. now right.
Qed.

Lemma no_slash_erase_last k c1 : no_slash k -> erase_last k [c_slash; c1] = k.
Proof.
  intros H. unfold erase_last. cbn [rev app].
  rewrite erase_first_none; [apply rev_involutive|]. intros Hin. apply in_rev in Hin. contradiction.
Qed.

Lemma no_slash_add k : no_slash k -> ends_with k s_add = false.
Proof. exact (no_slash_ends_with k "+"%byte). Qed.
Lemma no_slash_equ k : no_slash k -> ends_with k s_equ = false.
Proof. exact (no_slash_ends_with k "="%byte). Qed.
Lemma no_slash_erase_add k : no_slash k -> erase_last k s_add = k.
Proof. exact (no_slash_erase_last k "+"%byte). Qed.
Lemma no_slash_erase_equ k : no_slash k -> erase_last k s_equ = k.
Proof. exact (no_slash_erase_last k "="%byte). Qed.

Definition plain_key (k : str) : Prop :=
  k <> [] /\ is_list_ref k = false /\ no_slash k /\ k <> s_append /\ k <> s_merge.

Lemma edit_plain_entry k v m :
  plain_key k -> is_null v = false -> is_map v = false ->
  edit_node v (Map m) [] k true = (Map (sset k v m), true).
Proof.
  intros (Hne & Hl & Hs & Ha & Hm) Hn Hmap.
  assert (A : is_appending k = false).
  { unfold is_appending. rewrite (str_eqb_false_ne _ _ Ha). now rewrite (no_slash_add k Hs). }
  assert (Mg : is_merging k v true = false).
  { unfold is_merging. rewrite (str_eqb_false_ne _ _ Hm), (no_slash_add k Hs), Hn, Hmap. reflexivity. }
  assert (P : strip_operator k false = k).
  { unfold strip_operator. rewrite (str_eqb_false_ne _ _ Ha), (str_eqb_false_ne _ _ Hm). cbn [orb].
    now apply (no_slash_erase_equ k). }
  destruct v as [|s|l|vm]; try discriminate; cbn [edit_node]; rewrite A, Mg; cbn [orb]; rewrite P;
    unfold type_checked; destruct k as [|c k]; try congruence; cbn [read_keys];
    rewrite Hl; cbn [negb andb app read_keys write_keys];
    unfold write_child; rewrite Hl; reflexivity.
Qed.

Definition plain_entries (vm : list (str * item)) : Prop :=
  Forall (fun e => plain_key (fst e) /\ is_null (snd e) = false /\ is_map (snd e) = false) vm.

Lemma merge_plain vm : forall m,
  plain_entries vm ->
  merge_tree vm (Map m) [] = (Map (fold_left (fun acc e => sset (fst e) (snd e) acc) vm m), true).
Proof.
  unfold merge_tree. induction vm as [|[k v] vm IH]; intros m H; cbn [merge_loop fold_left]; [reflexivity|].
  inversion H as [|? ? Hh Hr]; subst. destruct Hh as (Hk & Hn & Hm). cbn [fst snd] in *.
  rewrite (edit_plain_entry k v m Hk Hn Hm). now apply IH.
Qed.

Lemma alookup_fold_sset (vm : list (str * item)) : forall m k0,
  alookup k0 (fold_left (fun acc e => sset (fst e) (snd e) acc) vm m) =
  match alookup_last k0 vm with Some v => Some v | None => alookup k0 m end.
Proof.
  induction vm as [|[k v] vm IH]; intros m k0; cbn [fold_left alookup_last]; [reflexivity|].
  rewrite IH. cbn [fst snd].
  destruct (alookup_last k0 vm); [reflexivity|].
  destruct (str_eqb k0 k) eqn:E.
  - apply str_eqb_eq in E. subst. apply alookup_sset_same.
  - apply alookup_sset_other. intros ->. now rewrite str_eqb_refl in E.
Qed.

(** merging the same plain entries a second time changes no binding *)
Theorem merge_idem vm m :
  plain_entries vm ->
  exists m1 m2,
    merge_tree vm (Map m) [] = (Map m1, true) /\
    merge_tree vm (Map m1) [] = (Map m2, true) /\
    forall k, alookup k m2 = alookup k m1.
Proof.
  intros H. eexists. eexists.
  split; [apply (merge_plain vm m H)|]. split; [apply (merge_plain vm _ H)|].
  intros k. rewrite !alookup_fold_sset. destruct (alookup_last k vm); reflexivity.
Qed.
