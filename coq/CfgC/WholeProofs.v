(** C14: no write through sharing for the whole of ResolveDependencies.
    During the resolution of any dependencies (nested compilations of
    referenced documents included), a node that existed before changes only
    if it is the container of the target slot of a dependency that was
    pending at the start ([resolve_writes_only_pending_targets]).  Hence a
    tree that contains no such container – a fully compiled document, an
    included source – reads back unchanged ([sources_untouched_by_resolve],
    [sources_untouched]). *)
From Coq Require Import List Arith Bool Lia.
From RimeV Require Import CfgC.Str CfgC.Tree CfgC.Impl CfgC.ImplFacts
  CfgC.GraphProofs CfgC.TermProofs CfgC.ShareProofs.
Import ListNotations.

Definition dep_target (d : dep) : option iref :=
  match d with
  | DInclude _ t | DPatchRef _ t | DPatchLit _ t => Some t
  | DPending _ => None
  end.

Definition is_base (r : iref) : Prop := match r with RCow _ _ _ _ => False | _ => True end.

(* the container (if any) a dependency writes in place *)
Definition dep_base (d : dep) : option nat :=
  match dep_target d with Some t => base_addr t | None => None end.

Lemma is_base_owned L t : is_base t -> owned L t.
Proof. destruct t; cbn; auto. intros []. Qed.

Section Whole.
  Variable L0 : nat.                 (* heap size at the start *)
  Variable B0 : nat -> Prop.         (* containers of the target slots pending at the start *)

  (** the targets of the dependencies in the graph: slots whose container is
      one of [B0] or was allocated after the start *)
  Definition slot_ok (t : iref) : Prop :=
    is_base t /\ match base_addr t with Some a => B0 a \/ L0 <= a | None => True end.

  Definition winv (st : state) : Prop :=
    L0 <= length (st_heap st) /\ graph_sat (fun _ => True) (fun _ => True) slot_ok st.

  Definition wframe (st st' : state) : Prop :=
    length (st_heap st) <= length (st_heap st') /\
    forall a, a < L0 -> ~ B0 a -> hget (st_heap st') a = hget (st_heap st) a.

  Lemma wframe_refl st : wframe st st. Proof. split; auto. Qed.
  Lemma wframe_trans a b c : wframe a b -> wframe b c -> wframe a c.
  Proof.
    intros (l1 & f1) (l2 & f2). split; [lia|]. intros x Hx Hb. rewrite f2 by assumption. now apply f1.
  Qed.

  Lemma wkeeps_heap_eq st st' :
    winv st -> st_heap st' = st_heap st -> graph_sat (fun _ => True) (fun _ => True) slot_ok st' ->
    keeps winv wframe st st'.
  Proof. intros (HL & _) E G. unfold keeps, winv, wframe. rewrite E. auto. Qed.

  Lemma wkeeps_edit st t st' t' :
    winv st -> slot_ok t -> edit_step (length (st_heap st)) st t st' t' -> sg st st' ->
    keeps winv wframe st st'.
  Proof.
    intros (HL & Hd) (Hb & Ha) E (Sd & _).
    destruct (E (Nat.le_refl _) (is_base_owned _ t Hb)) as ((l & f & _) & _). split.
    - split; [lia|]. now apply (graph_sat_deps_eq _ _ _ st).
    - split; [exact l|]. intros a Hx Hn. apply f; [lia|].
      intros E'. rewrite <- E' in Ha. destruct Ha as [Ha|Ha]; [contradiction|lia].
  Qed.

  Lemma heap_add_dep_at st path d : st_heap (add_dep_at st path d) = st_heap st.
  Proof. reflexivity. Qed.

  (** Compile: new dependencies target the root slot or containers allocated by the parse *)
  Lemma compile_h_w ds st file : winv st -> keeps winv wframe st (snd (compile_h ds st file)).
  Proof.
    intros (HL & G).
    destruct (compile_h_sat _ _ _ ds st file G) as (G' & l & h & _); try (cbn; tauto).
    - now split.
    - intros a Ha. split; intros; (split; [exact I|right; lia]).
    - intros y _. split; [apply Forall_forall|]; trivial.
    - split; [split; [lia|exact G']|]. split; [exact l|]. intros a Ha _. apply h. lia.
  Qed.

  Section WithRec.
    Variable ds : docs.
    Variable wf : nat.
    Variable rec : str -> state -> bool * state.
    Hypothesis Hrec : forall p st, winv st -> keeps winv wframe st (snd (rec p st)).

    Lemma whole_steps : resolve_steps ds wf rec winv wframe (fun _ => True) slot_ok.
    Proof.
      split.
      - apply wframe_refl.
      - apply wframe_trans.
      - exact Hrec.
      - intros st r W _. now apply compile_h_w.
      - intros st t inc W Ht. apply (wkeeps_edit st t _ (snd (include_h wf st t inc)) W Ht); [|apply sg_include_h].
        apply (walk_include_h (edit_step_closed _)).
      - intros st t m W Ht. apply (wkeeps_edit st t _ (snd (patch_literal_h wf m st t)) W Ht); [|apply sg_patch_literal_h].
        apply (walk_patch_literal_h (edit_step_closed _)).
      - intros st W. apply wkeeps_heap_eq; [exact W|reflexivity|apply W].
      - intros st p W. apply wkeeps_heap_eq; [exact W|apply erase_head_dep_only|apply erase_head_dep_sat, W].
    Qed.
  End WithRec.

  Lemma resolve_deps_body_w ds wf rec path st :
    (forall p s, winv s -> keeps winv wframe s (snd (rec p s))) -> winv st ->
    keeps winv wframe st (snd (resolve_deps_body ds wf rec path st)).
  Proof.
    intros Hrec W. unfold resolve_deps_body.
    destruct (deps_at st path) as [l|] eqn:E; [|split; [exact W|apply wframe_refl]].
    destruct (has_circular st path); [split; [exact W|apply wframe_refl]|].
    (* the chain is not part of the invariant *)
    pose proof (resolve_loop_keeps (whole_steps ds wf rec Hrec) path l
                  (with_chain st (st_chain st ++ [path])) W (proj2 (graph_sat_at _ _ _ st path l (proj2 W) E))) as K.
    destruct (resolve_loop ds wf rec l path _) as [ok st2]. now destruct ok.
  Qed.

  Theorem resolve_deps_w ds wf : forall fuel path st,
    winv st -> keeps winv wframe st (snd (resolve_deps ds wf fuel path st)).
  Proof.
    induction fuel as [|f IH]; intros path st W; cbn [resolve_deps].
    - apply wkeeps_heap_eq; [exact W|reflexivity|apply W].
    - apply resolve_deps_body_w; [intros p s Ws; now apply IH|exact W].
  Qed.
End Whole.

Definition pending_base (st : state) (a : nat) : Prop :=
  exists p l d, In (p, l) (st_deps st) /\ In d l /\ dep_base d = Some a.

Definition targets_are_slots (st : state) : Prop :=
  forall p l d t, In (p, l) (st_deps st) -> In d l -> dep_target d = Some t -> is_base t.

Lemma winv_intro L0 (B0 : nat -> Prop) st :
  targets_are_slots st -> L0 <= length (st_heap st) -> (forall a, pending_base st a -> B0 a) ->
  winv L0 B0 st.
Proof.
  intros Ht HL HB. split; [exact HL|]. intros p l Hin. split; [exact I|].
  apply Forall_forall. intros d Hd.
  assert (S : forall t, dep_target d = Some t -> slot_ok L0 B0 t).
  { intros t E. split; [eapply Ht; eauto|]. destruct (base_addr t) as [b|] eqn:Eb; [|exact I].
    left. apply HB. exists p, l, d. unfold dep_base. now rewrite E. }
  destruct d; cbn; auto.
Qed.

Lemma winv_slots L0 B0 st : winv L0 B0 st -> targets_are_slots st.
Proof.
  intros (_ & G) p l d t Hin Hd E. destruct (G p l Hin) as [_ F]. rewrite Forall_forall in F.
  specialize (F d Hd). destruct d; cbn in *; try discriminate; injection E as <-; apply F.
Qed.

Theorem resolve_writes_only_pending_targets ds wf fuel path st :
  targets_are_slots st ->
  forall a, a < length (st_heap st) -> ~ pending_base st a ->
  hget (st_heap (snd (resolve_deps ds wf fuel path st))) a = hget (st_heap st) a.
Proof.
  intros Ht.
  apply (resolve_deps_w (length (st_heap st)) (pending_base st) ds wf fuel path st).
  apply winv_intro; auto.
Qed.

(* the traversal [readback wf h q] visits no address of [bad] and no dangling pointer *)
Fixpoint avoids_all (wf : nat) (h : heap) (bad : nat -> bool) (q : ptr) : bool :=
  match wf with
  | 0 => true
  | S wf' =>
    match q with
    | None => true
    | Some a =>
        negb (bad a) &&
        match hget h a with
        | Some (HList l) => av_list (avoids_all wf' h bad) l
        | Some (HMap m) => av_map (avoids_all wf' h bad) m
        | Some (HScalar _) => true
        | None => false
        end
    end
  end.

Lemma readback_agree_all wf : forall h h' bad q,
  (forall a, a < length h -> bad a = false -> hget h' a = hget h a) ->
  avoids_all wf h bad q = true ->
  readback wf h' q = readback wf h q.
Proof.
  induction wf as [|wf IH]; intros h h' bad q Hag Hav; [reflexivity|].
  cbn [readback avoids_all] in *. destruct q as [a|]; [|reflexivity].
  apply andb_true_iff in Hav. destruct Hav as [Hne Hav]. apply negb_true_iff in Hne.
  destruct (hget h a) as [n|] eqn:E; [|discriminate].
  rewrite (Hag a (hget_Some_lt _ _ _ E) Hne), E.
  destruct n as [s|l|m]; [reflexivity| |].
  - rewrite (rb_list_ext _ (readback wf h) l); [reflexivity|].
    intros x Hx. apply (IH h h' bad x Hag). now apply (av_list_In _ l).
  - rewrite (rb_map_ext _ (readback wf h) m); [reflexivity|].
    intros e He. apply (IH h h' bad (snd e) Hag). now apply (av_map_In _ m).
Qed.

Theorem sources_untouched_by_resolve ds wf fuel path st (bad : nat -> bool) wf' q :
  targets_are_slots st ->
  (forall a, pending_base st a -> bad a = true) ->
  avoids_all wf' (st_heap st) bad q = true ->
  readback wf' (st_heap (snd (resolve_deps ds wf fuel path st))) q = readback wf' (st_heap st) q.
Proof.
  intros Ht Hb Hav. apply (readback_agree_all wf' _ _ bad q); [|exact Hav].
  intros a Ha Hbad. apply resolve_writes_only_pending_targets; auto.
  intros Hp. apply Hb in Hp. congruence.
Qed.

(** computable form: the containers of the pending target slots *)
Definition pending_bases (st : state) : list nat :=
  flat_map (fun e => flat_map (fun d => match dep_base d with Some a => [a] | None => [] end) (snd e))
           (st_deps st).
Definition is_pending_base (st : state) (a : nat) : bool := existsb (Nat.eqb a) (pending_bases st).

Lemma pending_base_in st a : pending_base st a -> is_pending_base st a = true.
Proof.
  intros (p & l & d & Hin & Hd & Hb). unfold is_pending_base. apply existsb_exists. exists a.
  split; [|apply Nat.eqb_refl]. unfold pending_bases. apply in_flat_map. exists (p, l). split; [exact Hin|].
  cbn [snd]. apply in_flat_map. exists d. split; [exact Hd|]. rewrite Hb. now left.
Qed.

Theorem sources_untouched ds wf fuel path st wf' q :
  targets_are_slots st ->
  avoids_all wf' (st_heap st) (is_pending_base st) q = true ->
  readback wf' (st_heap (snd (resolve_deps ds wf fuel path st))) q = readback wf' (st_heap st) q.
Proof.
  intros Ht Hav. apply (sources_untouched_by_resolve ds wf fuel path st (is_pending_base st)); auto.
  intros a. apply pending_base_in.
Qed.

(** the states the compiler reaches have slots as dependency targets *)
Lemma compile_targets_are_slots ds st file :
  targets_are_slots st -> targets_are_slots (snd (compile_h ds st file)).
Proof.
  intros Ht. apply (winv_slots 0 (fun _ => True)), compile_h_w, winv_intro; auto. lia.
Qed.

Lemma resolve_targets_are_slots ds wf fuel path st :
  targets_are_slots st -> targets_are_slots (snd (resolve_deps ds wf fuel path st)).
Proof.
  intros Ht. apply (winv_slots 0 (fun _ => True)), resolve_deps_w, winv_intro; auto. lia.
Qed.

Lemma st0_targets_are_slots : targets_are_slots st0.
Proof. intros p l d t []. Qed.
