(** C14: basic facts about the heap model.  The memory operations
    (references, the node editor, patches, includes) are sequences of a few
    primitive steps; a relation between the state and reference before and
    after that is kept by each primitive step is kept by all of them
    ([Section EditWalk]).  First instance: they never touch the dependency
    graph, the resolve chain or the out-of-fuel flag ([sg]). *)
From Coq Require Import List Arith Lia.
From RimeV Require Import CfgC.Str CfgC.Tree CfgC.Impl CfgC.Facts.
Import ListNotations.

Lemma hset_length h : forall a n, length (hset h a n) = length h.
Proof. induction h as [|x h IH]; intros [|a] n; cbn; auto. Qed.

Lemma hget_hset_same h : forall a n, a < length h -> hget (hset h a n) a = Some n.
Proof.
  unfold hget. induction h as [|x h IH]; intros [|a] n H; cbn in *; try lia; [reflexivity|].
  apply IH. lia.
Qed.
Lemma hget_hset_other h : forall a b n, a <> b -> hget (hset h a n) b = hget h b.
Proof.
  unfold hget. induction h as [|x h IH]; intros [|a] [|b] n H; cbn; try reflexivity; try congruence.
  apply IH. congruence.
Qed.
Lemma hget_Some_lt h a n : hget h a = Some n -> a < length h.
Proof. unfold hget. intros H. apply nth_error_Some. congruence. Qed.
Lemma hget_app_old h n a : a < length h -> hget (h ++ [n]) a = hget h a.
Proof. unfold hget. intros H. now rewrite nth_error_app1. Qed.
Lemma hget_app_new h n : hget (h ++ [n]) (length h) = Some n.
Proof. unfold hget. rewrite nth_error_app2 by lia. now rewrite Nat.sub_diag. Qed.

Lemma alloc_length st n : length (st_heap (snd (alloc st n))) = S (length (st_heap st)).
Proof. cbn. rewrite app_length. cbn. lia. Qed.

(** what a write into the container at [a] leaves alone; [st'] is
    [cow_write st _ a _ _], [heap_map_set st a _ _] or [heap_list_append st a _] *)
Definition writes_at (a : nat) (st st' : state) : Prop :=
  length (st_heap st') = length (st_heap st) /\ st_res st' = st_res st /\
  forall x, x <> a -> hget (st_heap st') x = hget (st_heap st) x.

Lemma writes_at_hset st a n : writes_at a st (with_heap st (hset (st_heap st) a n)).
Proof.
  split; [apply hset_length|]. split; [reflexivity|]. intros x Hx. apply hget_hset_other. congruence.
Qed.
Lemma writes_at_ub st a : writes_at a st (set_ub st).
Proof. now repeat split. Qed.

Lemma cow_write_at st isl a k v : writes_at a st (cow_write st isl a k v).
Proof.
  unfold cow_write. destruct (hget (st_heap st) a) as [[s|l|m]|];
    [apply writes_at_ub| |apply writes_at_hset|apply writes_at_ub].
  destruct (resolve_index (length l) k) as [i ins]. apply writes_at_hset.
Qed.
Lemma heap_map_set_at st a k v : writes_at a st (heap_map_set st a k v).
Proof.
  unfold heap_map_set. destruct (hget (st_heap st) a) as [[s|l|m]|];
    first [apply writes_at_hset | apply writes_at_ub].
Qed.
Lemma heap_list_append_at st a v : writes_at a st (heap_list_append st a v).
Proof.
  unfold heap_list_append. destruct (hget (st_heap st) a) as [[s|l|m]|];
    first [apply writes_at_hset | apply writes_at_ub].
Qed.

Lemma set_root_other st id p id' : id' <> id -> res_root (set_root st id p) id' = res_root st id'.
Proof.
  intros Hne. unfold set_root, res_root. destruct (alookup id (st_res st)); [|reflexivity].
  cbn. now rewrite alookup_aset_other.
Qed.

Definition sg (st st' : state) : Prop :=
  st_deps st' = st_deps st /\ st_chain st' = st_chain st /\ st_oof st' = st_oof st.

Lemma sg_refl st : sg st st. Proof. now repeat split. Qed.
Lemma sg_trans a b c : sg a b -> sg b c -> sg a c.
Proof. unfold sg. intros (?&?&?) (?&?&?). repeat split; congruence. Qed.

Lemma sg_with_heap st h : sg st (with_heap st h). Proof. now repeat split. Qed.
Lemma sg_with_res st r : sg st (with_res st r). Proof. now repeat split. Qed.
Lemma sg_set_woof st : sg st (set_woof st). Proof. now repeat split. Qed.
Lemma sg_set_ub st : sg st (set_ub st). Proof. now repeat split. Qed.
Lemma sg_alloc st n : sg st (snd (alloc st n)). Proof. now repeat split. Qed.
Lemma sg_set_root st id p : sg st (set_root st id p).
Proof. unfold set_root. destruct (alookup id (st_res st)); [apply sg_with_res|apply sg_refl]. Qed.

Lemma sg_cow_write st b a k v : sg st (cow_write st b a k v).
Proof.
  unfold cow_write. destruct (hget (st_heap st) a) as [[s|l|m]|];
    [apply sg_set_ub| |apply sg_with_heap|apply sg_set_ub].
  destruct (resolve_index (length l) k) as [i ins]. apply sg_with_heap.
Qed.
Lemma sg_heap_map_set st a k v : sg st (heap_map_set st a k v).
Proof.
  unfold heap_map_set. destruct (hget (st_heap st) a) as [[s|l|m]|];
    first [apply sg_with_heap | apply sg_set_ub].
Qed.
Lemma sg_heap_list_append st a v : sg st (heap_list_append st a v).
Proof.
  unfold heap_list_append. destruct (hget (st_heap st) a) as [[s|l|m]|];
    first [apply sg_with_heap | apply sg_set_ub].
Qed.

Lemma sg_set_item r : forall st v, sg st (fst (set_item st r v)).
Proof.
  induction r as [id|a k|a i|isl p IH k copied]; intros st v; cbn [set_item fst].
  - apply sg_set_root.
  - destruct (hget (st_heap st) a) as [[s|l|m]|]; first [apply sg_with_heap | apply sg_set_ub].
  - destruct (hget (st_heap st) a) as [[s|l|m]|]; first [apply sg_with_heap | apply sg_set_ub].
  - destruct copied as [ca|]; [cbn [fst]; apply sg_cow_write|].
    match goal with |- context[alloc st ?n] => pose proof (sg_alloc st n) as Ha; destruct (alloc st n) as [a' st1] end.
    specialize (IH st1 (Some a')).
    destruct (set_item st1 p (Some a')) as [st2 p']. cbn [fst snd] in *.
    eapply sg_trans; [|apply sg_cow_write]. eapply sg_trans; eassumption.
Qed.

(** [Q st r st' r']: the state [st] and reference [r] may become [st'] and
    [r'].  The primitive steps: nothing, two in a row, setting a flag,
    allocating, writing through the reference, going down to a child
    reference and back up to the head. *)
Set Implicit Arguments.
Record edit_closed (Q : state -> iref -> state -> iref -> Prop) : Prop := {
  q_refl : forall st r, Q st r st r;
  q_trans : forall s1 r1 s2 r2 s3 r3, Q s1 r1 s2 r2 -> Q s2 r2 s3 r3 -> Q s1 r1 s3 r3;
  q_woof : forall st r, Q st r (set_woof st) r;
  q_ub : forall st r, Q st r (set_ub st) r;
  q_alloc : forall st r n, Q st r (snd (alloc st n)) r;
  q_set : forall st r v, Q st r (fst (set_item st r v)) (snd (set_item st r v));
  q_cow : forall st r k, Q st r st (cow r k);
  q_strip : forall st r n, Q st r st (strip_cows n r) }.
Unset Implicit Arguments.

Section EditWalk.
  Variable Q : state -> iref -> state -> iref -> Prop.
  Hypothesis HQ : edit_closed Q.
  Let Q_refl := q_refl HQ.
  Let Q_trans := q_trans HQ.
  Let Q_woof := q_woof HQ.
  Let Q_ub := q_ub HQ.
  Let Q_alloc := q_alloc HQ.
  Let Q_set := q_set HQ.
  Let Q_cow := q_cow HQ.
  Let Q_strip := q_strip HQ.

  Definition walks (st : state) (r : iref) (res : bool * state * iref) : Prop :=
    Q st r (snd (fst res)) (snd res).

  Lemma walk_type_checked st head k t : type_checked_h st head k = Some t -> Q st head st t.
  Proof.
    unfold type_checked_h. destruct k as [|c k]; [intros [= <-]; apply Q_refl|].
    destruct (deref st (get_item st head)) as [n|]; [|intros [= <-]; apply Q_cow].
    destruct (if is_list_ref (c :: k) then _ else _); [intros [= <-]; apply Q_cow|discriminate].
  Qed.
  Lemma walk_type_checked_all st ks : forall head t, type_checked_all_h st head ks = Some t -> Q st head st t.
  Proof.
    induction ks as [|k ks IH]; intros head t H; cbn in H; [injection H as <-; apply Q_refl|].
    destruct (type_checked_h st head k) as [c|] eqn:E; [|discriminate].
    eapply Q_trans; [eapply walk_type_checked; exact E|now apply IH].
  Qed.
  Lemma walk_traverse_cow st head p t : traverse_cow_h st head p = Some t -> Q st head st t.
  Proof.
    unfold traverse_cow_h.
    destruct (match p with [] => true | _ => str_eqb p s_slash end); [intros [= <-]; apply Q_refl|].
    apply walk_type_checked_all.
  Qed.

  Lemma walk_merge_loop ed :
    (forall st t k v, walks st t (ed st t k v)) ->
    forall m st t, walks st t (merge_loop_h ed m st t).
  Proof.
    intros Hed. induction m as [|[k v] m IH]; intros st t; cbn [merge_loop_h]; [apply Q_refl|].
    specialize (Hed st t k v). destruct (ed st t k v) as [[ok st1] t1].
    destruct ok; [|exact Hed]. eapply Q_trans; [exact Hed|apply IH].
  Qed.

  Theorem walk_edit_node_h wf : forall st head key value mt,
    walks st head (edit_node_h wf st head key value mt).
  Proof.
    induction wf as [|wf IH]; intros st head key value mt; [apply Q_woof|].
    cbn [edit_node_h].
    set (target_opt := if mt then _ else _).
    set (depth := if mt then _ else _).
    assert (Ht : forall t, target_opt = Some t -> Q st head st t).
    { intros t E. subst target_opt. destruct mt; [eapply walk_type_checked|eapply walk_traverse_cow]; eauto. }
    destruct target_opt as [target|]; [|apply Q_refl].
    specialize (Ht target eq_refl).
    (* the two ways of storing: write [value] through the target, or a newly allocated node *)
    assert (W0 : forall v, walks st head
                  (let '(st1, target') := set_item st target v in (true, st1, strip_cows depth target'))).
    { intros v. pose proof (Q_set st target v) as K. destruct (set_item st target v) as [st1 t'].
      eapply Q_trans; [exact Ht|]. eapply Q_trans; [exact K|apply Q_strip]. }
    assert (W : forall n, walks st head
                  (let '(a', st1) := alloc st n in
                   let '(st2, target') := set_item st1 target (Some a') in
                   (true, st2, strip_cows depth target'))).
    { intros n. pose proof (Q_alloc st target n) as Ka. destruct (alloc st n) as [a' st1].
      pose proof (Q_set st1 target (Some a')) as K. destruct (set_item st1 target (Some a')) as [st2 t'].
      eapply Q_trans; [exact Ht|]. eapply Q_trans; [exact Ka|]. eapply Q_trans; [exact K|apply Q_strip]. }
    destruct (get_item st target) as [ta|]; [|apply W0].
    match goal with |- context[if ?c then _ else _] => destruct c end; [|apply W0].
    destruct value as [va|]; [|apply Q_refl].
    destruct (hget (st_heap st) va) as [[s|vl|vm]|]; [| | |apply Q_ub].
    - destruct (is_appending key); [|apply Q_refl].
      destruct (hget (st_heap st) ta) as [[t|tl|tm]|]; try apply Q_refl. apply W.
    - destruct (is_appending key); [|apply Q_refl].
      destruct (hget (st_heap st) ta) as [[t|tl|tm]|]; [| | |apply Q_ub].
      + destruct (node_empty (HScalar t)); [apply W|apply Q_refl].
      + destruct vl as [|x vl]; [apply Q_refl|apply W].
      + destruct (node_empty (HMap tm)); [apply W|apply Q_refl].
    - match goal with |- context[if ?c then _ else _] => destruct c end; [|apply Q_refl].
      pose proof (walk_merge_loop (fun s t k v => edit_node_h wf s t k v true)
                    (fun s t k v => IH s t k v true) vm st target) as K.
      destruct (merge_loop_h _ vm st target) as [[ok st'] t'].
      eapply Q_trans; [exact Ht|]. eapply Q_trans; [exact K|apply Q_strip].
  Qed.

  Lemma walk_merge_tree_h wf m st tgt : walks st tgt (merge_tree_h wf m st tgt).
  Proof. apply walk_merge_loop. intros. apply walk_edit_node_h. Qed.

  Lemma walk_patch_literal_h wf m : forall st tgt, walks st tgt (patch_literal_h wf m st tgt).
  Proof.
    induction m as [|[k v] m IH]; intros st tgt; cbn [patch_literal_h]; [apply Q_refl|].
    pose proof (walk_edit_node_h wf st tgt k v false) as K.
    destruct (edit_node_h wf st tgt k v false) as [[ok st1] tgt1].
    specialize (IH st1 tgt1). destruct (patch_literal_h wf m st1 tgt1) as [[ok' st2] tgt2].
    eapply Q_trans; eassumption.
  Qed.

  Lemma walk_include_h wf st target inc : walks st target (include_h wf st target inc).
  Proof.
    unfold include_h. pose proof (Q_set st target inc) as K.
    destruct (set_item st target inc) as [st1 t1].
    destruct (as_map st (get_item st target)) as [[a [|e m]]|]; try exact K.
    eapply Q_trans; [exact K|apply walk_merge_tree_h].
  Qed.
End EditWalk.
Arguments walk_edit_node_h {Q} HQ.
Arguments walk_merge_tree_h {Q} HQ.
Arguments walk_patch_literal_h {Q} HQ.
Arguments walk_include_h {Q} HQ.

Lemma sg_closed : edit_closed (fun st _ st' _ => sg st st').
Proof.
  split; eauto using sg_refl, sg_trans, sg_set_woof, sg_set_ub, sg_alloc, sg_set_item.
Qed.

Lemma sg_edit_node_h wf st head key value mt : sg st (snd (fst (edit_node_h wf st head key value mt))).
Proof. apply (walk_edit_node_h sg_closed). Qed.
Lemma sg_patch_literal_h wf m st tgt : sg st (snd (fst (patch_literal_h wf m st tgt))).
Proof. apply (walk_patch_literal_h sg_closed). Qed.
Lemma sg_include_h wf st target inc : sg st (snd (fst (include_h wf st target inc))).
Proof. apply (walk_include_h sg_closed). Qed.

Lemma rb_list_ext f g l : (forall x, In x l -> f x = g x) -> rb_list f l = rb_list g l.
Proof.
  induction l as [|x l IH]; intros H; cbn [rb_list]; [reflexivity|].
  rewrite (H x (or_introl eq_refl)), IH; [reflexivity|]. intros y Hy. apply H. now right.
Qed.
Lemma rb_map_ext f g m : (forall e, In e m -> f (snd e) = g (snd e)) -> rb_map f m = rb_map g m.
Proof.
  induction m as [|[k x] m IH]; intros H; cbn [rb_map]; [reflexivity|].
  rewrite (H (k, x) (or_introl eq_refl) : f x = g x), IH; [reflexivity|]. intros y Hy. apply H. now right.
Qed.
