(** C14: ResolveDependencies terminates on every document set, cyclic ones
    included.  The resolve chain is duplicate-free and only holds paths that
    carry dependencies; these all belong to a finite, statically known list
    [AP] of paths, so the nesting of ResolveDependencies is bounded by
    [length AP].

    The walk through ConvertFromYaml and Compile is done once, for any claim
    about the paths, references and targets of the graph ([graph_sat]); the
    claim used here is "the path is in [AP], the referenced resource in [U]". *)
From Coq Require Import List Arith Bool Lia.
From RimeV Require Import Base.ListX CfgC.Str CfgC.Tree CfgC.Spec CfgC.Impl CfgC.Facts CfgC.ImplFacts
  CfgC.GraphProofs.
Import ListNotations.

Section NodePaths.
  Variable np : ydoc -> list str -> list str.
  Fixpoint seq_paths (l : list ydoc) (i : nat) (ks : list str) : list str :=
    match l with
    | [] => []
    | c :: r => np c (idx_key i :: ks) ++ seq_paths r (S i) ks
    end.
  Fixpoint map_paths (m : list (str * ydoc)) (ks : list str) : list str :=
    match m with
    | [] => []
    | (k, c) :: r => np c (k :: ks) ++ map_paths r ks
    end.
End NodePaths.

(* the path of every node of [y], when [y] sits under the key stack [ks] (innermost first) *)
Fixpoint node_paths (y : ydoc) (ks : list str) : list str :=
  join_path (rev ks) ::
  match y with
  | YSeq l => seq_paths (fun c => node_paths c) l 0 ks
  | YMap m => map_paths (fun c => node_paths c) m ks
  | _ => []
  end.

Section Scalars.
  Variable sc : ydoc -> list str.
  Fixpoint seq_scalars (l : list ydoc) : list str :=
    match l with [] => [] | c :: r => sc c ++ seq_scalars r end.
  Fixpoint map_scalars (m : list (str * ydoc)) : list str :=
    match m with [] => [] | (_, c) :: r => sc c ++ map_scalars r end.
End Scalars.
Fixpoint scalars (y : ydoc) : list str :=
  match y with
  | YNull => []
  | YScalar s => [s]
  | YSeq l => seq_scalars (fun c => scalars c) l
  | YMap m => map_scalars (fun c => scalars c) m
  end.

Definition root_key (id : str) : str := id ++ [c_colon].
Definition cur_of (id : str) : str := trim_right c_colon (root_key id).

Definition conv_mem (L : nat) (st st' : state) : Prop :=
  length (st_heap st) <= length (st_heap st') /\
  (forall x, x < L -> hget (st_heap st') x = hget (st_heap st) x) /\
  st_chain st' = st_chain st /\ st_oof st' = st_oof st.

Lemma conv_mem_refl L st : conv_mem L st st.
Proof. now repeat split. Qed.
Lemma conv_mem_trans L s1 s2 s3 : conv_mem L s1 s2 -> conv_mem L s2 s3 -> conv_mem L s1 s3.
Proof.
  intros (l1 & h1 & c1 & o1) (l2 & h2 & c2 & o2). split; [lia|]. split; [|split; congruence].
  intros x Hx. rewrite h2 by exact Hx. now apply h1.
Qed.
Lemma conv_mem_graph_only L st st' : graph_only st st' -> conv_mem L st st'.
Proof. intros (h & _ & c & o). unfold conv_mem. rewrite h. auto. Qed.

Lemma node_paths_head y ks : In (join_path (rev ks)) (node_paths y ks).
Proof. destruct y; cbn; now left. Qed.

Section GraphClaims.
  Variables (Q : str -> Prop) (Pr : reference -> Prop) (Pt : iref -> Prop).

  Lemma stack_sat_push Sc ns ks t k :
    stack_sat Q Pr Pt Sc ns ks -> Pt t -> Q (join_path (rev (k :: ks))) ->
    stack_sat Q Pr Pt Sc (t :: ns) (k :: ks).
  Proof.
    intros (Hne & T & Hns & R) Ht Hk. split; [discriminate|]. split; [now split|]. split; [now constructor|].
    intros s Hs. rewrite current_resource_id_cons by exact Hne. now apply R.
  Qed.

  Section Convert.
    (** [L]: where the heap region of the document starts; [Sc]: its scalars *)
    Variables (L : nat) (Sc : list str).
    Hypothesis new_slots : forall a, L <= a -> (forall k, Pt (RMapE a k)) /\ (forall i, Pt (RListE a i)).

    Definition conv_ok (st : state) : Prop :=
      graph_sat Q Pr Pt st /\ conv_inv L Sc st /\ L <= length (st_heap st).

    Definition conv_post (st st' : state) : Prop := conv_ok st' /\ conv_mem L st st'.

    Lemma conv_post_refl st : conv_ok st -> conv_post st st.
    Proof. intros O. split; [exact O|apply conv_mem_refl]. Qed.
    Lemma conv_post_trans s1 s2 s3 : conv_post s1 s2 -> conv_post s2 s3 -> conv_post s1 s3.
    Proof. intros (_ & M1) (O & M2). split; [exact O|eapply conv_mem_trans; eassumption]. Qed.

    Lemma conv_post_alloc st n : conv_ok st -> node_ok L Sc n -> conv_post st (snd (alloc st n)).
    Proof.
      intros (G & C & HL) Hn. split.
      - split; [exact G|]. split; [now apply conv_inv_alloc|]. rewrite alloc_length. lia.
      - split; [rewrite alloc_length; lia|]. split; [|split; reflexivity]. intros x Hx. apply hget_app_old. lia.
    Qed.

    Lemma conv_post_store a st st' :
      conv_ok st -> L <= a -> writes_at a st st' -> sg st st' -> conv_inv L Sc st' -> conv_post st st'.
    Proof.
      intros (G & _ & HL) Ha (l & _ & h) (d & c & o) C. split.
      - split; [now apply (graph_sat_deps_eq Q Pr Pt st)|]. split; [exact C|lia].
      - split; [lia|]. split; [|split; assumption]. intros x Hx. apply h. lia.
    Qed.

    Lemma conv_post_map_set a st k v :
      conv_ok st -> L <= a -> ptr_ge L v -> conv_post st (heap_map_set st a k v).
    Proof.
      intros O Ha Hv. apply (conv_post_store a); [exact O|exact Ha|apply heap_map_set_at|apply sg_heap_map_set|].
      now apply conv_inv_heap_map_set; [apply O|].
    Qed.
    Lemma conv_post_list_append a st v :
      conv_ok st -> L <= a -> ptr_ge L v -> conv_post st (heap_list_append st a v).
    Proof.
      intros O Ha Hv. apply (conv_post_store a); [exact O|exact Ha|apply heap_list_append_at|apply sg_heap_list_append|].
      now apply conv_inv_heap_list_append; [apply O|].
    Qed.

    Lemma conv_post_parse st ns ks k p :
      conv_ok st -> stack_sat Q Pr Pt Sc ns ks -> ptr_ge L p -> conv_post st (snd (parse_h st ns ks k p)).
    Proof.
      intros (G & C & HL) K Hp. pose proof (parse_h_only st ns ks k p) as O.
      split; [|now apply conv_mem_graph_only]. destruct O as (h & _).
      split; [now apply (parse_h_sat Q Pr Pt L Sc)|]. split; [now apply (conv_inv_heap_eq L Sc st)|now rewrite h].
    Qed.

    Definition conv_good (y : ydoc) : Prop :=
      forall ns ks st, conv_ok st -> stack_sat Q Pr Pt Sc ns ks ->
        incl (scalars y) Sc -> Forall Q (node_paths y ks) ->
        conv_post st (snd (convert y ns ks st)) /\ ptr_ge L (fst (convert y ns ks st)).

    Lemma convert_child c t k ns ks st :
      conv_good c -> conv_ok st -> stack_sat Q Pr Pt Sc ns ks -> Pt t ->
      incl (scalars c) Sc -> Forall Q (node_paths c (k :: ks)) ->
      conv_post st (snd (convert c (t :: ns) (k :: ks) st)) /\ ptr_ge L (fst (convert c (t :: ns) (k :: ks) st)).
    Proof.
      intros Fc O K Ht HS HP. apply Fc; [exact O| |exact HS|exact HP].
      apply stack_sat_push; [exact K|exact Ht|]. rewrite Forall_forall in HP. apply HP, node_paths_head.
    Qed.

    Lemma conv_map_sat a ns ks : forall m st,
      Forall (fun e => conv_good (snd e)) m -> conv_ok st -> L <= a -> stack_sat Q Pr Pt Sc ns ks ->
      incl (map_scalars (fun c => scalars c) m) Sc -> Forall Q (map_paths (fun c => node_paths c) m ks) ->
      conv_post st (conv_map (fun c => convert c) a ns ks m st).
    Proof.
      induction m as [|[k c] m IH]; intros st F O Ha K HS HP; cbn [conv_map]; [now apply conv_post_refl|].
      inversion F as [|? ? Fc Fm]; subst. cbn [snd map_scalars map_paths] in Fc, HS, HP.
      apply incl_app_inv in HS. destruct HS as [HSc HSm]. apply Forall_app in HP. destruct HP as [HPc HPm].
      destruct (convert_child c (RMapE a k) k ns ks st Fc O K (proj1 (new_slots a Ha) k) HSc HPc) as [P1 Hp].
      destruct (convert c (RMapE a k :: ns) (k :: ks) st) as [p st1]. cbn [fst snd] in *.
      pose proof (conv_post_parse st1 ns ks k p (proj1 P1) K Hp) as P2.
      destruct (parse_h st1 ns ks k p) as [consumed st2]. cbn [snd] in P2.
      assert (P3 : conv_post st2 (if consumed then st2 else heap_map_set st2 a k p)).
      { destruct consumed; [apply conv_post_refl, P2|apply conv_post_map_set; [apply P2|exact Ha|exact Hp]]. }
      eapply conv_post_trans; [exact P1|]. eapply conv_post_trans; [exact P2|]. eapply conv_post_trans; [exact P3|].
      apply IH; auto. apply P3.
    Qed.

    Lemma conv_seq_sat a ns ks : forall l i st,
      Forall conv_good l -> conv_ok st -> L <= a -> stack_sat Q Pr Pt Sc ns ks ->
      incl (seq_scalars (fun c => scalars c) l) Sc -> Forall Q (seq_paths (fun c => node_paths c) l i ks) ->
      conv_post st (conv_seq (fun c => convert c) a ns ks l i st).
    Proof.
      induction l as [|c l IH]; intros i st F O Ha K HS HP; cbn [conv_seq]; [now apply conv_post_refl|].
      inversion F as [|? ? Fc Fl]; subst. cbn [seq_scalars seq_paths] in HS, HP.
      apply incl_app_inv in HS. destruct HS as [HSc HSl]. apply Forall_app in HP. destruct HP as [HPc HPl].
      destruct (convert_child c (RListE a i) (idx_key i) ns ks st Fc O K (proj2 (new_slots a Ha) i) HSc HPc) as [P1 Hp].
      destruct (convert c (RListE a i :: ns) (idx_key i :: ks) st) as [p st1]. cbn [fst snd] in *.
      pose proof (conv_post_list_append a st1 p (proj1 P1) Ha Hp) as P2.
      eapply conv_post_trans; [exact P1|]. eapply conv_post_trans; [exact P2|].
      apply IH; auto. apply P2.
    Qed.

    Lemma convert_sat : forall y, conv_good y.
    Proof.
      induction y as [|s|l IHl|m IHm] using ydoc_ind'; intros ns ks st O K HS HP; cbn [convert].
      - split; [now apply conv_post_refl|exact I].
      - split; [|apply O]. apply (conv_post_alloc st (HScalar s) O), HS. now left.
      - pose proof (conv_post_alloc st (HList []) O ltac:(constructor)) as PA. unfold alloc in *. cbn [fst snd] in *.
        inversion HP as [|? ? _ HPl]; subst. split; [|apply O]. eapply conv_post_trans; [exact PA|].
        apply conv_seq_sat; [exact IHl|apply PA|apply O|exact K|exact HS|exact HPl].
      - pose proof (conv_post_alloc st (HMap []) O ltac:(constructor)) as PA. unfold alloc in *. cbn [fst snd] in *.
        inversion HP as [|? ? _ HPm]; subst. split; [|apply O]. eapply conv_post_trans; [exact PA|].
        apply conv_map_sat; [exact IHm|apply PA|apply O|exact K|exact HS|exact HPm].
    Qed.
  End Convert.

  Lemma compile_h_sat ds st file :
    let id := to_resource_id file in
    graph_sat Q Pr Pt st ->
    Q (root_key id) -> Pt (RRes id) ->
    (forall a, length (st_heap st) <= a -> (forall k, Pt (RMapE a k)) /\ (forall i, Pt (RListE a i))) ->
    (ends_with id s_custom = false -> Pr (auto_patch_ref id)) ->
    (forall y, alookup id ds = Some y ->
       Forall Q (node_paths y [root_key id]) /\
       forall s, In s (scalars y) -> Pr (create_reference (cur_of id) s)) ->
    graph_sat Q Pr Pt (snd (compile_h ds st file)) /\
    conv_mem (length (st_heap st)) st (snd (compile_h ds st file)).
  Proof.
    intros id G Hroot Ht Hnew Hauto Hdoc. unfold compile_h. fold id. change (id ++ [c_colon]) with (root_key id).
    set (L := length (st_heap st)).
    assert (A : forall s', graph_sat Q Pr Pt s' -> conv_mem L st s' ->
                graph_sat Q Pr Pt (auto_patch_h s' id) /\ conv_mem L st (auto_patch_h s' id)).
    { intros s' G' M'. split; [now apply auto_patch_h_sat|].
      eapply conv_mem_trans; [exact M'|apply conv_mem_graph_only, auto_patch_h_only]. }
    set (st1 := with_res st _).
    destruct (alookup id ds) as [y|]; cbn [snd]; [|apply A; [exact G|exact (conv_mem_refl L st)]].
    destruct (Hdoc y eq_refl) as [HP HR].
    match goal with |- context[convert y ?ns ?ks st1] =>
      pose proof (convert_sat L (scalars y) Hnew y ns ks st1) as K;
      destruct (convert y ns ks st1) as [p st2] end.
    destruct K as (((G2 & _) & M2) & _); [| |apply incl_refl|exact HP|apply A; [exact G2|exact M2]].
    - split; [exact G|]. split; [|apply Nat.le_refl]. intros a n Ha Hg. apply hget_Some_lt in Hg. subst L st1. cbn in Hg. lia.
    - split; [discriminate|]. split; [now split|]. split; [now constructor|exact HR].
  Qed.
End GraphClaims.

Section Term.
  Variable ds : docs.
  Variable wf : nat.
  Variable U : list str.

  Definition doc_paths (id : str) : list str :=
    match alookup id ds with
    | Some y => node_paths y [root_key id]
    | None => [root_key id]
    end.
  Definition AP : list str := flat_map (fun u => doc_paths (to_resource_id u)) U.

  Hypothesis HU_custom : forall u, In u U ->
    ends_with (to_resource_id u) s_custom = false -> In (custom_id (to_resource_id u)) U.
  Hypothesis HU_refs : forall u y, In u U -> alookup (to_resource_id u) ds = Some y ->
    forall s, In s (scalars y) -> In (r_res (create_reference (cur_of (to_resource_id u)) s)) U.

  Definition dep_ok (d : dep) : Prop :=
    match d with
    | DInclude r _ | DPatchRef r _ => In (r_res r) U
    | _ => True
    end.

  Definition ginv (st : state) : Prop :=
    NoDup (st_chain st) /\
    incl (st_chain st) AP /\
    (forall p, In p (map fst (st_deps st)) -> In p AP) /\
    (forall p l d, In (p, l) (st_deps st) -> In d l -> dep_ok d).

  (** the graph part of [ginv] as a claim: paths in [AP], referenced resources in [U] *)
  Definition term_sat : state -> Prop :=
    graph_sat (fun p => In p AP) (fun r => In (r_res r) U) (fun _ => True).

  Lemma ginv_sat st : ginv st <-> NoDup (st_chain st) /\ incl (st_chain st) AP /\ term_sat st.
  Proof.
    assert (D : forall d, dep_ok d <-> dep_sat (fun r => In (r_res r) U) (fun _ => True) d)
      by (intros [ | | | ]; cbn; tauto).
    split.
    - intros (H1 & H2 & H3 & H4). split; [exact H1|]. split; [exact H2|]. intros p l Hin. split.
      + apply H3. apply in_map_iff. now exists (p, l).
      + apply Forall_forall. intros d Hd. apply D. eauto.
    - intros (H1 & H2 & T). split; [exact H1|]. split; [exact H2|]. split.
      + intros p Hin. apply in_map_iff in Hin. destruct Hin as [[p' l] [<- Hin]]. apply (T p' l Hin).
      + intros p l d Hin Hd. apply D. destruct (T p l Hin) as [_ F]. rewrite Forall_forall in F. now apply F.
  Qed.

  Lemma ginv_sg st st' : sg st st' -> ginv st -> ginv st'.
  Proof.
    intros (Hd & Hc & _) (H1 & H2 & H3 & H4). unfold ginv. rewrite Hd, Hc. auto.
  Qed.

  Lemma chain_add_dep_at st path d : st_chain (add_dep_at st path d) = st_chain st.
  Proof. reflexivity. Qed.

  Definition NP : nat := length AP.

  Definition good (st st' : state) : Prop :=
    ginv st' /\ length (st_chain st) <= length (st_chain st') /\ st_oof st' = st_oof st.

  Lemma good_refl st : ginv st -> good st st.
  Proof. intros G. split; [exact G|]. split; [lia|reflexivity]. Qed.
  Lemma good_sg st st' : ginv st -> sg st st' -> good st st'.
  Proof.
    intros G S. split; [eapply ginv_sg; eauto|]. destruct S as (_ & c & o). rewrite c, o. split; [lia|reflexivity].
  Qed.
  Lemma good_sat st st' :
    ginv st -> term_sat st' -> st_chain st' = st_chain st -> st_oof st' = st_oof st -> good st st'.
  Proof.
    intros G T c o. apply ginv_sat in G. split; [apply ginv_sat; rewrite c; tauto|]. rewrite c, o. split; [lia|reflexivity].
  Qed.

  Lemma ginv_chain_le st : ginv st -> length (st_chain st) <= NP.
  Proof. intros (H1 & H2 & _). apply NoDup_incl_length; assumption. Qed.

  Lemma doc_paths_in_AP u x : In u U -> In x (doc_paths (to_resource_id u)) -> In x AP.
  Proof. intros Hu Hx. unfold AP. apply in_flat_map. eauto. Qed.

  Lemma root_in_doc_paths id : In (root_key id) (doc_paths id).
  Proof.
    unfold doc_paths. destruct (alookup id ds) as [y|]; [|now left]. apply (node_paths_head y [root_key id]).
  Qed.

  Lemma compile_h_ok st file : ginv st -> In file U -> good st (snd (compile_h ds st file)).
  Proof.
    intros G Hf. pose proof (proj1 (ginv_sat st) G) as (_ & _ & T).
    destruct (compile_h_sat _ _ _ ds st file T) as (T' & _ & _ & c & o); [| | | | |now apply good_sat]; auto.
    - eapply doc_paths_in_AP; [exact Hf|apply root_in_doc_paths].
    - intros Hc. cbn. now apply HU_custom.
    - intros y Ey. split; [|now apply (HU_refs file y)].
      apply Forall_forall. intros x Hx. apply (doc_paths_in_AP file x Hf). unfold doc_paths. now rewrite Ey.
  Qed.

  Section WithRec.
    Variable rec : str -> state -> bool * state.
    Variable Lc : nat.
    Hypothesis Hrec : forall p st, ginv st -> Lc <= length (st_chain st) -> good st (snd (rec p st)).

    Definition at_level (st : state) : Prop := ginv st /\ Lc <= length (st_chain st).
    Definition climbs (st st' : state) : Prop :=
      length (st_chain st) <= length (st_chain st') /\ st_oof st' = st_oof st.

    Lemma good_keeps st st' : Lc <= length (st_chain st) -> good st st' -> keeps at_level climbs st st'.
    Proof. intros HL (G & c & o). split; [split; [exact G|lia]|now split]. Qed.
    Lemma keeps_good st st' : keeps at_level climbs st st' -> good st st'.
    Proof. intros ((G & _) & c & o). split; [exact G|now split]. Qed.

    Lemma term_steps : resolve_steps ds wf rec at_level climbs (fun r => In (r_res r) U) (fun _ => True).
    Proof.
      split.
      - intros st. split; [lia|reflexivity].
      - intros a b c (?&?) (?&?). split; [lia|congruence].
      - intros p st (G & HL). apply good_keeps; auto.
      - intros st r (G & HL) Hr. apply good_keeps; [exact HL|now apply compile_h_ok].
      - intros st t inc (G & HL) _. apply good_keeps; [exact HL|]. apply good_sg; [exact G|apply sg_include_h].
      - intros st t m (G & HL) _. apply good_keeps; [exact HL|]. apply good_sg; [exact G|apply sg_patch_literal_h].
      - intros st (G & HL). apply good_keeps; [exact HL|]. apply good_sg; [exact G|apply sg_set_ub].
      - intros st p (G & HL). apply good_keeps; [exact HL|].
        destruct (erase_head_dep_only st p) as (_ & _ & c & o). apply good_sat; auto.
        apply erase_head_dep_sat. now apply ginv_sat.
    Qed.

    Lemma resolve_reference_good st r :
      ginv st -> Lc <= length (st_chain st) -> In (r_res r) U ->
      good st (snd (resolve_reference ds rec st r)).
    Proof. intros G HL Hr. apply keeps_good, (resolve_reference_keeps term_steps); [now split|exact Hr]. Qed.

    Lemma resolve_loop_good path l st :
      ginv st -> Lc <= length (st_chain st) -> (forall d, In d l -> dep_ok d) ->
      good st (snd (resolve_loop ds wf rec l path st)).
    Proof.
      intros G HL Hd. apply keeps_good, (resolve_loop_keeps term_steps); [now split|].
      apply Forall_forall. intros d Hin. specialize (Hd d Hin). destruct d; cbn in *; auto.
    Qed.
  End WithRec.

  Lemma has_circular_false_notin st path : has_circular st path = false -> ~ In path (st_chain st).
  Proof.
    unfold has_circular. intros H Hin. apply not_true_iff_false in H. apply H.
    apply existsb_exists. exists path. split; [exact Hin|].
    now rewrite starts_with_refl, Nat.eqb_refl.
  Qed.

  Lemma ginv_push st path l :
    ginv st -> deps_at st path = Some l -> has_circular st path = false ->
    ginv (with_chain st (st_chain st ++ [path])).
  Proof.
    intros (H1 & H2 & H3 & H4) E Hc. split; [|split; [|split; assumption]]; cbn.
    - apply NoDup_snoc; [exact H1|now apply has_circular_false_notin].
    - apply incl_app; [exact H2|]. intros x [<-|[]]. apply H3, in_map_iff. exists (path, l). split; [reflexivity|now apply alookup_In].
  Qed.

  Lemma ginv_pop st : ginv st -> ginv (with_chain st (removelast (st_chain st))).
  Proof.
    intros (H1 & H2 & H34). split; [|split; [|exact H34]]; cbn.
    - now apply NoDup_removelast.
    - intros x Hx. apply H2. now apply In_removelast.
  Qed.

  Lemma resolve_deps_body_good rec path st :
    (length (st_chain st) < NP ->
     forall p st', ginv st' -> S (length (st_chain st)) <= length (st_chain st') -> good st' (snd (rec p st'))) ->
    ginv st -> good st (snd (resolve_deps_body ds wf rec path st)).
  Proof.
    intros Hrec G. unfold resolve_deps_body.
    destruct (deps_at st path) as [l|] eqn:E; [|now apply good_refl].
    destruct (has_circular st path) eqn:Hc; [now apply good_refl|].
    pose proof (ginv_push st path l G E Hc) as G1. set (st1 := with_chain st (st_chain st ++ [path])) in *.
    assert (L1 : length (st_chain st1) = S (length (st_chain st))) by (cbn; rewrite app_length; cbn; lia).
    (* the longer chain still fits into [AP], so the recursive calls have fuel *)
    pose proof (ginv_chain_le st1 G1) as Hlt. destruct G as (_ & _ & _ & H4).
    pose proof (resolve_loop_good rec (S (length (st_chain st))) (Hrec ltac:(lia)) path l st1 G1 ltac:(lia)
                  (fun d => H4 path l d (alookup_In _ _ _ E))) as (G2 & L2 & O2).
    destruct (resolve_loop ds wf rec l path st1) as [ok st2]. cbn [snd] in *.
    destruct ok; cbn [snd]; [|split; [exact G2|split; [lia|exact O2]]].
    split; [now apply ginv_pop|]. split; [cbn; rewrite removelast_length; lia|exact O2].
  Qed.

  Theorem resolve_deps_good : forall fuel path st,
    ginv st -> NP - length (st_chain st) < fuel -> good st (snd (resolve_deps ds wf fuel path st)).
  Proof.
    induction fuel as [|f IH]; intros path st G HF; [lia|].
    cbn [resolve_deps]. apply resolve_deps_body_good; [|exact G].
    intros Hlt p st' G' HL'. apply IH; [exact G'|lia].
  Qed.
End Term.

(** * a concrete universe and the explicit fuel bound *)
Definition doc_refs (ds : docs) : list str :=
  flat_map (fun e => map (fun s => r_res (create_reference (cur_of (fst e)) s)) (scalars (snd e))) ds.

(* [E]: the identifiers that enter from outside the documents (the target,
   "default", the import_preset values) *)
Definition mkU (ds : docs) (E : list str) : list str :=
  (E ++ doc_refs ds) ++ map (fun u => custom_id (to_resource_id u)) (E ++ doc_refs ds).

Fixpoint ynodes (y : ydoc) : nat :=
  S match y with
    | YSeq l => list_sum (map ynodes l)
    | YMap m => list_sum (map (fun e => ynodes (snd e)) m)
    | _ => 0
    end.

Definition nscalars (ds : docs) : nat := list_sum (map (fun e => length (scalars (snd e))) ds).
Definition maxnodes (ds : docs) : nat := list_max (map (fun e => ynodes (snd e)) ds).

(** the fuel that always suffices: quadratic in the size of the document set *)
Definition fuel_bound (ds : docs) : nat := 2 * (5 + nscalars ds) * (1 + maxnodes ds).

Lemma node_paths_length : forall y ks, length (node_paths y ks) = ynodes y.
Proof.
  induction y as [|s|l IHl|m IHm] using ydoc_ind'; intros ks; cbn [node_paths ynodes length]; try reflexivity.
  - f_equal. generalize 0 as i. induction l as [|c l IH]; intros i; cbn [seq_paths map list_sum]; [reflexivity|].
    inversion IHl; subst. rewrite app_length, H1, (IH H2). reflexivity.
  - f_equal. induction m as [|[k c] m IH]; cbn [map_paths map list_sum]; [reflexivity|].
    inversion IHm; subst. cbn [snd] in *. rewrite app_length, H1, (IH H2). reflexivity.
Qed.

Lemma mkU_custom ds E u :
  In u (mkU ds E) -> ends_with (to_resource_id u) s_custom = false ->
  In (custom_id (to_resource_id u)) (mkU ds E).
Proof.
  unfold mkU. intros H Hc. apply in_app_or in H. destruct H as [H|H].
  - apply in_or_app. right. apply in_map_iff. now exists u.
  - apply in_map_iff in H. destruct H as [v [<- _]]. unfold custom_id in Hc.
    now rewrite to_resource_id_custom, ends_with_app in Hc.
Qed.

Lemma mkU_refs ds E u y :
  In u (mkU ds E) -> alookup (to_resource_id u) ds = Some y ->
  forall s, In s (scalars y) -> In (r_res (create_reference (cur_of (to_resource_id u)) s)) (mkU ds E).
Proof.
  intros _ Hl s Hs. unfold mkU. apply in_or_app. left. apply in_or_app. right.
  unfold doc_refs. apply in_flat_map. exists (to_resource_id u, y). split; [now apply alookup_In|].
  cbn [fst snd]. apply in_map_iff. now exists s.
Qed.

Lemma doc_paths_length ds id : length (doc_paths ds id) <= 1 + maxnodes ds.
Proof.
  unfold doc_paths. destruct (alookup id ds) as [y|] eqn:E; [|cbn; lia].
  rewrite node_paths_length. apply alookup_In in E.
  assert (ynodes y <= maxnodes ds); [|lia].
  unfold maxnodes. apply list_max_ge. apply in_map_iff. now exists (id, y).
Qed.

Lemma doc_refs_length ds : length (doc_refs ds) = nscalars ds.
Proof.
  unfold doc_refs, nscalars. induction ds as [|e ds IH]; cbn [flat_map map list_sum]; [reflexivity|].
  rewrite app_length, map_length, IH. reflexivity.
Qed.

Lemma AP_mkU_bound ds E : length E <= 5 -> length (AP ds (mkU ds E)) <= fuel_bound ds.
Proof.
  intros HE. unfold AP.
  eapply Nat.le_trans; [apply flat_map_length_le with (b := 1 + maxnodes ds); intros; apply doc_paths_length|].
  unfold mkU, fuel_bound. rewrite !app_length, map_length, !app_length, doc_refs_length.
  apply Nat.mul_le_mono_r. lia.
Qed.

Lemma AP_mono ds U U' : incl U U' -> incl (AP ds U) (AP ds U').
Proof.
  intros H x Hx. unfold AP in *. apply in_flat_map in Hx. destruct Hx as [u [Hu Hx]].
  apply in_flat_map. exists u. auto.
Qed.

Lemma ginv_mono ds U U' st : incl U U' -> ginv ds U st -> ginv ds U' st.
Proof.
  intros H (H1 & H2 & H3 & H4). pose proof (AP_mono ds U U' H) as HA.
  unfold ginv. repeat split; auto.
  - intros x Hx. apply HA. now apply H2.
  - intros p l d Hin Hd. specialize (H4 p l d Hin Hd). destruct d; cbn in *; auto.
Qed.

Lemma mkU_mono ds E E' : incl E E' -> incl (mkU ds E) (mkU ds E').
Proof.
  intros H. assert (HX : incl (E ++ doc_refs ds) (E' ++ doc_refs ds)) by (apply incl_app_app; [exact H|apply incl_refl]).
  unfold mkU. apply incl_app_app; [exact HX|now apply incl_map].
Qed.

Section Top.
  Variable ds : docs.
  Variable wf : nat.
  Variable fuel : nat.
  Hypothesis Hfuel : fuel_bound ds < fuel.

  Definition tinv (k : nat) (st : state) : Prop :=
    exists E, length E <= k /\ ginv ds (mkU ds E) st.

  Lemma tinv_mono k k' st : k <= k' -> tinv k st -> tinv k' st.
  Proof. intros H [E [HE G]]. exists E. split; [lia|exact G]. Qed.

  Lemma tinv_sg k st st' : sg st st' -> tinv k st -> tinv k st'.
  Proof. intros S [E [HE G]]. exists E. split; [exact HE|eapply ginv_sg; eauto]. Qed.

  Lemma resolve_deps_top E path st :
    length E <= 5 -> ginv ds (mkU ds E) st ->
    good ds (mkU ds E) st (snd (resolve_deps ds wf fuel path st)).
  Proof.
    intros HE G. apply resolve_deps_good; [apply mkU_custom|apply mkU_refs|exact G|].
    pose proof (AP_mkU_bound ds E HE). unfold NP. lia.
  Qed.

  Lemma include_plugin_total k st target r :
    k < 5 -> tinv k st ->
    tinv (S k) (snd (fst (include_plugin ds wf fuel st target r))) /\
    st_oof (snd (fst (include_plugin ds wf fuel st target r))) = st_oof st.
  Proof.
    intros Hk [E [HE G]].
    set (E' := r_res r :: E).
    assert (HE' : length E' <= 5) by (cbn; lia).
    assert (G' : ginv ds (mkU ds E') st).
    { eapply ginv_mono; [|exact G]. apply mkU_mono. intros x Hx. now right. }
    assert (Hin : In (r_res r) (mkU ds E')).
    { unfold mkU. apply in_or_app. left. apply in_or_app. left. now left. }
    pose proof (resolve_reference_good ds wf (mkU ds E') (mkU_custom ds E') (mkU_refs ds E')
                  (resolve_deps ds wf fuel) 0
                  (fun p s Gs _ => resolve_deps_top E' p s HE' Gs) st r G' (Nat.le_0_l _) Hin) as K.
    unfold include_plugin.
    destruct (resolve_reference ds (resolve_deps ds wf fuel) st r) as [inc st1]. cbn [snd] in K.
    destruct K as (G1 & _ & O1).
    destruct inc as [ia|]; cbn [fst snd].
    - pose proof (sg_include_h wf st1 target (Some ia)) as S.
      destruct (include_h wf st1 target (Some ia)) as [[ok st2] t']. cbn [fst snd] in *.
      split.
      + exists E'. split; [cbn; lia|eapply ginv_sg; eauto].
      + destruct S as (_ & _ & o). congruence.
    - split; [exists E'; split; [cbn; lia|exact G1]|exact O1].
  Qed.

  Lemma preset_step_total k id section kb acc :
    k < 5 -> tinv k (snd acc) ->
    tinv (S k) (snd (preset_step_h ds wf fuel id section kb acc)) /\
    st_oof (snd (preset_step_h ds wf fuel id section kb acc)) = st_oof (snd acc).
  Proof.
    intros Hk T. destruct acc as [ok st]. cbn [snd] in T. unfold preset_step_h.
    assert (Base : tinv (S k) st) by (eapply tinv_mono; [|exact T]; lia).
    destruct ok; cbn [negb]; [|split; [exact Base|reflexivity]].
    destruct (traverse_h st (res_root st id) [section; s_import_preset]) as [pa|]; [|split; [exact Base|reflexivity]].
    destruct (hget (st_heap st) pa) as [[pid|l|m]|]; try (split; [exact Base|reflexivity]).
    set (pre := if kb then _ else _).
    assert (P : sg st (fst pre)).
    { subst pre. destruct kb; [|apply sg_refl].
      destruct (as_map st (get_item st (cow (RRes id) section))) as [[ka km]|]; [|apply sg_refl].
      destruct (map_get km s_bindings) as [b|]; [|apply sg_refl].
      pose proof (sg_set_item (cow (cow (RRes id) section) s_bindings_add) st (Some b)) as S1.
      destruct (set_item st (cow (cow (RRes id) section) s_bindings_add) (Some b)) as [st' c'].
      cbn [fst] in *.
      eapply sg_trans; [exact S1|].
      destruct (as_map st' _) as [[ka' km']|]; [apply sg_heap_map_set|apply sg_set_ub]. }
    destruct pre as [st1 target1]. cbn [fst] in P.
    pose proof (include_plugin_total k st1 target1 {| r_res := pid; r_path := section; r_opt := false |} Hk
                  (tinv_sg k st st1 P T)) as [T2 O2].
    destruct (include_plugin ds wf fuel st1 target1 _) as [[ok2 st2] t2]. cbn [fst snd] in *.
    split; [exact T2|]. destruct P as (_ & _ & o). congruence.
  Qed.
  Lemma link_h_total st id :
    tinv 1 st -> st_oof (snd (link_h ds wf fuel st id)) = st_oof st.
  Proof.
    intros T. unfold link_h.
    destruct (alookup id (st_res st)); [|reflexivity].
    destruct T as [E [HE G]].
    pose proof (resolve_deps_top E (id ++ [c_colon]) st ltac:(lia) G) as K.
    destruct (resolve_deps ds wf fuel (id ++ [c_colon]) st) as [ok st1]. cbn [snd] in K.
    destruct K as (G1 & _ & O1).
    destruct ok; cbn [negb]; [|exact O1].
    assert (T1 : tinv 1 st1) by (exists E; split; assumption).
    set (plug := if ends_with id s_schema then _ else _).
    assert (P : st_oof (snd plug) = st_oof st1).
    { subst plug. destruct (ends_with id s_schema); [|reflexivity].
      pose proof (include_plugin_total 1 st1 (cow (RRes id) s_menu)
                    {| r_res := s_default; r_path := s_menu; r_opt := true |} ltac:(lia) T1) as [T2 O2].
      destruct (include_plugin ds wf fuel st1 (cow (RRes id) s_menu) _) as [[okd std] td].
      cbn [fst snd] in *.
      pose proof (preset_step_total 2 id s_key_binder true (okd, std) ltac:(lia) T2) as [T3 O3].
      pose proof (preset_step_total 3 id s_punctuator false _ ltac:(lia) T3) as [T4 O4].
      pose proof (preset_step_total 4 id s_recognizer false _ ltac:(lia) T4) as [T5 O5].
      cbn [snd] in *. congruence. }
    destruct plug as [ok2 st2]. cbn [snd] in P.
    destruct ok2; cbn [negb snd]; [|congruence].
    pose proof (sg_alloc st2 (HMap [])) as S1.
    destruct (alloc st2 (HMap [])) as [b s'] eqn:Ea. cbn [snd] in S1.
    pose proof (sg_set_item (cow (RRes id) s_build_info) s' (Some b)) as S2.
    destruct S1 as (_ & _ & o1). destruct S2 as (_ & _ & o2). congruence.
  Qed.

  Lemma ginv_st0 U : ginv ds U st0.
  Proof.
    unfold ginv. cbn. split; [constructor|]. split; [intros ? []|]. split; [intros ? []|].
    intros q l d [].
  Qed.

  (** ConfigBuilder::LoadConfig never exhausts the resolve fuel, whatever the
      documents are (cyclic references included) *)
  Theorem compile_impl_resolve_total name : o_oof (compile_impl ds wf fuel name) = false.
  Proof.
    unfold compile_impl.
    assert (Hin : In name (mkU ds [name])).
    { unfold mkU. apply in_or_app. left. now left. }
    pose proof (compile_h_ok ds (mkU ds [name]) (mkU_custom ds [name]) (mkU_refs ds [name]) st0 name
                  (ginv_st0 _) Hin) as (G1 & _ & O1).
    destruct (compile_h ds st0 name) as [[id loaded] st1]. cbn [snd] in *.
    change (st_oof st0) with false in O1.
    assert (T1 : tinv 1 st1) by (exists [name]; split; [cbn; lia|exact G1]).
    pose proof (link_h_total st1 id T1) as L.
    destruct loaded.
    - destruct (link_h ds wf fuel st1 id) as [linked st2]. cbn [snd] in L.
      destruct (readback wf (st_heap st2) (res_root st2 id)) as [tree rok]. cbn. congruence.
    - destruct (readback wf (st_heap st1) (res_root st1 id)) as [tree rok]. cbn. exact O1.
  Qed.
End Top.
