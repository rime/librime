(** C14: no write through sharing.  A write through a copy-on-write
    reference modifies no node that existed before, except the container of
    the slot the chain of references is anchored at; so every tree that does
    not contain that container reads back unchanged.  Proved for every edit
    of the node editor through a reference that only writes to its own
    copies ([owned]); a fresh reference (ConfigCowRef with [copied_ = false]
    at every level, which is what TypeCheckedCopyOnWrite /
    TraverseCopyOnWrite / Cow() hand out) is the first case of it. *)
From Coq Require Import List Arith Bool Lia.
From RimeV Require Import CfgC.Str CfgC.Impl CfgC.ImplFacts.
Import ListNotations.

(** the container that the anchor of a reference mutates in place *)
Fixpoint base_addr (r : iref) : option nat :=
  match r with
  | RRes _ => None
  | RMapE a _ => Some a
  | RListE a _ => Some a
  | RCow _ p _ _ => base_addr p
  end.
Fixpoint base_res (r : iref) : option str :=
  match r with
  | RRes id => Some id
  | RCow _ p _ _ => base_res p
  | _ => None
  end.

Fixpoint fresh (r : iref) : Prop :=
  match r with
  | RCow _ p _ copied => copied = None /\ fresh p
  | _ => True
  end.

(** A copy-on-write reference keeps the container it copied
    (ConfigCowRef::container_), so "this reference only writes to nodes
    allocated after address L" is a property of the reference itself. *)
Fixpoint owned (L : nat) (r : iref) : Prop :=
  match r with
  | RCow _ p _ c => match c with Some a => L <= a | None => True end /\ owned L p
  | _ => True
  end.

Lemma fresh_owned L r : fresh r -> owned L r.
Proof. induction r; cbn; auto. intros [-> F]. auto. Qed.

Lemma owned_strip L n : forall r, owned L r -> owned L (strip_cows n r).
Proof.
  induction n as [|n IH]; intros r H; cbn; [exact H|].
  destruct r; try exact H. apply IH. apply H.
Qed.
Lemma base_strip n : forall r, base_addr (strip_cows n r) = base_addr r /\ base_res (strip_cows n r) = base_res r.
Proof.
  induction n as [|n IH]; intros r; cbn [strip_cows]; [auto|]. destruct r; auto.
  cbn [base_addr base_res]. apply IH.
Qed.

(** [b]: the anchor container; [br]: the anchor resource *)
Definition frame (L : nat) (b : option nat) (br : option str) (st st' : state) : Prop :=
  length (st_heap st) <= length (st_heap st') /\
  (forall a, a < L -> Some a <> b -> hget (st_heap st') a = hget (st_heap st) a) /\
  (forall id, Some id <> br -> res_root st' id = res_root st id).

Lemma frame_refl L b br st : frame L b br st st.
Proof. repeat split; auto. Qed.
Lemma frame_trans L b br s1 s2 s3 : frame L b br s1 s2 -> frame L b br s2 s3 -> frame L b br s1 s3.
Proof.
  intros (l1 & a1 & r1) (l2 & a2 & r2). split; [lia|]. split.
  - intros a Ha Hb. rewrite a2 by assumption. now apply a1.
  - intros id Hid. rewrite r2 by assumption. now apply r1.
Qed.

Lemma frame_alloc L b br st n : L <= length (st_heap st) -> frame L b br st (snd (alloc st n)).
Proof.
  intros HL. split; [rewrite alloc_length; lia|]. split; [|reflexivity].
  intros a Ha _. apply hget_app_old. lia.
Qed.

Lemma frame_heap_only L b br st st' :
  st_heap st' = st_heap st -> st_res st' = st_res st -> frame L b br st st'.
Proof. intros Hh Hr. unfold frame, res_root. rewrite Hh, Hr. repeat split; auto. Qed.

Lemma frame_writes_at L b br st st' a :
  writes_at a st st' -> (a < L -> Some a = b) -> frame L b br st st'.
Proof.
  intros (Hl & Hr & Ho) Ha. split; [lia|]. split.
  - intros x Hx Hb. apply Ho. intros ->. now rewrite Ha in Hb.
  - intros id _. unfold res_root. now rewrite Hr.
Qed.

Definition edit_step (L : nat) (st : state) (r : iref) (st' : state) (r' : iref) : Prop :=
  L <= length (st_heap st) -> owned L r ->
  frame L (base_addr r) (base_res r) st st' /\ owned L r' /\
  base_addr r' = base_addr r /\ base_res r' = base_res r.

Lemma edit_step_trans L s1 r1 s2 r2 s3 r3 :
  edit_step L s1 r1 s2 r2 -> edit_step L s2 r2 s3 r3 -> edit_step L s1 r1 s3 r3.
Proof.
  intros H1 H2 HL Ho. destruct (H1 HL Ho) as (F1 & O1 & B1 & R1).
  assert (HL2 : L <= length (st_heap s2)) by (destruct F1; lia).
  destruct (H2 HL2 O1) as (F2 & O2 & B2 & R2). rewrite B1, R1 in F2.
  split; [eapply frame_trans; eauto|]. repeat split; congruence.
Qed.

Lemma set_item_frame L r : forall st v, edit_step L st r (fst (set_item st r v)) (snd (set_item st r v)).
Proof.
  induction r as [id|a k|a i|isl p IH k copied]; intros st v HL Ho; cbn [set_item fst snd base_addr base_res].
  - split; [|cbn; auto]. split; [|split].
    + unfold set_root. destruct (alookup id (st_res st)); cbn; lia.
    + intros a _ _. unfold set_root. destruct (alookup id (st_res st)); reflexivity.
    + intros id' Hne. apply set_root_other. congruence.
  - split; [|cbn; auto]. apply (frame_writes_at _ _ _ _ _ a); [|auto].
    destruct (hget (st_heap st) a) as [[s|l|m]|]; first [apply writes_at_hset | apply writes_at_ub].
  - split; [|cbn; auto]. apply (frame_writes_at _ _ _ _ _ a); [|auto].
    destruct (hget (st_heap st) a) as [[s|l|m]|]; first [apply writes_at_hset | apply writes_at_ub].
  - destruct Ho as [Hc Hp]. destruct copied as [ca|].
    + cbn [fst snd base_addr base_res owned]. split; [|auto].
      apply (frame_writes_at _ _ _ _ _ ca); [apply cow_write_at|lia].
    + (* the container is copied to a new node, the copy is stored through the parent, then written *)
      match goal with |- context[alloc st ?n] =>
        pose proof (frame_alloc L (base_addr p) (base_res p) st n HL) as Fa;
        pose proof (alloc_length st n) as La; destruct (alloc st n) as [a' st1] eqn:Ea end.
      assert (a' = length (st_heap st)) as -> by (now inversion Ea).
      cbn [snd] in *.
      destruct (IH st1 (Some (length (st_heap st))) ltac:(lia) Hp) as (F2 & Ho2 & B2 & R2).
      destruct (set_item st1 p (Some (length (st_heap st)))) as [st2 p']. cbn [fst snd] in *.
      cbn [base_addr base_res owned]. split; [|repeat split; auto].
      eapply frame_trans; [eapply frame_trans; eassumption|].
      apply (frame_writes_at _ _ _ _ _ (length (st_heap st))); [apply cow_write_at|lia].
Qed.

Lemma edit_step_closed L : edit_closed (edit_step L).
Proof.
  split.
  - intros st r _ Ho. split; [apply frame_refl|auto].
  - apply edit_step_trans.
  - intros st r _ Ho. split; [now apply frame_heap_only|auto].
  - intros st r _ Ho. split; [now apply frame_heap_only|auto].
  - intros st r n HL Ho. split; [now apply frame_alloc|auto].
  - intros st r v. apply set_item_frame.
  - intros st r k _ Ho. split; [apply frame_refl|cbn; auto].
  - intros st r n _ Ho. split; [apply frame_refl|]. split; [now apply owned_strip|apply base_strip].
Qed.

(** The edits the compiler performs: PatchLiteral::Resolve on any patch map,
    IncludeReference::Resolve with any overrides.  [L] is the heap size when
    the edit starts. *)
Theorem patch_leaves_sources_untouched wf m st tgt :
  owned (length (st_heap st)) tgt ->
  frame (length (st_heap st)) (base_addr tgt) (base_res tgt) st (snd (fst (patch_literal_h wf m st tgt))).
Proof. intros Ho. now apply (walk_patch_literal_h (edit_step_closed _) wf m st tgt). Qed.

Theorem include_leaves_sources_untouched wf st tgt inc :
  owned (length (st_heap st)) tgt ->
  frame (length (st_heap st)) (base_addr tgt) (base_res tgt) st (snd (fst (include_h wf st tgt inc))).
Proof. intros Ho. now apply (walk_include_h (edit_step_closed _) wf st tgt inc). Qed.

Section Avoid.
  Variable av : ptr -> bool.
  Fixpoint av_list (l : list ptr) : bool :=
    match l with [] => true | x :: r => av x && av_list r end.
  Fixpoint av_map (m : list (str * ptr)) : bool :=
    match m with [] => true | (_, x) :: r => av x && av_map r end.

  Lemma av_list_In l x : av_list l = true -> In x l -> av x = true.
  Proof.
    induction l as [|y l IH]; cbn; [intros _ []|]. intros H. apply andb_true_iff in H. intros [<-|Hx]; tauto.
  Qed.
  Lemma av_map_In m e : av_map m = true -> In e m -> av (snd e) = true.
  Proof.
    induction m as [|[k y] m IH]; cbn; [intros _ []|]. intros H. apply andb_true_iff in H. intros [<-|Hx]; tauto.
  Qed.
End Avoid.

(* the traversal [readback wf h q] never looks at address [b] *)
Fixpoint avoids (wf : nat) (h : heap) (b : nat) (q : ptr) : bool :=
  match wf with
  | 0 => true
  | S wf' =>
    match q with
    | None => true
    | Some a =>
        negb (a =? b) &&
        match hget h a with
        | Some (HList l) => av_list (avoids wf' h b) l
        | Some (HMap m) => av_map (avoids wf' h b) m
        | Some (HScalar _) => true
        | None => false     (* dangling pointers are not "avoiding" anything *)
        end
    end
  end.

(* for a chain anchored at a resource root no node is the anchor: use an
   address that no valid node has *)
Definition anchor (st : state) (r : iref) : nat :=
  match base_addr r with Some b => b | None => length (st_heap st) end.

Lemma readback_agree wf : forall h h' b q,
  (forall a, a < length h -> a <> b -> hget h' a = hget h a) ->
  avoids wf h b q = true ->
  readback wf h' q = readback wf h q.
Proof.
  induction wf as [|wf IH]; intros h h' b q Hag Hav; [reflexivity|].
  cbn [readback avoids] in *. destruct q as [a|]; [|reflexivity].
  apply andb_true_iff in Hav. destruct Hav as [Hne Hav]. apply negb_true_iff, Nat.eqb_neq in Hne.
  destruct (hget h a) as [n|] eqn:E; [|discriminate].
  rewrite (Hag a (hget_Some_lt _ _ _ E) Hne), E.
  destruct n as [s|l|m]; [reflexivity| |].
  - rewrite (rb_list_ext _ (readback wf h) l); [reflexivity|].
    intros x Hx. apply (IH h h' b x Hag). now apply (av_list_In _ l).
  - rewrite (rb_map_ext _ (readback wf h) m); [reflexivity|].
    intros e He. apply (IH h h' b (snd e) Hag). now apply (av_map_In _ m).
Qed.

Theorem frame_readback L b br st st' wf q :
  frame L b br st st' -> L = length (st_heap st) ->
  avoids wf (st_heap st) (match b with Some a => a | None => L end) q = true ->
  readback wf (st_heap st') q = readback wf (st_heap st) q.
Proof.
  intros (_ & A & _) -> Hav.
  apply (readback_agree wf _ _ (match b with Some a => a | None => length (st_heap st) end) q); [|exact Hav].
  intros a Ha Hne. apply A; [exact Ha|]. destruct b; congruence.
Qed.

(** [avoids wf h b q] says that the tree at [q] is a well-formed tree of the
    old heap (no dangling pointer) that does not contain the anchor container. *)
Theorem cow_write_leaves_sources_untouched r st v wf q :
  fresh r ->
  avoids wf (st_heap st) (anchor st r) q = true ->
  readback wf (st_heap (fst (set_item st r v))) q = readback wf (st_heap st) q.
Proof.
  intros F. destruct (set_item_frame _ r st v (Nat.le_refl _) (fresh_owned _ r F)) as [Fr _].
  now apply (frame_readback _ _ _ _ _ wf q Fr).
Qed.

Theorem cow_write_leaves_other_roots r st v id :
  fresh r -> Some id <> base_res r ->
  res_root (fst (set_item st r v)) id = res_root st id.
Proof.
  intros F. destruct (set_item_frame 0 r st v (Nat.le_0_l _) (fresh_owned _ r F)) as [(_ & _ & R) _].
  apply R.
Qed.
