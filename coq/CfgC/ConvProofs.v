(** C14: ConvertFromYaml on a directive-free document registers no
    dependency and builds, in a fresh region of the heap, the tree the
    document denotes. *)
From Coq Require Import List Arith Bool Lia.
From RimeV Require Import CfgC.Str CfgC.Tree CfgC.Spec CfgC.Impl CfgC.Facts CfgC.ImplFacts
  CfgC.SpecProofs.
Import ListNotations.

Fixpoint ydepth (y : ydoc) : nat :=
  S match y with
    | YSeq l => list_max (map ydepth l)
    | YMap m => list_max (map (fun e => ydepth (snd e)) m)
    | _ => 0
    end.

Definition agree_on (lo hi : nat) (h h' : heap) : Prop :=
  forall a, lo <= a -> a < hi -> hget h' a = hget h a.

Lemma agree_on_sub lo hi lo' hi' h h' :
  lo <= lo' -> hi' <= hi -> agree_on lo hi h h' -> agree_on lo' hi' h h'.
Proof. intros H1 H2 A a Ha Hb. apply A; lia. Qed.

Lemma agree_on_trans lo hi h1 h2 h3 :
  agree_on lo hi h1 h2 -> agree_on lo hi h2 h3 -> agree_on lo hi h1 h3.
Proof. intros A B a Ha Hb. rewrite (B a Ha Hb). now apply A. Qed.

Definition only_heap (st st' : state) : Prop :=
  st_deps st' = st_deps st /\ st_res st' = st_res st /\ st_chain st' = st_chain st /\
  st_oof st' = st_oof st /\ st_woof st' = st_woof st /\ st_ub st' = st_ub st.

Lemma only_heap_refl st : only_heap st st. Proof. now repeat split. Qed.
Lemma only_heap_trans a b c : only_heap a b -> only_heap b c -> only_heap a c.
Proof. unfold only_heap. intros (?&?&?&?&?&?) (?&?&?&?&?&?). repeat split; congruence. Qed.
Lemma only_heap_with_heap st h : only_heap st (with_heap st h). Proof. now repeat split. Qed.

Definition grows (b : nat) (st st' : state) : Prop :=
  only_heap st st' /\ length (st_heap st) <= length (st_heap st') /\ agree_on 0 b (st_heap st) (st_heap st').

Lemma grows_refl b st : grows b st st.
Proof. split; [apply only_heap_refl|]. split; [lia|intros x _ _; reflexivity]. Qed.
Lemma grows_trans b s1 s2 s3 : grows b s1 s2 -> grows b s2 s3 -> grows b s1 s3.
Proof.
  intros (O1 & L1 & A1) (O2 & L2 & A2). split; [eapply only_heap_trans; eassumption|].
  split; [lia|eapply agree_on_trans; eassumption].
Qed.
Lemma grows_alloc b st n : b <= length (st_heap st) -> grows b st (with_heap st (st_heap st ++ [n])).
Proof.
  intros Hb. split; [apply only_heap_with_heap|]. split; [cbn; rewrite app_length; lia|].
  intros x _ Hx. apply hget_app_old. lia.
Qed.

(** the result of converting [y] from a heap of length [L]:
    the new region is [L, length st'), older nodes are untouched, and the
    returned pointer reads back as [y2item y] in every heap that agrees with
    the new one on that region *)
Definition conv_plain_post (y : ydoc) (st : state) (r : ptr * state) : Prop :=
  let L := length (st_heap st) in
  grows L st (snd r) /\
  forall wf h'', ydepth y <= wf -> agree_on L (length (st_heap (snd r))) (st_heap (snd r)) h'' ->
    readback wf h'' (fst r) = (y2item y, true).

Definition conv_plain (y : ydoc) : Prop :=
  forall ns ks st, conv_plain_post y st (convert y ns ks st).

Lemma parse_h_plain st ns ks k p : plain_key_b k = true -> parse_h st ns ks k p = (false, st).
Proof.
  unfold plain_key_b, parse_h. intros H. apply andb_true_iff in H. destruct H as [H1 H2].
  apply negb_true_iff in H1, H2. now rewrite H1, H2.
Qed.

Lemma rb_map_sset rb k p m v vs :
  rb p = (v, true) -> rb_map rb m = (vs, true) ->
  rb_map rb (sset k p m) = (sset k v vs, true).
Proof.
  intros Hp. revert vs. induction m as [|[k' p'] m IH]; intros vs Hm; cbn [sset rb_map] in *.
  - inversion Hm; subst. now rewrite Hp.
  - destruct (rb p') as [v' o'] eqn:E'. destruct (rb_map rb m) as [vs' o2] eqn:Em.
    inversion Hm; subst. apply andb_true_iff in H1. destruct H1 as [-> ->].
    change (sset k v ((k', v') :: vs')) with
      (if str_eqb k k' then (k, v) :: vs'
       else if str_ltb k k' then (k, v) :: (k', v') :: vs' else (k', v') :: sset k v vs').
    destruct (str_eqb k k'); cbn [rb_map].
    + now rewrite Hp, Em.
    + destruct (str_ltb k k'); cbn [rb_map].
      * now rewrite Hp, E', Em.
      * rewrite E'. rewrite (IH vs' eq_refl). reflexivity.
Qed.

Lemma rb_list_app rb l p vs v :
  rb_list rb l = (vs, true) -> rb p = (v, true) -> rb_list rb (l ++ [p]) = (vs ++ [v], true).
Proof.
  revert vs. induction l as [|x l IH]; intros vs Hl Hp; cbn [app rb_list] in *.
  - inversion Hl; subst. now rewrite Hp.
  - destruct (rb x) as [vx ox]. destruct (rb_list rb l) as [vl ol] eqn:El.
    inversion Hl; subst. apply andb_true_iff in H1. destruct H1 as [-> ->].
    rewrite (IH vl eq_refl Hp). reflexivity.
Qed.

(** one round of either loop: convert a child, then store a node built from
    its pointer into the container at [a].  The container and the older nodes
    are not touched by the conversion; afterwards the child reads back as its
    document, and whatever was read from the region above [a] still reads the same. *)
Lemma convert_store c a n (n' : ptr -> hnode) ns ks st :
  conv_plain c -> hget (st_heap st) a = Some n ->
  let r := convert c ns ks st in
  let st2 := with_heap (snd r) (hset (st_heap (snd r)) a (n' (fst r))) in
  hget (st_heap (snd r)) a = Some n /\
  grows a st st2 /\ hget (st_heap st2) a = Some (n' (fst r)) /\
  forall h'', agree_on (S a) (length (st_heap st2)) (st_heap st2) h'' ->
    agree_on (S a) (length (st_heap st)) (st_heap st) h'' /\
    forall wf, ydepth c <= wf -> readback wf h'' (fst r) = (y2item c, true).
Proof.
  intros Hc Hg. pose proof (hget_Some_lt _ _ _ Hg) as Ha.
  destruct (Hc ns ks st) as ((O1 & L1 & A1) & R1). cbn zeta.
  destruct (convert c ns ks st) as [p st1]. cbn [fst snd st_heap with_heap] in *.
  assert (Hoth : forall x, x <> a -> hget (hset (st_heap st1) a (n' p)) x = hget (st_heap st1) x)
    by (intros; apply hget_hset_other; congruence).
  rewrite hset_length.
  split; [rewrite (A1 a); [exact Hg|lia|exact Ha]|]. split; [|split; [apply hget_hset_same; lia|]].
  - split; [eapply only_heap_trans; [exact O1|apply only_heap_with_heap]|].
    split; [cbn; rewrite hset_length; exact L1|]. intros x _ Hx. cbn. rewrite Hoth by lia. apply A1; lia.
  - intros h'' Hag. split.
    + intros x Hx1 Hx2. rewrite (Hag x) by lia. rewrite Hoth by lia. apply A1; lia.
    + intros wf Hwf. apply R1; [exact Hwf|]. intros x Hx1 Hx2. rewrite (Hag x) by lia. apply Hoth. lia.
Qed.

Section Loops.
  Variables (a : nat) (ns : list iref) (ks : list str) (D : nat).

  Lemma conv_map_plain : forall m st macc vacc,
    Forall (fun e => conv_plain (snd e)) m ->
    Forall (fun e => ydepth (snd e) <= D) m ->
    forallb (fun e => plain_key_b (fst e)) m = true ->
    hget (st_heap st) a = Some (HMap macc) ->
    (forall wf h'', D <= wf -> agree_on (S a) (length (st_heap st)) (st_heap st) h'' ->
       rb_map (readback wf h'') macc = (vacc, true)) ->
    let st' := conv_map (fun c => convert c) a ns ks m st in
    grows a st st' /\
    exists mfin,
      hget (st_heap st') a = Some (HMap mfin) /\
      forall wf h'', D <= wf -> agree_on (S a) (length (st_heap st')) (st_heap st') h'' ->
        rb_map (readback wf h'') mfin =
        (fold_left (fun acc e => sset (fst e) (y2item (snd e)) acc) m vacc, true).
  Proof.
    induction m as [|[k c] m IH]; intros st macc vacc HC HD HK Hg Hrb; cbn [conv_map fold_left].
    - split; [apply grows_refl|now exists macc].
    - inversion HC as [|? ? Cc Cm]; subst. inversion HD as [|? ? Dc Dm]; subst. cbn [snd fst] in *.
      apply andb_true_iff in HK. destruct HK as [Kc Km].
      pose proof (convert_store c a _ (fun p => HMap (sset k p macc)) (RMapE a k :: ns) (k :: ks) st Cc Hg) as K.
      destruct (convert c (RMapE a k :: ns) (k :: ks) st) as [p st1]. cbn [fst snd] in K.
      destruct K as (Hg1 & G2 & Hg2 & T).
      rewrite (parse_h_plain st1 ns ks k p Kc). unfold heap_map_set. rewrite Hg1.
      destruct (IH _ (sset k p macc) (sset k (y2item c) vacc) Cm Dm Km Hg2) as (G3 & mfin & Hf & Rf).
      { intros wf h'' Hwf Hag. destruct (T h'' Hag) as [Ag R]. apply rb_map_sset; [apply R; lia|now apply Hrb]. }
      split; [eapply grows_trans; eassumption|now exists mfin].
  Qed.

  Lemma conv_seq_plain : forall l i st lacc vacc,
    Forall conv_plain l ->
    Forall (fun c => ydepth c <= D) l ->
    hget (st_heap st) a = Some (HList lacc) ->
    (forall wf h'', D <= wf -> agree_on (S a) (length (st_heap st)) (st_heap st) h'' ->
       rb_list (readback wf h'') lacc = (vacc, true)) ->
    let st' := conv_seq (fun c => convert c) a ns ks l i st in
    grows a st st' /\
    exists lfin,
      hget (st_heap st') a = Some (HList lfin) /\
      forall wf h'', D <= wf -> agree_on (S a) (length (st_heap st')) (st_heap st') h'' ->
        rb_list (readback wf h'') lfin = (vacc ++ map y2item l, true).
  Proof.
    induction l as [|c l IH]; intros i st lacc vacc HC HD Hg Hrb; cbn [conv_seq map].
    - split; [apply grows_refl|]. exists lacc. now rewrite app_nil_r.
    - inversion HC as [|? ? Cc Cl]; subst. inversion HD as [|? ? Dc Dl]; subst.
      pose proof (convert_store c a _ (fun p => HList (lacc ++ [p])) (RListE a i :: ns) (idx_key i :: ks) st Cc Hg) as K.
      destruct (convert c (RListE a i :: ns) (idx_key i :: ks) st) as [p st1]. cbn [fst snd] in K.
      destruct K as (Hg1 & G2 & Hg2 & T).
      unfold heap_list_append. rewrite Hg1.
      destruct (IH (S i) _ (lacc ++ [p]) (vacc ++ [y2item c]) Cl Dl Hg2) as (G3 & lfin & Hf & Rf).
      { intros wf h'' Hwf Hag. destruct (T h'' Hag) as [Ag R]. apply rb_list_app; [now apply Hrb|apply R; lia]. }
      split; [eapply grows_trans; eassumption|]. exists lfin. split; [exact Hf|].
      intros wf h'' Hwf Hag. rewrite (Rf wf h'' Hwf Hag). now rewrite <- app_assoc.
  Qed.
End Loops.

Lemma alloc_facts st n :
  let '(a, st1) := alloc st n in
  a = length (st_heap st) /\ st_heap st1 = st_heap st ++ [n] /\ only_heap st st1.
Proof. cbn. repeat split. Qed.

Lemma convert_map_plain m :
  Forall (fun e => conv_plain (snd e)) m -> forallb (fun e => plain_key_b (fst e)) m = true ->
  forall ns ks st,
  let a := length (st_heap st) in
  let r := convert (YMap m) ns ks st in
  fst r = Some a /\ grows a st (snd r) /\ S a <= length (st_heap (snd r)) /\
  exists mfin,
    hget (st_heap (snd r)) a = Some (HMap mfin) /\
    forall wf h'', list_max (map (fun e => ydepth (snd e)) m) <= wf ->
      agree_on (S a) (length (st_heap (snd r))) (st_heap (snd r)) h'' ->
      rb_map (readback wf h'') mfin = (fold_left (fun acc e => sset (fst e) (y2item (snd e)) acc) m [], true).
Proof.
  intros HC HK ns ks st. cbn [convert]; unfold alloc; cbn [fst snd].
  set (a := length (st_heap st)). pose proof (grows_alloc a st (HMap []) (Nat.le_refl _)) as GA.
  set (st1 := with_heap st (st_heap st ++ [HMap []])) in *.
  destruct (conv_map_plain a ns ks (list_max (map (fun e => ydepth (snd e)) m)) m st1 [] [] HC
              (proj1 (Forall_map _ _ _) (proj1 (list_max_le _ _) (Nat.le_refl _))) HK
              (hget_app_new _ _) (fun _ _ _ _ => eq_refl)) as (G & mfin & Hf & Rf).
  assert (Len1 : length (st_heap st1) = S a) by (subst st1 a; cbn; rewrite app_length; cbn; lia).
  split; [reflexivity|]. split; [eapply grows_trans; eassumption|].
  split; [destruct G as (_ & Ln & _); lia|now exists mfin].
Qed.

Theorem convert_plain : forall y, directive_free y = true -> conv_plain y.
Proof.
  induction y as [|s|l IHl|m IHm] using ydoc_ind'; intros Hd ns ks st; unfold conv_plain_post.
  - cbn [convert fst snd]. split; [apply grows_refl|].
    intros wf h'' Hwf _. destruct wf; [cbn in Hwf; lia|reflexivity].
  - cbn [convert]; unfold alloc; cbn [fst snd]. split; [now apply grows_alloc|]. cbn [st_heap with_heap].
    intros wf h'' Hwf Hag. destruct wf; [cbn in Hwf; lia|]. cbn [readback].
    rewrite (Hag (length (st_heap st))); [|lia|rewrite app_length; cbn; lia].
    now rewrite hget_app_new.
  - cbn [convert]; unfold alloc; cbn [fst snd].
    set (a := length (st_heap st)). pose proof (grows_alloc a st (HList []) (Nat.le_refl _)) as GA.
    set (st1 := with_heap st (st_heap st ++ [HList []])) in *.
    assert (HC : Forall conv_plain l) by (rewrite Forall_forall in *; eauto using directive_free_seq).
    destruct (conv_seq_plain a ns ks (list_max (map ydepth l)) l 0 st1 [] [] HC
                (proj1 (Forall_map _ _ _) (proj1 (list_max_le _ _) (Nat.le_refl _)))
                (hget_app_new _ _) (fun _ _ _ _ => eq_refl)) as (G & lfin & Hf & Rf).
    assert (Len1 : length (st_heap st1) = S a) by (subst st1 a; cbn; rewrite app_length; cbn; lia).
    split; [eapply grows_trans; eassumption|]. destruct G as (_ & Ln & _).
    intros wf h'' Hwf Hag. destruct wf; [cbn in Hwf; lia|]. cbn [readback ydepth] in *.
    rewrite (Hag a) by lia. rewrite Hf.
    rewrite (Rf wf h''); [reflexivity|lia|]. eapply agree_on_sub; [| |exact Hag]; lia.
  - destruct (directive_free_map m Hd) as [HK Hc].
    destruct (convert_map_plain m) with (ns := ns) (ks := ks) (st := st) as (Ep & G & Ln & mfin & Hf & Rf);
      [rewrite Forall_forall in *; auto|exact HK|].
    split; [exact G|].
    intros wf h'' Hwf Hag. rewrite Ep. destruct wf; [cbn in Hwf; lia|]. cbn [readback ydepth y2item] in *.
    rewrite (Hag (length (st_heap st))) by lia. rewrite Hf.
    rewrite (Rf wf h''); [reflexivity|lia|]. eapply agree_on_sub; [| |exact Hag]; lia.
Qed.
