(** C14: ordering of the dependencies kept per path
    (InsertByPriority / ConfigDependencyGraph::Add). *)
From Coq Require Import List Arith Lia.
From RimeV Require Import CfgC.Impl CfgC.Facts.
Import ListNotations.

Definition of_class (p : nat) (d : dep) : bool := priority d =? p.

(** pending children, then includes, then patches; each class in the order
    in which its members were added *)
Definition by_classes (l : list dep) : list dep :=
  filter (of_class 0) l ++ filter (of_class 1) l ++ filter (of_class 2) l.

Lemma priority_range d : priority d = 0 \/ priority d = 1 \/ priority d = 2.
Proof. destruct d; cbn; auto. Qed.

Lemma insert_between l r d :
  Forall (fun x => priority x <= priority d) l -> Forall (fun x => priority d < priority x) r ->
  insert_by_priority (l ++ r) d = l ++ d :: r.
Proof.
  intros Hl Hr. induction Hl as [|x l Hx Hl IH]; cbn [app insert_by_priority].
  - destruct Hr as [|y r Hy Hr]; cbn [insert_by_priority]; [reflexivity|].
    now rewrite (proj2 (Nat.ltb_lt _ _) Hy).
  - rewrite (proj2 (Nat.ltb_ge _ _) Hx). now rewrite IH.
Qed.

Lemma class_priority p l x : In x (filter (of_class p) l) -> priority x = p.
Proof. intros H. apply filter_In in H. now apply Nat.eqb_eq. Qed.

Lemma class_le p q l : p <= q -> Forall (fun x => priority x <= q) (filter (of_class p) l).
Proof. intros H. apply Forall_forall. intros x Hx. rewrite (class_priority p l x Hx). exact H. Qed.
Lemma class_gt p q l : q < p -> Forall (fun x => q < priority x) (filter (of_class p) l).
Proof. intros H. apply Forall_forall. intros x Hx. rewrite (class_priority p l x Hx). exact H. Qed.

Lemma insert_by_classes l d : insert_by_priority (by_classes l) d = by_classes (l ++ [d]).
Proof.
  unfold by_classes. rewrite !filter_app. cbn [filter].
  change (of_class 0 d) with (priority d =? 0); change (of_class 1 d) with (priority d =? 1);
  change (of_class 2 d) with (priority d =? 2).
  destruct (priority_range d) as [E|[E|E]]; rewrite E; cbn [Nat.eqb app]; rewrite ?app_nil_r.
  - rewrite <- app_assoc. apply insert_between; rewrite E; [now apply class_le|].
    apply Forall_app. split; apply class_gt; lia.
  - rewrite !app_assoc. rewrite <- (app_assoc _ [d]). apply insert_between; rewrite E; [|apply class_gt; lia].
    apply Forall_app. split; apply class_le; lia.
  - rewrite 2!app_assoc. rewrite <- (app_nil_r (_ ++ filter (of_class 2) l)) at 1.
    rewrite insert_between; [now rewrite <- !app_assoc|rewrite E|constructor].
    repeat (apply Forall_app; split); apply class_le; lia.
Qed.

Lemma inserts_by_classes ds : fold_left insert_by_priority ds [] = by_classes ds.
Proof.
  induction ds as [|d ds IH] using rev_ind; [reflexivity|].
  now rewrite fold_left_app; cbn [fold_left]; rewrite IH, insert_by_classes.
Qed.

(** the same on the graph: what ResolveDependencies finds at [path] after the
    dependencies [ds] were added there (in that order) to an empty entry *)
Lemma deps_after_adds st path ds :
  deps_at st path = None -> ds <> [] ->
  deps_at (fold_left (fun s d => add_dep_at s path d) ds st) path = Some (by_classes ds).
Proof.
  intros Hnone Hne.
  assert (G : forall ds st l, deps_at st path = Some l ->
              deps_at (fold_left (fun s d => add_dep_at s path d) ds st) path
              = Some (fold_left insert_by_priority ds l)).
  { clear. induction ds as [|d ds IH]; intros st l H; cbn [fold_left]; [exact H|].
    apply IH. unfold add_dep_at, deps_at in *. cbn. rewrite H. apply alookup_aset_same. }
  destruct ds as [|d ds]; [congruence|]. cbn [fold_left].
  rewrite (G ds _ [d]).
  - rewrite <- inserts_by_classes. reflexivity.
  - unfold add_dep_at, deps_at in *. cbn. rewrite Hnone. apply alookup_aset_same.
Qed.

Lemma nth_mono_app {A} (f : A -> nat) q d l r :
  Forall (fun x => f x <= q) l -> Forall (fun x => q <= f x) r ->
  (forall i j, i <= j -> j < length l -> f (nth i l d) <= f (nth j l d)) ->
  (forall i j, i <= j -> j < length r -> f (nth i r d) <= f (nth j r d)) ->
  forall i j, i <= j -> j < length (l ++ r) -> f (nth i (l ++ r) d) <= f (nth j (l ++ r) d).
Proof.
  intros Fl Fr Ml Mr i j Hij Hj. rewrite app_length in Hj. rewrite Forall_forall in Fl, Fr.
  destruct (Nat.lt_ge_cases j (length l)) as [H|H].
  - rewrite !app_nth1 by lia. now apply Ml.
  - rewrite (app_nth2 _ _ _ H). destruct (Nat.lt_ge_cases i (length l)) as [H'|H'].
    + rewrite app_nth1 by exact H'. transitivity q; [apply Fl, nth_In; lia|apply Fr, nth_In; lia].
    + rewrite app_nth2 by exact H'. apply Mr; lia.
Qed.

Lemma class_mono p l i j :
  i <= j -> j < length (filter (of_class p) l) ->
  priority (nth i (filter (of_class p) l) (DPending [])) <= priority (nth j (filter (of_class p) l) (DPending [])).
Proof. intros Hij Hj. rewrite !(class_priority p l) by (apply nth_In; lia). lia. Qed.

(** the resolve loop takes the dependencies in list order: pending children
    come before includes, includes before patches *)
Lemma by_classes_sorted ds :
  forall i j, i <= j -> j < length (by_classes ds) ->
  priority (nth i (by_classes ds) (DPending [])) <= priority (nth j (by_classes ds) (DPending [])).
Proof.
  unfold by_classes.
  apply (nth_mono_app priority 0); [now apply class_le| |apply class_mono|].
  - apply Forall_forall. intros; lia.
  - apply (nth_mono_app priority 1); [now apply class_le| |apply class_mono|apply class_mono].
    eapply Forall_impl; [|apply (class_gt 2 0); lia]. cbn; intros; lia.
Qed.
