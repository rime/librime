(** C14: byte strings, association lists keyed by them, and a few list
    facts, as the proofs about the two compiler models use them. *)
From Coq Require Import List Arith Bool Lia.
From RimeV Require Import CfgC.Str CfgC.Tree CfgC.Spec.
Import ListNotations.

Lemma beqb_eq a b : beqb a b = true -> a = b.
Proof. apply Byte.byte_dec_bl. Qed.
Lemma beqb_refl a : beqb a a = true.
Proof. now apply Byte.byte_dec_lb. Qed.

Lemma str_eqb_eq a : forall b, str_eqb a b = true -> a = b.
Proof.
  induction a as [|x a IH]; intros [|y b] H; cbn in H; try discriminate; [reflexivity|].
  apply andb_true_iff in H. destruct H as [H1 H2]. f_equal; [now apply beqb_eq|now apply IH].
Qed.
Lemma str_eqb_refl s : str_eqb s s = true.
Proof. induction s as [|x s IH]; cbn; [reflexivity|]. now rewrite beqb_refl. Qed.

Lemma str_eqb_spec a b : reflect (a = b) (str_eqb a b).
Proof.
  destruct (str_eqb a b) eqn:E; constructor; [now apply str_eqb_eq|].
  intros ->. now rewrite str_eqb_refl in E.
Qed.
Lemma str_eqb_false_ne a b : a <> b -> str_eqb a b = false.
Proof. now destruct (str_eqb_spec a b). Qed.
Lemma str_eqb_sym a b : str_eqb a b = str_eqb b a.
Proof.
  destruct (str_eqb_spec a b) as [->|H]; symmetry; [apply str_eqb_refl|].
  apply str_eqb_false_ne. congruence.
Qed.

Lemma starts_with_app p : forall r, starts_with (p ++ r) p = true.
Proof.
  induction p as [|x p IH]; intros r; cbn; [now destruct r|]. now rewrite beqb_refl, IH.
Qed.
Lemma starts_with_refl s : starts_with s s = true.
Proof. rewrite <- (app_nil_r s) at 1. apply starts_with_app. Qed.
Lemma ends_with_app x p : ends_with (x ++ p) p = true.
Proof. unfold ends_with. rewrite rev_app_distr. apply starts_with_app. Qed.

Lemma to_resource_id_custom x : to_resource_id (x ++ s_custom) = x ++ s_custom.
Proof. unfold to_resource_id, remove_suffix, ends_with. rewrite rev_app_distr. reflexivity. Qed.

Lemma alookup_In {A} k (m : list (str * A)) v : alookup k m = Some v -> In (k, v) m.
Proof.
  induction m as [|[k' v'] m IH]; cbn; [discriminate|].
  destruct (str_eqb_spec k k') as [->|_]; [intros [= ->]; now left|right; now apply IH].
Qed.

Lemma alookup_aset_same {A} k (v : A) m : alookup k (aset k v m) = Some v.
Proof.
  induction m as [|[k' v'] m IH]; cbn; [now rewrite str_eqb_refl|].
  destruct (str_eqb k k') eqn:E; cbn; rewrite ?str_eqb_refl, ?E; auto.
Qed.
Lemma alookup_aset_other {A} k k0 (v : A) m : k0 <> k -> alookup k0 (aset k v m) = alookup k0 m.
Proof.
  intros H. induction m as [|[k' v'] m IH]; cbn; [now rewrite (str_eqb_false_ne k0 k)|].
  destruct (str_eqb_spec k k') as [<-|_]; cbn; [now rewrite (str_eqb_false_ne k0 k)|].
  now rewrite IH.
Qed.

Lemma In_aset {A} k (v : A) m p w : In (p, w) (aset k v m) -> (p, w) = (k, v) \/ In (p, w) m.
Proof.
  induction m as [|[k' v'] m IH]; cbn; [intuition|].
  destruct (str_eqb k k'); cbn; intuition.
Qed.

Lemma alookup_sset_same {A} k (v : A) m : alookup k (sset k v m) = Some v.
Proof.
  induction m as [|[k' v'] m IH]; cbn; [now rewrite str_eqb_refl|].
  destruct (str_eqb k k') eqn:E; cbn; [now rewrite str_eqb_refl|].
  destruct (str_ltb k k'); cbn; [now rewrite str_eqb_refl|]. now rewrite E.
Qed.
Lemma alookup_sset_other {A} k k0 (v : A) m : k0 <> k -> alookup k0 (sset k v m) = alookup k0 m.
Proof.
  intros H. induction m as [|[k' v'] m IH]; cbn; [now rewrite (str_eqb_false_ne k0 k)|].
  destruct (str_eqb_spec k k') as [<-|_]; cbn; [now rewrite (str_eqb_false_ne k0 k)|].
  destruct (str_ltb k k'); cbn; [now rewrite (str_eqb_false_ne k0 k)|]. now rewrite IH.
Qed.
Lemma sset_sset_same {A} k (v w : A) m : sset k w (sset k v m) = sset k w m.
Proof.
  induction m as [|[k' v'] m IH]; cbn; [now rewrite str_eqb_refl|].
  destruct (str_eqb k k') eqn:E; cbn; [now rewrite str_eqb_refl|].
  destruct (str_ltb k k') eqn:L; cbn; [now rewrite str_eqb_refl|]. now rewrite E, L, IH.
Qed.
Lemma Forall_sset {A} (P : str * A -> Prop) k v m : P (k, v) -> Forall P m -> Forall P (sset k v m).
Proof.
  intros Hk. induction 1 as [|[k' v'] m Hx Hm IH]; cbn; [auto|].
  destruct (str_eqb k k'); [auto|]. destruct (str_ltb k k'); auto.
Qed.

Lemma NoDup_snoc {A} (l : list A) x : NoDup l -> ~ In x l -> NoDup (l ++ [x]).
Proof.
  intros H Hn. apply (NoDup_Add (Add_app x l [])). now rewrite app_nil_r.
Qed.

Lemma removelast_snoc {A} (l : list A) : l = [] \/ exists x, l = removelast l ++ [x].
Proof.
  destruct l as [|y l]; [now left|right]. exists (last (y :: l) y). now apply app_removelast_last.
Qed.
Lemma NoDup_removelast {A} (l : list A) : NoDup l -> NoDup (removelast l).
Proof.
  destruct (removelast_snoc l) as [->|[x E]]; [auto|]. rewrite E at 1. intros H.
  apply NoDup_remove_1 in H. now rewrite app_nil_r in H.
Qed.
Lemma In_removelast {A} (l : list A) x : In x (removelast l) -> In x l.
Proof.
  destruct (removelast_snoc l) as [->|[y E]]; [auto|]. rewrite E at 2. intros H. apply in_or_app. now left.
Qed.
Lemma removelast_length {A} (l : list A) : length (removelast l) = length l - 1.
Proof.
  destruct (removelast_snoc l) as [->|[y E]]; [reflexivity|]. rewrite E at 2. rewrite app_length. cbn. lia.
Qed.

Lemma list_max_ge l x : In x l -> x <= list_max l.
Proof.
  intros H. pose proof (proj1 (list_max_le l (list_max l)) (Nat.le_refl _)) as F.
  rewrite Forall_forall in F. now apply F.
Qed.

Lemma filter_all {A} (f : A -> bool) l : (forall x, In x l -> f x = true) -> filter f l = l.
Proof.
  induction l as [|x l IH]; intros H; cbn; [reflexivity|].
  rewrite (H x (or_introl eq_refl)). f_equal. apply IH. intros y Hy. apply H. now right.
Qed.

Lemma item_eqb_eq : forall a b, item_eqb a b = true -> a = b.
Proof.
  fix IH 1. intros [|s|l|m] [|t|l'|m'] H; cbn in H; try discriminate; [reflexivity|f_equal..].
  - now apply str_eqb_eq.
  - revert l' H. induction l as [|x l IHl]; intros [|y l'] H; try discriminate; [reflexivity|].
    apply andb_true_iff in H. destruct H as [H1 H2]. f_equal; [now apply IH|now apply IHl].
  - revert m' H. induction m as [|[k x] m IHm]; intros [|[k' y] m'] H; try discriminate; [reflexivity|].
    apply andb_true_iff in H. destruct H as [H H3]. apply andb_true_iff in H. destruct H as [H1 H2].
    f_equal; [f_equal; [now apply str_eqb_eq|now apply IH]|now apply IHm].
Qed.

Lemma ydoc_ind' (P : ydoc -> Prop) :
  P YNull -> (forall s, P (YScalar s)) ->
  (forall l, Forall P l -> P (YSeq l)) ->
  (forall m, Forall (fun e => P (snd e)) m -> P (YMap m)) ->
  forall y, P y.
Proof.
  intros HN HS HL HM.
  fix IH 1. intros [|s|l|m].
  - exact HN.
  - apply HS.
  - apply HL. induction l as [|c l IHl]; constructor; [apply IH|exact IHl].
  - apply HM. induction m as [|[k c] m IHm]; constructor; [apply IH|exact IHm].
Qed.
