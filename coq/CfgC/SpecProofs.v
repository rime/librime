(** C14: the specification on directive-free documents. *)
From Coq Require Import List Bool.
From RimeV Require Import CfgC.Str CfgC.Tree CfgC.Spec CfgC.Facts.
Import ListNotations.

(** the tree a document denotes when no directive is involved: the same
    nodes, maps sorted by key (later duplicates win, as in ConfigMap::Set) *)
Fixpoint y2item (y : ydoc) : item :=
  match y with
  | YNull => Null
  | YScalar s => Scalar s
  | YSeq l => Lst (map y2item l)
  | YMap m => Map (fold_left (fun acc e => sset (fst e) (y2item (snd e)) acc) m [])
  end.

Definition plain_key_b (k : str) : bool := negb (str_eqb k s_include) && negb (str_eqb k s_patch).

Fixpoint directive_free (y : ydoc) : bool :=
  match y with
  | YSeq l => forallb directive_free l
  | YMap m => forallb (fun e => plain_key_b (fst e) && directive_free (snd e)) m
  | _ => true
  end.

Lemma directive_free_seq l c : directive_free (YSeq l) = true -> In c l -> directive_free c = true.
Proof. cbn [directive_free]. rewrite forallb_forall. auto. Qed.

Lemma directive_free_map m :
  directive_free (YMap m) = true ->
  forallb (fun e => plain_key_b (fst e)) m = true /\ forall e, In e m -> directive_free (snd e) = true.
Proof.
  cbn [directive_free]. rewrite !forallb_forall. intros H.
  split; intros e He; now destruct (andb_prop _ _ (H e He)).
Qed.

Lemma spec_node_unfold ds f vis res path y :
  spec_node ds (S f) vis res path y =
  match y with
  | YNull => (Null, fl0)
  | YScalar s => (Scalar s, fl0)
  | YSeq l =>
      let vis' := (res, path) :: vis in
      let '(vs, fl) := seq_children (fun p c => spec_node ds (S f) vis' res p c) path l 0 in
      (Lst vs, fl)
  | YMap m =>
      let vis' := (res, path) :: vis in
      let '(es, incs, pats, fl1) := map_children (fun p c => spec_node ds (S f) vis' res p c) res path m in
      let cur := Map (plain_map es []) in
      let '(v, fl2) := apply_dirs (spec_node ds f) ds vis' (incs ++ pats ++ auto_dirs res path y) cur in
      (v, fl_or fl1 fl2)
  end.
Proof. destruct y; reflexivity. Qed.

Lemma parse_entry_plain res k v : plain_key_b k = true -> parse_entry res k v = ([], [], false).
Proof.
  unfold plain_key_b, parse_entry. intros H. apply andb_true_iff in H. destruct H as [H1 H2].
  apply negb_true_iff in H1, H2. now rewrite H1, H2.
Qed.

Section PlainFixed.
  Variable ds : docs.
  Variable f : nat.

  Definition fixed_at (y : ydoc) : Prop :=
    forall vis res path, path <> [] \/ alookup (custom_id res) ds = None ->
      spec_node ds (S f) vis res path y = (y2item y, fl0).

  Lemma seq_children_fixed comp l : forall path i,
    (forall p c, In c l -> p <> [] -> comp p c = (y2item c, fl0)) ->
    seq_children comp path l i = (map y2item l, fl0).
  Proof.
    induction l as [|c l IH]; intros path i H; cbn [seq_children map]; [reflexivity|].
    rewrite (H _ c (or_introl eq_refl)) by (now destruct path).
    rewrite IH by (intros; apply H; auto; now right). reflexivity.
  Qed.

  Lemma map_children_fixed comp res m : forall path,
    (forall p e, In e m -> p <> [] -> comp p (snd e) = (y2item (snd e), fl0)) ->
    forallb (fun e => plain_key_b (fst e)) m = true ->
    map_children comp res path m = (map (fun e => (fst e, y2item (snd e), false)) m, [], [], fl0).
  Proof.
    induction m as [|[k c] m IH]; intros path H Hk; cbn [map_children map]; [reflexivity|].
    cbn [forallb fst] in Hk. apply andb_true_iff in Hk. destruct Hk as [Hk Hm].
    rewrite (H _ (k, c) (or_introl eq_refl)) by (now destruct path). cbn [snd fst].
    rewrite (parse_entry_plain res k _ Hk).
    rewrite IH by (auto; intros; apply H; auto; now right).
    unfold plain_key_b in Hk. apply andb_true_iff in Hk. destruct Hk as [_ Hp].
    apply negb_true_iff in Hp. rewrite Hp. reflexivity.
  Qed.

  Lemma plain_map_of_children (m : list (str * ydoc)) : forall acc,
    plain_map (map (fun e => (fst e, y2item (snd e), false)) m) acc =
    fold_left (fun acc e => sset (fst e) (y2item (snd e)) acc) m acc.
  Proof. induction m as [|e m IH]; intros acc; cbn [map plain_map fold_left]; [reflexivity|apply IH]. Qed.

  Lemma auto_dirs_vacuous rec vis res path y cur :
    path <> [] \/ alookup (custom_id res) ds = None ->
    apply_dirs rec ds vis ([] ++ [] ++ auto_dirs res path y) cur = (cur, fl0).
  Proof.
    intros H. unfold auto_dirs. destruct path as [|k path]; [|reflexivity].
    destruct H as [H|H]; [congruence|].
    destruct (auto_patched res y); [|reflexivity].
    cbn [app apply_dirs]. unfold lookup_ref. cbn [r_res auto_patch_ref]. rewrite H. reflexivity.
  Qed.

  Lemma directive_free_fixed : forall y, directive_free y = true -> fixed_at y.
  Proof.
    induction y as [|s|l IHl|m IHm] using ydoc_ind'; intros Hd vis res path Hp;
      rewrite spec_node_unfold; try reflexivity.
    - cbn zeta. rewrite (seq_children_fixed _ l path 0); [reflexivity|].
      intros p c Hc Hne. rewrite Forall_forall in IHl. apply IHl; [exact Hc| |now left].
      now apply (directive_free_seq l).
    - cbn zeta. destruct (directive_free_map m Hd) as [Hk Hc].
      rewrite (map_children_fixed _ res m path); [| |exact Hk].
      + rewrite plain_map_of_children.
        rewrite (auto_dirs_vacuous _ _ res path (YMap m) _ Hp). reflexivity.
      + intros p e He Hne. rewrite Forall_forall in IHm. apply IHm; [exact He|now apply Hc|now left].
  Qed.

  (** a directive-free document without a .custom companion compiles to itself *)
  Theorem spec_plain_fixed name y :
    alookup (to_resource_id name) ds = Some y ->
    directive_free y = true ->
    alookup (custom_id (to_resource_id name)) ds = None ->
    ends_with (to_resource_id name) s_schema = false ->
    spec_link ds (S f) name = (true, y2item y, fl0, true).
  Proof.
    intros Hy Hd Hc Hs. unfold spec_link. rewrite Hy.
    rewrite (directive_free_fixed y Hd [] (to_resource_id name) [] (or_intror Hc)).
    cbn [f_err f_cyc f_oof fl0 orb]. now rewrite Hs.
  Qed.
End PlainFixed.
