(** C20 – strings copied into caller buffers are bounded and terminated.
    Property theorems only. *)
From Coq Require Import List Arith.
From RimeV Require Import Buf.CopyModel Buf.CopyProofs Gen.CopySites.
Import ListNotations.

(** Every copy site the translator found in src/rime_api.cc today is one of the
    proved idioms (finite domain: the generated list itself). *)
Theorem C20_sites_recognised :
  forallb (fun s => idiom_ok (site_prog s)) copy_sites = true.
Proof. vm_compute. reflexivity. Qed.
Print Assumptions C20_sites_recognised.

(** For every site, every source string, every size >= 1 and every caller
    memory of at least that size: the call is defined, writes nothing at or
    beyond [n], and leaves the source truncated to [n-1] bytes followed by NUL. *)
Theorem C20_sites_bounded_terminated :
  forall s, In s copy_sites ->
  forall src n buf, 1 <= n -> n <= length buf -> no_nul src ->
  exists b, run (site_prog s) src n buf = Some b /\ copy_post src n buf b.
Proof.
  intros s Hs. apply idiom_ok_sound.
  exact (proj1 (forallb_forall _ _) C20_sites_recognised s Hs).
Qed.
Print Assumptions C20_sites_bounded_terminated.

(** The statement is not vacuous: there are sites, and the bare
    [strncpy(dest, src, n)] idiom is refuted by a concrete witness. *)
Theorem C20_sites_nonempty : copy_sites <> [].
Proof. discriminate. Qed.
Print Assumptions C20_sites_nonempty.

Theorem C20_bare_strncpy_refuted :
  1 <= 2 /\ 2 <= length refute_buf /\ no_nul refute_src /\
  exists b, run [Strncpy SzN] refute_src 2 refute_buf = Some b /\ ~ copy_post refute_src 2 refute_buf b.
Proof. exact strncpy_only_refuted. Qed.
Print Assumptions C20_bare_strncpy_refuted.

(** The boolean oracle run on implementation buffers decides the post-condition. *)
Theorem C20_oracle_reflects :
  forall src n buf b, copy_postb src n buf b = true <-> copy_post src n buf b.
Proof. exact copy_postb_spec. Qed.
Print Assumptions C20_oracle_reflects.
