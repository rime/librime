(** C05 – editing keys act on the raw input exactly like a text buffer with a
    caret.  Property theorems only; each closed by a lemma proved elsewhere. *)
From Coq Require Import List ZArith Bool.
From Coq.Strings Require Import Byte.
From RimeV Require Import Base.Bytes Eng.Keys Eng.Cand Eng.Segm Eng.Ctx Eng.Engine Eng.Procs Eng.Api Eng.Oracle
     Eng.Spec Eng.EditProofs Gen.Keymaps.
Import ListNotations.

(** The translator understood every [Bind] of editor.cc, navigator.cc and
    selector.cc of the current source. *)
Theorem C05_keymaps_recognised : keymaps_recognised = true.
Proof. reflexivity. Qed.
Print Assumptions C05_keymaps_recognised.

(** The key alphabet of the property is bound, in the current source, to the
    character-wise actions the statement speaks of (KP_Left/KP_Right are
    left_by_char/right_by_char; plain Left is [rewind], which is not). *)
Theorem C05_alphabet_bindings :
  keymap_find (keymap_of_binds nav_horizontal_binds) (mkKey XK_KP_Left 0) = Some NavLeftByChar /\
  keymap_find (keymap_of_binds nav_horizontal_binds) (mkKey XK_KP_Right 0) = Some NavRightByChar /\
  keymap_find (keymap_of_binds nav_horizontal_binds) (mkKey XK_Home 0) = Some NavHome /\
  keymap_find (keymap_of_binds nav_horizontal_binds) (mkKey XK_End 0) = Some NavEnd /\
  keymap_find (keymap_of_binds express_editor_binds) (mkKey XK_BackSpace 0) = Some EdRevertLastEdit /\
  keymap_find (keymap_of_binds fluid_editor_binds) (mkKey XK_BackSpace 0) = Some EdBackToPreviousInput /\
  (forall b, In b [express_editor_binds; fluid_editor_binds] ->
             keymap_find (keymap_of_binds b) (mkKey XK_Delete 0) = Some EdDeleteChar /\
             keymap_find (keymap_of_binds b) (mkKey XK_Escape 0) = Some EdCancelComposition).
Proof.
  repeat split; try (vm_compute; reflexivity);
    destruct H as [<- | [<- | []]]; vm_compute; reflexivity.
Qed.
Print Assumptions C05_alphabet_bindings.

(** For both editor flavours, ANY translator and every finite key sequence over
    {spelling letters, BackSpace, Delete, KP_Left, KP_Right, Home, End, Escape}
    from a fresh session: after every key the reported input and caret are the
    buffer's, the key is reported handled exactly when the buffer was non-empty
    or the key is a spelling letter, nothing is committed (the pending commit
    text read after every key is empty), and no undefined operation is reached
    (every observation is a regular one). *)
Theorem C05_edit_refines_buffer :
  forall (fluid dlog : bool) (translate : bytes -> seginfo -> list cand) (keys : list ekey),
    Forall (fun k => ekey_ok (synth_cfg fluid dlog) k = true) keys ->
    let r := run (synth_cfg fluid dlog) translate (map op_of_ekey keys) in
    cx_input (st_ctx (fst r)) = b_text (buf_run keys) /\
    cx_caret (st_ctx (fst r)) = b_caret (buf_run keys) /\
    st_commit (fst r) = [] /\
    map edit_summary (snd r) = map (fun x => Some (x, [])) (buf_trace buf_empty keys).
Proof. exact edit_refines_buffer. Qed.
Print Assumptions C05_edit_refines_buffer.

(** ANY configuration with the speller settings of the synthetic
    schemas and one of the two chains ([edit_cfg]: speller, selector, navigator, editor over
    abc/fallback segmentors, or the same with the punctuator after the speller and
    punct_segmentor after abc_segmentor, the latter under the hypothesis that no spelling
    letter is a key of the punctuation tables [no_letter_punct]); editor flavour, tables,
    translators, source facts arbitrary.  [C05_edit_refines_buffer] is the instance synth_cfg. *)
Theorem C05_edit_refines_buffer_gen :
  forall (cfg : config) (translate : bytes -> seginfo -> list cand), edit_cfg cfg ->
  forall keys : list ekey,
    Forall (fun k => ekey_ok cfg k = true) keys ->
    let r := run cfg translate (map op_of_ekey keys) in
    cx_input (st_ctx (fst r)) = b_text (buf_run keys) /\
    cx_caret (st_ctx (fst r)) = b_caret (buf_run keys) /\
    st_commit (fst r) = [] /\
    map edit_summary (snd r) = map (fun x => Some (x, [])) (buf_trace buf_empty keys).
Proof. exact edit_refines_buffer_gen. Qed.
Print Assumptions C05_edit_refines_buffer_gen.

(** the punctuator schemas of the correspondence (synth_punct_express / synth_punct_fluid)
    meet the hypotheses: no letter a-z is a key of their punctuation tables *)
Theorem C05_edit_refines_buffer_punct :
  forall (fluid dlog : bool) (translate : bytes -> seginfo -> list cand) (keys : list ekey),
    Forall (fun k => ekey_ok (synth_punct_cfg fluid dlog) k = true) keys ->
    let r := run (synth_punct_cfg fluid dlog) translate (map op_of_ekey keys) in
    cx_input (st_ctx (fst r)) = b_text (buf_run keys) /\
    cx_caret (st_ctx (fst r)) = b_caret (buf_run keys) /\
    st_commit (fst r) = [] /\
    map edit_summary (snd r) = map (fun x => Some (x, [])) (buf_trace buf_empty keys).
Proof. exact edit_refines_buffer_punct. Qed.
Print Assumptions C05_edit_refines_buffer_punct.

(** [edit_cfg] also admits ascii_composer in front of the processors and ascii_segmentor in front of the
    segmentors (their stock positions).  The instance: the punctuator chain with both, every mode-switch style bound *)
Theorem C05_edit_refines_buffer_ascii :
  forall (fluid dlog : bool) (translate : bytes -> seginfo -> list cand) (keys : list ekey),
    Forall (fun k => ekey_ok (synth_acedit_cfg fluid dlog) k = true) keys ->
    let r := run (synth_acedit_cfg fluid dlog) translate (map op_of_ekey keys) in
    cx_input (st_ctx (fst r)) = b_text (buf_run keys) /\
    cx_caret (st_ctx (fst r)) = b_caret (buf_run keys) /\
    st_commit (fst r) = [] /\
    map edit_summary (snd r) = map (fun x => Some (x, [])) (buf_trace buf_empty keys).
Proof. exact edit_refines_buffer_ascii. Qed.
Print Assumptions C05_edit_refines_buffer_ascii.

(** Non-vacuity: a concrete history over the whole alphabet, run on the model
    with the oracle translator, walks through a non-trivial buffer. *)
Definition c05_example_keys : list ekey :=
  [EkLetter x61; EkLetter x62; EkLetter x63; EkLeft; EkLetter x64; EkHome; EkDelete; EkLeft; EkBackSpace;
   EkRight; EkRight; EkEnd; EkLetter x7a; EkEscape; EkLetter x71; EkBackSpace; EkBackSpace].
Theorem C05_example :
  Forall (fun k => ekey_ok (synth_cfg false true) k = true) c05_example_keys /\
  map (fun x => snd (fst x)) (buf_trace buf_empty c05_example_keys) =
    map (fun o => match edit_summary o with Some (_, t, _, _) => t | None => [x00] end)
        (snd (run (synth_cfg false true) oracle_translate (map op_of_ekey c05_example_keys))) /\
  nth 9 (map (fun x => snd (fst x)) (buf_trace buf_empty c05_example_keys)) [] = [x62; x64].
Proof.
  split; [repeat constructor|]. split; vm_compute; reflexivity.
Qed.
Print Assumptions C05_example.

Theorem C05_punct_example :
  edit_cfg (synth_punct_cfg true true) /\
  map (fun x => snd (fst x)) (buf_trace buf_empty c05_example_keys) =
    map (fun o => match edit_summary o with Some (_, t, _, _) => t | None => [x00] end)
        (snd (run (synth_punct_cfg true true) (synth_translate (synth_punct_cfg true true)) (map op_of_ekey c05_example_keys))).
Proof. split; [apply synth_punct_edit_cfg | vm_compute; reflexivity]. Qed.
Print Assumptions C05_punct_example.

(** ... and key_binder between them and the speller - the stock chain order - under [no_alphabet_binding] (no binding accepts
    an unmodified key of the alphabet; decided by [no_alphabet_binding_dec] for the 28 bindings of the synthetic schemas:
    Control+letter keys, Tab, comma / period / minus / equal / bracketleft in every condition, self-sending and cyclic ones) *)
Theorem C05_edit_refines_buffer_stock_order :
  forall (fluid dlog : bool) (translate : bytes -> seginfo -> list cand) (keys : list ekey),
    Forall (fun k => ekey_ok (synth_ascii_cfg fluid dlog) k = true) keys ->
    let r := run (synth_ascii_cfg fluid dlog) translate (map op_of_ekey keys) in
    cx_input (st_ctx (fst r)) = b_text (buf_run keys) /\
    cx_caret (st_ctx (fst r)) = b_caret (buf_run keys) /\
    st_commit (fst r) = [] /\
    map edit_summary (snd r) = map (fun x => Some (x, [])) (buf_trace buf_empty keys).
Proof. exact edit_refines_buffer_stock_order. Qed.
Print Assumptions C05_edit_refines_buffer_stock_order.

Theorem C05_edit_refines_buffer_key_binder :
  forall (fluid dlog : bool) (translate : bytes -> seginfo -> list cand) (keys : list ekey),
    Forall (fun k => ekey_ok (synth_kb_cfg fluid dlog) k = true) keys ->
    let r := run (synth_kb_cfg fluid dlog) translate (map op_of_ekey keys) in
    cx_input (st_ctx (fst r)) = b_text (buf_run keys) /\
    cx_caret (st_ctx (fst r)) = b_caret (buf_run keys) /\
    st_commit (fst r) = [] /\
    map edit_summary (snd r) = map (fun x => Some (x, [])) (buf_trace buf_empty keys).
Proof. exact edit_refines_buffer_kb. Qed.
Print Assumptions C05_edit_refines_buffer_key_binder.

Theorem C05_ascii_example :
  edit_cfg (synth_acedit_cfg false true) /\
  map (fun x => snd (fst x)) (buf_trace buf_empty c05_example_keys) =
    map (fun o => match edit_summary o with Some (_, t, _, _) => t | None => [x00] end)
        (snd (run (synth_acedit_cfg false true) (synth_translate (synth_acedit_cfg false true)) (map op_of_ekey c05_example_keys))).
Proof. split; [apply synth_acedit_edit_cfg | vm_compute; reflexivity]. Qed.
Print Assumptions C05_ascii_example.

