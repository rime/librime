(** List lemmas missing from the Coq 8.16 standard library. *)
From Coq Require Import List Arith Bool Lia Sorted.
Import ListNotations.

Lemma skipn_skipn {A} (x y : nat) (l : list A) : skipn x (skipn y l) = skipn (y + x) l.
Proof.
  revert l. induction y as [|y IH]; intros l; cbn [skipn plus]; [reflexivity|].
  destruct l as [|a l]; [now rewrite skipn_nil|]. apply IH.
Qed.

Lemma firstn_firstn_same {A} (k : nat) (l : list A) : firstn k (firstn k l) = firstn k l.
Proof. rewrite firstn_firstn. now rewrite Nat.min_id. Qed.

Lemma nth_firstn_lt {A} (i k : nat) (l : list A) d : i < k -> nth i (firstn k l) d = nth i l d.
Proof.
  revert i l. induction k as [|k IH]; intros i l H; [lia|].
  destruct l as [|a l]; [destruct i; reflexivity|].
  destruct i as [|i]; cbn; [reflexivity|]. apply IH. lia.
Qed.

Lemma nth_skipn {A} (i k : nat) (l : list A) d : nth i (skipn k l) d = nth (k + i) l d.
Proof.
  revert l. induction k as [|k IH]; intros l; [reflexivity|].
  destruct l as [|a l]; [destruct i; reflexivity|]. apply IH.
Qed.

Lemma fold_left_inv {A B} (I : A -> Prop) (f : A -> B -> A) l a :
  I a -> (forall a x, In x l -> I a -> I (f a x)) -> I (fold_left f l a).
Proof.
  revert a. induction l as [|x l IH]; intros a Ha Hs; cbn [fold_left]; [exact Ha|].
  apply IH; [apply Hs; [now left|exact Ha]|]. intros a' y Hy. apply Hs. now right.
Qed.

(** an invariant that may speak of the elements folded so far *)
Lemma fold_left_prefix_inv {A B} (I : list B -> A -> Prop) (f : A -> B -> A) l a :
  I [] a -> (forall pre x post a, l = pre ++ x :: post -> I pre a -> I (pre ++ [x]) (f a x)) -> I l (fold_left f l a).
Proof.
  intros H0 Hs.
  assert (G : forall post pre a, l = pre ++ post -> I pre a -> I l (fold_left f post a)).
  { induction post as [|x post IH]; intros pre a' E Hp; cbn [fold_left].
    - rewrite app_nil_r in E. subst. exact Hp.
    - apply (IH (pre ++ [x])); [now rewrite <- app_assoc|]. eapply Hs; eauto. }
  apply (G l [] a); [reflexivity|exact H0].
Qed.

Lemma NoDup_app_l {A} (a b : list A) : NoDup (a ++ b) -> NoDup a.
Proof.
  induction a as [|x a IH]; intro H; [constructor|].
  cbn [app] in H. inversion H as [|? ? Hx Hr]; subst. constructor; [|now apply IH].
  intro Hin. apply Hx. apply in_or_app. now left.
Qed.

Lemma StronglySorted_app {A} (R : A -> A -> Prop) l1 l2 :
  StronglySorted R l1 -> StronglySorted R l2 -> (forall a b, In a l1 -> In b l2 -> R a b) ->
  StronglySorted R (l1 ++ l2).
Proof.
  intros S1 S2 H. induction S1 as [|a l1 S1 IH F]; [exact S2|]. cbn. constructor.
  - apply IH. intros x y Hx Hy. apply H; [now right|exact Hy].
  - apply Forall_app. split; [exact F|]. rewrite Forall_forall. intros y Hy. apply H; [now left|exact Hy].
Qed.

Lemma StronglySorted_map {A B} (f : A -> B) (R : A -> A -> Prop) (Q : B -> B -> Prop) l :
  (forall a b, R a b -> Q (f a) (f b)) -> StronglySorted R l -> StronglySorted Q (map f l).
Proof.
  intros H S. induction S as [|a l S IH F]; cbn; constructor; [exact IH|].
  rewrite Forall_forall in *. intros y Hy. apply in_map_iff in Hy. destruct Hy as [x [<- Hx]]. apply H. now apply F.
Qed.

Lemma in_firstn {A} n (l : list A) x : In x (firstn n l) -> In x l.
Proof. intros H. rewrite <- (firstn_skipn n l). apply in_or_app. now left. Qed.

Lemma skipn_nth_cons {A} (l : list A) i d : (i < length l)%nat -> skipn i l = nth i l d :: skipn (S i) l.
Proof.
  revert i. induction l as [|a l IH]; intros i Hi; cbn in Hi; [lia|].
  destruct i as [|i]; [reflexivity|]. cbn. apply IH. lia.
Qed.

Lemma forallb_rev {A} (f : A -> bool) l : forallb f (rev l) = forallb f l.
Proof.
  induction l as [|x l IH]; cbn; [reflexivity|]. rewrite forallb_app, IH. cbn.
  rewrite andb_true_r. apply andb_comm.
Qed.

Lemma flat_map_length_le {A B} (f : A -> list B) (l : list A) (b : nat) :
  (forall x, In x l -> length (f x) <= b) -> length (flat_map f l) <= length l * b.
Proof.
  induction l as [|x r IH]; intros H; cbn [flat_map length]; [lia|].
  rewrite app_length. pose proof (H x (or_introl eq_refl)). specialize (IH (fun y Hy => H y (or_intror Hy))). lia.
Qed.

Lemma nth_error_skipn {A} start (l : list A) j : nth_error (skipn start l) j = nth_error l (start + j).
Proof.
  revert l. induction start as [|s IH]; intros [|x l]; try reflexivity; [now destruct j|apply IH].
Qed.

Lemma nth_error_firstn {A} k (l : list A) j c : nth_error (firstn k l) j = Some c -> nth_error l j = Some c.
Proof.
  revert k l. induction j as [|j IH]; intros [|k] [|x l] H; try discriminate; [exact H|exact (IH k l H)].
Qed.

Lemma skipn_nth_error {A} (l : list A) i x : nth_error l i = Some x -> skipn i l = x :: skipn (S i) l.
Proof.
  revert l. induction i as [|i IH]; intros [|y l] H; try discriminate.
  - now injection H as ->.
  - exact (IH l H).
Qed.

Lemma firstn_skipn_app_prefix {A} (a b : list A) start n :
  start + n <= length a -> firstn n (skipn start (a ++ b)) = firstn n (skipn start a).
Proof.
  intro H. rewrite skipn_app, firstn_app.
  replace (n - length (skipn start a)) with 0 by (rewrite skipn_length; lia).
  cbn [firstn]. now rewrite app_nil_r.
Qed.

Lemma firstn_min_skipn {A} (l : list A) start ps :
  firstn (Nat.min (start + ps) (length l) - start) (skipn start l) = firstn ps (skipn start l).
Proof.
  destruct (Nat.le_gt_cases (start + ps) (length l)) as [G|G].
  - rewrite Nat.min_l by lia. f_equal. lia.
  - rewrite Nat.min_r by lia. rewrite !firstn_all2; [reflexivity| |]; rewrite skipn_length; lia.
Qed.

Lemma firstn_S_snoc {A} (l : list A) p o :
  nth_error l p = Some o -> firstn (S p) l = firstn p l ++ [o].
Proof.
  revert p. induction l as [|a l IH]; intros [|p] H; cbn in H; try discriminate.
  - now injection H as ->.
  - cbn [firstn app]. f_equal. now apply IH.
Qed.

Lemma firstn_skipn_at {A} (a b : list A) n : length a = n -> firstn n (a ++ b) = a /\ skipn n (a ++ b) = b.
Proof.
  intros <-. split; [rewrite firstn_app, Nat.sub_diag, firstn_all; apply app_nil_r|].
  now rewrite skipn_app, skipn_all, Nat.sub_diag.
Qed.

Lemma snoc_split {A} (pre post wg : list A) x y :
  pre ++ x :: post = wg ++ [y] -> (pre = wg /\ x = y) \/ exists post', wg = pre ++ x :: post'.
Proof.
  destruct post as [|z post _] using rev_ind; intros H.
  - apply app_inj_tail in H. now left.
  - change (pre ++ x :: post ++ [z]) with (pre ++ (x :: post) ++ [z]) in H. rewrite app_assoc in H.
    apply app_inj_tail in H. right. exists post. now destruct H.
Qed.

Lemma forallb_app_true {A} (f : A -> bool) a b : forallb f (a ++ b) = true <-> forallb f a = true /\ forallb f b = true.
Proof. rewrite forallb_app. apply andb_true_iff. Qed.

Lemma flat_map_flat_map {A B C} (f : A -> list B) (g : B -> list C) l :
  flat_map g (flat_map f l) = flat_map (fun x => flat_map g (f x)) l.
Proof.
  induction l as [|a l IH]; cbn; auto. now rewrite flat_map_app, IH.
Qed.

Lemma flat_map_map {A B C} (f : A -> B) (g : B -> list C) l :
  flat_map g (map f l) = flat_map (fun x => g (f x)) l.
Proof. induction l as [|a l IH]; cbn; auto. now rewrite IH. Qed.

Lemma Forall2_in_l {A B} (R : A -> B -> Prop) l1 l2 a :
  Forall2 R l1 l2 -> In a l1 -> exists b, In b l2 /\ R a b.
Proof.
  induction 1 as [|x y l1 l2 Hxy _ IH]; intros H; [destruct H|].
  destruct H as [<-|H]; [exists y; split; [now left|exact Hxy]|]. destruct (IH H) as [b [Hb Hr]]. exists b. split; [now right|exact Hr].
Qed.

Lemma Forall2_in_r {A B} (R : A -> B -> Prop) l1 l2 b :
  Forall2 R l1 l2 -> In b l2 -> exists a, In a l1 /\ R a b.
Proof.
  induction 1 as [|x y l1 l2 Hxy _ IH]; intros H; [destruct H|].
  destruct H as [<-|H]; [exists x; split; [now left|exact Hxy]|]. destruct (IH H) as [a [Ha Hr]]. exists a. split; [now right|exact Hr].
Qed.

Lemma fold_left_pick {A B} (f : A -> B -> A) (g : B -> A) l a :
  (forall a x, f a x = a \/ f a x = g x) -> fold_left f l a = a \/ exists x, In x l /\ fold_left f l a = g x.
Proof.
  intros Hf. apply (fold_left_inv (fun r => r = a \/ exists x, In x l /\ r = g x)); [now left|].
  intros r x Hx H. destruct (Hf r x) as [E|E]; rewrite E; [exact H|right; eauto].
Qed.

(** the argmax fold: if every step yields an upper bound of the accumulator and of what [x] offers, the result bounds the
    start value and what every member offers *)
Lemma fold_left_ub {A B} (le : A -> A -> Prop) (P : B -> A -> Prop) (f : A -> B -> A) l a :
  (forall a, le a a) -> (forall a b c, le a b -> le b c -> le a c) -> (forall x a b, P x a -> le a b -> P x b) ->
  (forall a x, le a (f a x)) -> (forall a x, P x (f a x)) ->
  le a (fold_left f l a) /\ forall x, In x l -> P x (fold_left f l a).
Proof.
  intros Hr Ht Hp H1 H2.
  apply (fold_left_prefix_inv (fun pre r => le a r /\ forall x, In x pre -> P x r)); [split; [apply Hr|intros x []]|].
  intros pre x post r _ [L Q]. split; [exact (Ht _ _ _ L (H1 r x))|].
  intros y Hy. apply in_app_or in Hy. destruct Hy as [Hy|[<-|[]]]; [|apply H2]. exact (Hp _ _ _ (Q y Hy) (H1 r x)).
Qed.

Lemma NoDup_app_disjoint {A} (a b : list A) x : NoDup (a ++ b) -> In x a -> In x b -> False.
Proof.
  induction a as [|y a IH]; cbn [app In]; [tauto|]. intros H [->|G] Hb; inversion H; subst; [|eauto].
  match goal with N : ~ In x _ |- _ => apply N end. rewrite in_app_iff. now right.
Qed.

Lemma StronglySorted_NoDup {A} (R : A -> A -> Prop) l : (forall a, ~ R a a) -> StronglySorted R l -> NoDup l.
Proof.
  intros Hirr. induction 1 as [|a l _ IH Fa]; constructor; [|exact IH].
  intro C. rewrite Forall_forall in Fa. exact (Hirr a (Fa a C)).
Qed.

Lemma fold_left_reach {A B} (f : A -> B -> A) (Q : A -> Prop) l a x :
  In x l -> (forall a, Q (f a x)) -> (forall a y, Q a -> Q (f a y)) -> Q (fold_left f l a).
Proof.
  intros Hin Hx Hs. revert a. induction l as [|y l IH]; intro a; [destruct Hin|]. cbn.
  destruct Hin as [->|Hin]; [|now apply IH]. apply fold_left_inv; [apply Hx|intros; now apply Hs].
Qed.

Lemma firstn_add {A} a b (l : list A) : firstn (a + b) l = firstn a l ++ firstn b (skipn a l).
Proof.
  revert l. induction a as [|a IH]; intros l; cbn; [reflexivity|].
  destruct l as [|x l]; cbn; [now rewrite firstn_nil|]. now rewrite IH.
Qed.

Lemma filter_length_le {A} (f : A -> bool) l : length (filter f l) <= length l.
Proof. induction l as [|a l IH]; cbn; [lia|]. destruct (f a); cbn; lia. Qed.
