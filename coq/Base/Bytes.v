(** Byte helpers shared by the models and the extraction glue. *)
From Coq Require Import List NArith.
From Coq.Strings Require Import Byte.
Import ListNotations.

Definition bytes := list byte.

Definition byte_of_N (n : N) : byte :=
  match Byte.of_N n with Some b => b | None => x00 end.
Definition N_of_byte (b : byte) : N := Byte.to_N b.

Lemma byte_of_N_of_byte b : byte_of_N (N_of_byte b) = b.
Proof. unfold byte_of_N, N_of_byte. now rewrite Byte.of_to_N. Qed.

Lemma byte_eqb_refl b : Byte.eqb b b = true.
Proof. now apply Byte.byte_dec_lb. Qed.
