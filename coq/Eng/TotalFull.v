(** Eng/TotalFull.v – C01 (modelled session core): NO undefined / throwing C++
    operation is reachable by any history of API calls, for translators whose
    candidates lie inside the segment they were made for
    ([si_start s < c_end c <= si_start s + |segment input|]).

    Structure: on top of the invariant of WfProofs.v (instantiated with the
    geometric part on) a second invariant [fit] is carried through every
    function of Engine.v / Procs.v / Api.v:
      - an open (Guess) segment holds only candidates that end inside it;
      - a closed (Selected/Confirmed) segment has a selected candidate that ends
        inside it, every other candidate ends at or before its "original end"
        max(end, start + length) (what Segment::Reopen restores), and an empty
        closed segment has no candidates;
      - a segment tagged "raw" has length 1, is not empty and every byte it
        covers is one the abc_segmentor refuses as the first byte of a segment
        (so fallback_segmentor absorbs it again); other segments have
        end <= start + length;
      - the last segment is open or empty; the composition's input is a prefix
        of the context's input; the error flag is clear.
    The strong form holds at every function boundary; a weak form (a Void
    segment may still carry its stale menu – Segment::Reopen) suffices for
    Compose, which re-establishes the strong form ([compose_fit]).  The one
    place where a closed raw segment with a stale [length] is cut short by a
    partial candidate (Context::Select -> OnSelect) is followed by a Compose
    whose first round lets the fallback segmentor swallow that segment again
    ([compose_absorb]).

    The processors and the API follow by TotalLift.v. *)
From Coq Require Import List Arith NArith ZArith Bool Lia.
From Coq.Strings Require Import Byte.
From RimeV Require Import Base.Bytes Base.ListX Eng.Keys Eng.Cand Eng.Menu Eng.Segm Eng.Ctx Eng.Engine Eng.Procs
     Eng.Api Eng.TotalLift Eng.WfProofs.
Import ListNotations.

Lemma tag_eqb_eq a b : tag_eqb a b = true -> a = b.
Proof. destruct a, b; cbn; intros H; try discriminate; reflexivity. Qed.

Lemma has_tag_insert t t' l : has_tag t (tag_insert t' l) = tag_eqb t t' || has_tag t l.
Proof.
  unfold tag_insert. destruct (has_tag t' l) eqn:E; [|reflexivity].
  destruct (tag_eqb t t') eqn:Et; [|reflexivity]. apply tag_eqb_eq in Et. subst. rewrite E. reflexivity.
Qed.

Lemma has_tag_union t a b : has_tag t (tags_union a b) = has_tag t a || has_tag t b.
Proof.
  unfold tags_union. induction b as [|x b IH]; cbn [fold_right]; [cbn; now rewrite orb_false_r|].
  rewrite has_tag_insert, IH. cbn [has_tag existsb]. destruct (tag_eqb t x), (has_tag t a); reflexivity.
Qed.

Lemma has_tag_erase_raw l : has_tag TRaw (tag_erase TPartial l) = has_tag TRaw l.
Proof.
  unfold tag_erase, has_tag. induction l as [|x l IH]; [reflexivity|]. cbn [filter].
  destruct x; cbn [tag_eqb negb existsb orb]; exact IH || reflexivity.
Qed.

Lemma common_prefix_nth a b p : p < common_prefix a b -> nth p a x00 = nth p b x00.
Proof.
  revert b p. induction a as [|x a IH]; intros [|y b] p H; cbn [common_prefix] in H; try lia.
  destruct (Byte.eqb x y) eqn:E; [|lia]. apply Byte.byte_dec_bl in E. subst y.
  destruct p as [|p]; [reflexivity|]. cbn [nth]. apply IH. lia.
Qed.

Lemma common_prefix_le_l a b : common_prefix a b <= length a.
Proof.
  revert b. induction a as [|x a IH]; intros [|y b]; cbn [common_prefix length]; try lia.
  destruct (Byte.eqb x y); [specialize (IH b)|]; lia.
Qed.

Lemma common_prefix_firstn2 (a : bytes) n k : common_prefix (firstn n a) (firstn k a) = Nat.min (Nat.min n k) (length a).
Proof.
  revert n k. induction a as [|x a IH]; intros [|n] [|k]; cbn [firstn common_prefix length Nat.min]; try reflexivity.
  rewrite byte_eqb_refl, IH. reflexivity.
Qed.
Lemma common_prefix_firstn a k : common_prefix (firstn k a) a = Nat.min k (length a).
Proof. rewrite <- (firstn_all a) at 2. rewrite common_prefix_firstn2. lia. Qed.
Lemma common_prefix_firstn_r a k : common_prefix a (firstn k a) = Nat.min k (length a).
Proof. rewrite <- (firstn_all a) at 1. rewrite common_prefix_firstn2. lia. Qed.

Definition same_prefix (d : nat) (a b : bytes) : Prop :=
  d <= length a /\ d <= length b /\ forall p, p < d -> nth p a x00 = nth p b x00.

Lemma same_prefix_common a b : same_prefix (common_prefix a b) a b.
Proof. split; [apply common_prefix_le_l|]. split; [apply common_prefix_le|]. intros p. apply common_prefix_nth. Qed.

Lemma same_prefix_firstn (a : bytes) n k d : d <= n -> d <= k -> d <= length a -> same_prefix d (firstn n a) (firstn k a).
Proof.
  intros Hn Hk Hl. unfold same_prefix. rewrite !firstn_length. split; [lia|]. split; [lia|].
  intros p Hp. rewrite !nth_firstn_lt by lia. reflexivity.
Qed.

Lemma firstn_firstn_len {A} k (a : list A) : firstn (length (firstn k a)) a = firstn k a.
Proof.
  rewrite firstn_length. destruct (Nat.le_ge_cases k (length a)) as [H | H].
  - rewrite Nat.min_l by lia. reflexivity.
  - rewrite Nat.min_r by lia. rewrite firstn_all. symmetry. apply firstn_all2. lia.
Qed.

Lemma substr_se_ok s pos en : pos <= length s -> exists t, substr_se s pos en = (t, true).
Proof.
  intros H. unfold substr_se. replace (length s <? pos) with false by (symmetry; apply Nat.ltb_ge; lia).
  destruct (pos <=? en); eexists; reflexivity.
Qed.

Section Full.
Variable cfg : config.
Variable translate : bytes -> seginfo -> list cand.

Definition unabc (inp : bytes) (p : nat) : Prop := abc_scan cfg (skipn p inp) true true = 0.

Lemma abc_scan_head b r r' : abc_scan cfg (b :: r) true true = 0 -> abc_scan cfg (b :: r') true true = 0.
Proof.
  cbn [abc_scan]. intros H.
  destruct (negb (mem_byte b (cf_alphabet cfg)) && negb (negb true && mem_byte b (cf_delims cfg))); [reflexivity|].
  destruct (true && negb (mem_byte b (cf_initials cfg)) && negb (negb true && mem_byte b (cf_delims cfg))); [reflexivity | discriminate].
Qed.

Lemma unabc_ext d a b p : same_prefix d a b -> p < d -> unabc a p -> unabc b p.
Proof.
  intros (Ha & Hb & E) Hp H. unfold unabc in *.
  rewrite (skipn_nth_cons a p x00) in H by lia. rewrite (skipn_nth_cons b p x00) by lia.
  rewrite <- (E p Hp). eapply abc_scan_head, H.
Qed.

Lemma abc_proceed_unabc sg : unabc (sg_input sg) (cur_start sg) -> abc_proceed cfg sg = sg.
Proof. unfold unabc, abc_proceed. intros ->. rewrite Nat.add_0_r, Nat.ltb_irrefl. reflexivity. Qed.

Definition is_raw (g : segment) : bool := has_tag TRaw (s_tags g).
Definition closed (g : segment) : bool := status_geb (s_status g) SSelected.
Definition oend (g : segment) : nat := Nat.max (s_end g) (s_start g + s_length g).

Definition seg_tag_ok (inp : bytes) (g : segment) : Prop :=
  (is_raw g = true -> s_length g = 1 /\ s_start g < s_end g /\ forall p, s_start g <= p < s_end g -> unabc inp p) /\
  (is_raw g = false -> s_end g <= s_start g + s_length g).

Definition menu_ok (strong : bool) (g : segment) (m : menu) : Prop :=
  match s_status g with
  | SVoid => strong = false
  | SGuess => forall c, In c m -> c_end c <= s_end g
  | _ => (forall c, selected_cand g = Some c -> c_end c <= s_end g) /\
         (forall c, In c m -> c_end c <= oend g) /\ (s_start g = s_end g -> m = [])
  end.

Definition sfit (strong : bool) (inp : bytes) (g : segment) : Prop :=
  seg_tag_ok inp g /\ forall m, s_menu g = Some m -> menu_ok strong g m.
Definition lfit (strong : bool) (inp : bytes) (l : list segment) : Prop := Forall (sfit strong inp) l.

Definition last_ok (l : list segment) : Prop :=
  match l with [] => True | g :: _ => closed g = true -> s_start g = s_end g end.
Definition prefix_ok (c : context) : Prop :=
  sg_input (cx_comp c) = firstn (length (sg_input (cx_comp c))) (cx_input c).

Definition fit (c : context) : Prop :=
  cx_err c = None /\ lfit true (sg_input (cx_comp c)) (sg_segs (cx_comp c)) /\
  last_ok (sg_segs (cx_comp c)) /\ prefix_ok c.
Definition wfit (c : context) : Prop :=
  cx_err c = None /\ lfit false (sg_input (cx_comp c)) (sg_segs (cx_comp c)).

(** the instance of WfProofs' abstract predicates *)
Definition MPf (st : nat) (m : menu) : Prop := forall c, In c m -> st < c_end c.
Definition IPt (b : bytes) : Prop := True.

Lemma status_cases g : s_status g = SVoid \/ s_status g = SGuess \/ closed g = true.
Proof. unfold closed. destruct (s_status g); auto. Qed.

Lemma menu_ok_closed b g m : closed g = true ->
  menu_ok b g m = ((forall c, selected_cand g = Some c -> c_end c <= s_end g) /\
                   (forall c, In c m -> c_end c <= oend g) /\ (s_start g = s_end g -> m = [])).
Proof. unfold closed, menu_ok. destruct (s_status g); cbn; intros H; try discriminate H; reflexivity. Qed.

Lemma selected_in g c : selected_cand g = Some c -> exists m, s_menu g = Some m /\ In c m.
Proof.
  unfold selected_cand, cand_at. destruct (s_menu g) as [m|]; [|discriminate]. unfold menu_at.
  destruct (menu_count m <=? s_sel g)%N; [discriminate|]. intros H. apply nth_error_In in H. exists m. auto.
Qed.

Lemma sfit_weaken inp g : sfit true inp g -> sfit false inp g.
Proof.
  intros (Ht & Hm). split; [exact Ht|]. intros m E. specialize (Hm m E). unfold menu_ok in *.
  destruct (s_status g); auto.
Qed.
Lemma lfit_weaken inp l : lfit true inp l -> lfit false inp l.
Proof. apply Forall_impl. intros a. apply sfit_weaken. Qed.
Lemma fit_wfit c : fit c -> wfit c.
Proof. intros (E & L & _). split; [exact E | apply lfit_weaken, L]. Qed.

Lemma sfit_nomenu b inp g : seg_tag_ok inp g -> s_menu g = None -> sfit b inp g.
Proof. intros Ht E. split; [exact Ht|]. intros m. rewrite E. discriminate. Qed.

Lemma sfit_new b inp a e : a <= e -> sfit b inp (new_segment a e).
Proof. intros H. apply sfit_nomenu; [|reflexivity]. split; cbn; [discriminate | intros _; lia]. Qed.

(** a raw segment: the one fallback_segmentor makes for the byte at [k], and an older one it extends over that byte *)
Lemma sfit_raw_new b inp k : unabc inp k -> sfit b inp (seg_with_tags (new_segment k (S k)) [TRaw]).
Proof.
  intros Hu. apply sfit_nomenu; [|reflexivity]. split; [intros _ | discriminate].
  cbn [s_length s_start s_end seg_with_tags new_segment].
  split; [lia|]. split; [lia|]. intros p Hp. replace p with k by lia. exact Hu.
Qed.

Lemma sfit_raw_extend b inp g k :
  s_length g = 1 -> s_start g <= k -> (forall p, s_start g <= p <= k -> unabc inp p) ->
  sfit b inp (seg_with_tags (seg_clear (seg_with_end g (S k))) [TRaw]).
Proof.
  intros H1 Hk Hu. apply sfit_nomenu; [|reflexivity]. split; [intros _ | discriminate]. cbn.
  split; [exact H1|]. split; [lia|]. intros p Hp. apply Hu. lia.
Qed.

Lemma sfit_same b inp g g' :
  s_status g' = s_status g -> s_start g' = s_start g -> s_end g' = s_end g -> s_length g' = s_length g ->
  is_raw g' = is_raw g -> s_menu g' = s_menu g -> s_sel g' = s_sel g -> sfit b inp g -> sfit b inp g'.
Proof.
  intros E1 E2 E3 E4 E5 E6 E7 ((R & N) & Hm). split.
  - split; rewrite E5, ?E2, ?E3, ?E4; assumption.
  - intros m. rewrite E6. intros Em. specialize (Hm m Em). unfold menu_ok, oend, selected_cand, cand_at in *.
    rewrite E1, E2, E3, E4, E6, E7. exact Hm.
Qed.

Lemma sfit_tags_insert b inp g t : t <> TRaw -> sfit b inp g -> sfit b inp (seg_with_tags g (tag_insert t (s_tags g))).
Proof.
  intros Ht. apply sfit_same; try reflexivity. unfold is_raw. cbn [s_tags seg_with_tags]. rewrite has_tag_insert.
  destruct t; try reflexivity. congruence.
Qed.

Lemma sel_sfit inp g i :
  sfit true inp g -> (closed g = true -> s_start g = s_end g) -> sfit true inp (seg_with_sel g i).
Proof.
  intros (Ht & Hm) Hc. split; [exact Ht|]. intros m Em. specialize (Hm m Em).
  destruct (status_cases g) as [Es | [Es | Ecl]]; try (unfold menu_ok in *; cbn [s_status seg_with_sel]; rewrite Es in *; exact Hm).
  rewrite menu_ok_closed in Hm |- * by exact Ecl. destruct Hm as (_ & H2 & H3).
  split; [|split; assumption]. intros c Hsel. apply selected_in in Hsel as (m' & Em' & Hin).
  cbn in Em, Em'. rewrite Em in Em'. injection Em' as <-. rewrite (H3 (Hc Ecl)) in Hin. destruct Hin.
Qed.

Lemma sfit_confirm b inp g : closed g = true -> sfit b inp g -> sfit b inp (seg_with_status g SConfirmed).
Proof.
  intros Hc (Ht & Hm). split; [exact Ht|]. intros m Em. specialize (Hm m Em).
  rewrite menu_ok_closed in Hm by exact Hc. rewrite menu_ok_closed by reflexivity. exact Hm.
Qed.

(** Context::Select / ConfirmCurrentSelection close a segment whose menu starts after its start *)
Lemma to_selected_sfit inp g : seg_inv cfg MPf g -> sfit true inp g -> sfit true inp (seg_with_status g SSelected).
Proof.
  intros (_ & Hmi) (Ht & Hm). split; [exact Ht|]. intros m Em. specialize (Hm m Em).
  destruct (Hmi m Em) as (_ & _ & Hmp). rewrite menu_ok_closed by reflexivity.
  destruct (status_cases g) as [Es | [Es | Ecl]]; [| |rewrite menu_ok_closed in Hm by exact Ecl; exact Hm];
    unfold menu_ok in Hm; rewrite Es in Hm; [discriminate Hm|].
  split; [|split].
  - intros c Hsel. apply selected_in in Hsel as (m' & Em' & Hin). cbn in Em, Em'. rewrite Em in Em'. injection Em' as <-. apply Hm, Hin.
  - intros c Hin. specialize (Hm c Hin). unfold oend. cbn. lia.
  - cbn. intros Hse. destruct m as [|c0 m']; [reflexivity|]. exfalso.
    pose proof (Hm c0 (or_introl eq_refl)). pose proof (Hmp c0 (or_introl eq_refl)). lia.
Qed.

Lemma seg_close_cases g :
  seg_close g = g \/
  exists c, selected_cand g = Some c /\ c_end c < s_end g /\
            seg_close g = seg_with_tags (seg_with_end g (c_end c)) (tag_insert TPartial (s_tags g)).
Proof.
  unfold seg_close. destruct (selected_cand g) as [c|]; [|left; reflexivity].
  destruct (c_end c <? s_end g) eqn:E; [|left; reflexivity]. apply Nat.ltb_lt in E. right. exists c. auto.
Qed.

Lemma close_short_sfit inp g0 c :
  sfit true inp g0 -> closed g0 = true -> selected_cand g0 = Some c -> s_start g0 < c_end c -> c_end c < s_end g0 ->
  s_end g0 <= s_start g0 + s_length g0 ->
  sfit true inp (seg_with_tags (seg_with_end g0 (c_end c)) (tag_insert TPartial (s_tags g0))).
Proof.
  intros ((R & N) & Hm) Hc Hsel H1 H2 HL. split.
  - split; unfold is_raw; cbn [s_tags s_start s_end s_length seg_with_tags seg_with_end]; rewrite has_tag_insert; cbn [tag_eqb orb].
    + intros Hr. destruct (R Hr) as (A & B & C). split; [exact A|]. split; [exact H1|]. intros p Hp. apply C. lia.
    + intros _. lia.
  - intros m Em. specialize (Hm m Em). rewrite menu_ok_closed in Hm by exact Hc. rewrite menu_ok_closed by exact Hc.
    destruct Hm as (_ & X2 & _). split; [|split].
    + intros c0 Hc0. change (selected_cand g0 = Some c0) in Hc0. rewrite Hsel in Hc0. injection Hc0 as <-. cbn. lia.
    + intros c0 Hc0. specialize (X2 c0 Hc0). unfold oend in *. cbn. lia.
    + cbn. lia.
Qed.

(* Close keeps the invariant unless it cuts a raw segment that fallback_segmentor had extended (stale [length]) *)
Lemma seg_close_sfit inp g0 :
  seg_inv cfg MPf g0 -> sfit true inp g0 -> closed g0 = true ->
  sfit true inp (seg_close g0) \/
  (closed (seg_close g0) = true /\ is_raw (seg_close g0) = true /\ s_length (seg_close g0) = 1 /\
   s_start g0 < s_end (seg_close g0) < s_end g0 /\ forall p, s_start g0 <= p < s_end g0 -> unabc inp p).
Proof.
  intros Hsi Hg Hcl. destruct (seg_close_cases g0) as [-> | (cd & X0 & X1 & X2)]; [left; exact Hg|].
  destruct (selected_in g0 cd X0) as (m & Em & Hin).
  assert (Hst : s_start g0 < c_end cd) by (destruct Hsi as (_ & Hsi); destruct (Hsi m Em) as (_ & _ & Hmp); apply Hmp, Hin).
  rewrite X2. destruct (Nat.le_gt_cases (s_end g0) (s_start g0 + s_length g0)) as [HL | HL].
  - left. apply close_short_sfit; assumption.
  - right. destruct Hg as ((R & N) & _). unfold is_raw at 1. cbn [s_tags s_end s_length seg_with_tags seg_with_end]. rewrite has_tag_insert.
    fold (is_raw g0). destruct (is_raw g0); [|specialize (N eq_refl); lia]. destruct (R eq_refl) as (R1 & _ & R3). repeat split; assumption.
Qed.

(** Segment::Reopen: the candidates of a closed segment fit its original end; at any other caret the menu goes stale *)
Lemma seg_reopen_sfit inp g k : sfit true inp g -> sfit false inp (fst (seg_reopen g k)).
Proof.
  intros Hs. pose proof Hs as ((R & N) & Hm). unfold seg_reopen.
  change (status_geb (s_status g) SSelected) with (closed g). destruct (closed g) eqn:Ec; cbn [negb]; [|apply sfit_weaken, Hs].
  assert (Hcl : forall m, s_menu g = Some m -> forall c, In c m -> c_end c <= oend g).
  { intros m Em. specialize (Hm m Em). rewrite menu_ok_closed in Hm by exact Ec. apply Hm. }
  unfold oend in Hcl.
  destruct (s_start g + s_length g =? k); cbn [fst]; [|split; [split; assumption | intros m Em; reflexivity]].
  destruct (s_end g <? s_start g + s_length g) eqn:E2; [apply Nat.ltb_lt in E2 | apply Nat.ltb_ge in E2].
  - split.
    + split; unfold is_raw; cbn [s_tags s_start s_end s_length seg_with_status seg_with_tags seg_with_end]; rewrite has_tag_erase_raw.
      * intros Hr. destruct (R Hr) as (A & B & _). lia.
      * intros _. lia.
    + intros m Em c Hc. specialize (Hcl m Em c Hc). cbn. lia.
  - split; [split; assumption|]. intros m Em c Hc. specialize (Hcl m Em c Hc). cbn. lia.
Qed.

Lemma seg_tag_ok_ext d inp inp' g : same_prefix d inp inp' -> s_end g <= d -> seg_tag_ok inp g -> seg_tag_ok inp' g.
Proof.
  intros Hd He (R & N). split; [|exact N]. intros Hr. destruct (R Hr) as (A & B & C). split; [exact A|]. split; [exact B|].
  intros p Hp. apply (unabc_ext d inp inp' p Hd); [lia | apply C, Hp].
Qed.

Lemma lfit_ext b d inp inp' l : same_prefix d inp inp' -> Forall (fun g => s_end g <= d) l -> lfit b inp l -> lfit b inp' l.
Proof.
  intros Hd He H. unfold lfit in *. rewrite Forall_forall in *. intros g Hg. destruct (H g Hg) as (Ht & Hm).
  split; [|exact Hm]. apply (seg_tag_ok_ext d inp inp' g Hd); auto.
Qed.

Lemma dispose_Forall {P : segment -> Prop} l d : Forall P l -> Forall P (fst (dispose l d)).
Proof.
  induction l as [|g r IH]; intros H; [exact H|]. cbn [dispose].
  destruct (d <? s_end g); [|exact H]. inversion H; subst.
  destruct (dispose r d) eqn:E. cbn [fst] in *. apply IH. assumption.
Qed.

Lemma forward_lfit b inp sg : lfit b inp (sg_segs sg) -> lfit b inp (sg_segs (fst (forward sg))).
Proof.
  intros H. destruct (forward_cases sg) as [(-> & _) | ->]; [exact H|]. constructor; [apply sfit_new; lia | exact H].
Qed.

Lemma forward_back sg last r : sg_segs (fst (forward sg)) = last :: r -> s_start last = s_end last.
Proof.
  destruct (forward_cases sg) as [(-> & E) | ->]; intros X.
  - unfold cur_start, cur_end in E. rewrite X in E. exact E.
  - injection X as <- _. reflexivity.
Qed.
Lemma forward_last sg : last_ok (sg_segs (fst (forward sg))).
Proof. destruct (sg_segs (fst (forward sg))) as [|g r] eqn:E; [exact I|]. intros _. apply (forward_back sg g r E). Qed.

Lemma forward_set_back_segs sg g0 r g :
  sg_segs sg = g0 :: r -> s_start g <> s_end g ->
  sg_segs (fst (forward (sg_set_back sg g))) = new_segment (s_end g) (s_end g) :: g :: r.
Proof.
  intros E Hne. unfold sg_set_back. rewrite E. unfold forward. cbn [sg_segs sg_with_segs].
  replace (s_start g =? s_end g) with false by (symmetry; apply Nat.eqb_neq, Hne). reflexivity.
Qed.

Lemma trim_lfit b inp sg : lfit b inp (sg_segs sg) -> lfit b inp (sg_segs (fst (trim sg))).
Proof.
  intros H. unfold trim. destruct (sg_segs sg) as [|g r] eqn:E; cbn [fst]; [rewrite E; exact H|].
  destruct (s_start g =? s_end g); cbn [fst]; [|rewrite E; exact H].
  cbn. rewrite E. inversion H; assumption.
Qed.

Lemma set_back_lfit b inp sg g : lfit b inp (sg_segs sg) -> sfit b inp g -> lfit b inp (sg_segs (sg_set_back sg g)).
Proof.
  intros H Hg. unfold sg_set_back. destruct (sg_segs sg) as [|g0 r] eqn:E; [rewrite E; exact H|].
  cbn. inversion H; constructor; assumption.
Qed.

Lemma add_segment_lfit b inp sg g :
  lfit b inp (sg_segs sg) -> sfit b inp g ->
  (is_raw g = true -> forall last r, sg_segs sg = last :: r -> s_start last = s_start g -> s_end last <> s_end g) ->
  lfit b inp (sg_segs (fst (add_segment sg g))).
Proof.
  intros H Hg Hraw. unfold add_segment. destruct (s_start g =? cur_start sg) eqn:Es; cbn [negb]; [|exact H].
  apply Nat.eqb_eq in Es. destruct (sg_segs sg) as [|last r] eqn:E.
  - cbn. rewrite E. constructor; assumption.
  - unfold cur_start in Es. rewrite E in Es. inversion H; subst.
    destruct (s_end g <? s_end last) eqn:E1; cbn [fst]; [rewrite E; exact H|].
    destruct (s_end last <? s_end g) eqn:E2; cbn; constructor; auto.
    apply Nat.ltb_ge in E1, E2.
    destruct (is_raw g) eqn:Er; [exfalso; apply (Hraw eq_refl last r eq_refl); [auto | lia]|].
    revert H2. apply sfit_same; try reflexivity. unfold is_raw in *. cbn [s_tags seg_with_tags].
    rewrite has_tag_union, Er. apply orb_false_r.
Qed.

Lemma abc_proceed_lfit b sg : lfit b (sg_input sg) (sg_segs sg) -> lfit b (sg_input sg) (sg_segs (abc_proceed cfg sg)).
Proof.
  intros H. unfold abc_proceed. destruct (cur_start sg <? _) eqn:E; [|exact H]. apply Nat.ltb_lt in E.
  apply add_segment_lfit; [exact H| |discriminate].
  apply sfit_nomenu; [|reflexivity]. split; cbn; [discriminate | intros _; lia].
Qed.

Lemma add_segment_len sg g : s_start g = cur_start sg -> s_end g - s_start g <= cur_len (fst (add_segment sg g)).
Proof.
  intros Es. unfold add_segment. rewrite Es, Nat.eqb_refl. cbn [negb]. unfold cur_len, cur_start in *.
  destruct (sg_segs sg) as [|last r] eqn:E; [cbn; lia|].
  destruct (s_end g <? s_end last) eqn:E1; cbn [fst]; [rewrite E; apply Nat.ltb_lt in E1; lia|].
  destruct (s_end last <? s_end g) eqn:E2; cbn; [lia|]. apply Nat.ltb_ge in E1, E2. lia.
Qed.

Lemma abc_none sg : cur_len (abc_proceed cfg sg) = 0 -> unabc (sg_input sg) (cur_start sg).
Proof.
  unfold abc_proceed, unabc. destruct (_ <? _) eqn:E; [|apply Nat.ltb_ge in E; intros _; lia]. apply Nat.ltb_lt in E.
  intros Hl. epose proof (add_segment_len sg (seg_with_tags (new_segment (cur_start sg) _) [TAbc]) eq_refl) as H1.
  rewrite Hl in H1. cbn [s_start s_end seg_with_tags new_segment] in H1. lia.
Qed.

Lemma fallback_proceed_lfit b sg :
  sgeo sg -> lfit b (sg_input sg) (sg_segs sg) -> (cur_len sg = 0 -> unabc (sg_input sg) (cur_start sg)) ->
  lfit b (sg_input sg) (sg_segs (fallback_proceed sg)).
Proof.
  intros H L Hu. unfold fallback_proceed. destruct (0 <? cur_len sg) eqn:El; [exact L|].
  destruct (cur_start sg =? length (sg_input sg)) eqn:Ek; [exact L|].
  apply Nat.ltb_ge in El. assert (Hl0 : cur_len sg = 0) by lia. specialize (Hu Hl0).
  set (k := cur_start sg) in *.
  (* the empty last segment, if any, is popped: what is then last ends at [k] *)
  set (sg1 := match sg_segs sg with [] => sg | _ => _ end).
  assert (H1 : lfit b (sg_input sg) (sg_segs sg1) /\ (forall last r, sg_segs sg1 = last :: r -> s_end last = k)).
  { subst sg1 k. unfold cur_len, cur_start in *. destruct H as (Hc & Hf). destruct (sg_segs sg) as [|g r] eqn:E.
    - split; [rewrite E; exact L | rewrite E; discriminate].
    - inversion Hf as [|? ? (A & _) _]; subst. replace (s_start g =? s_end g) with true by (symmetry; apply Nat.eqb_eq; lia).
      cbn. rewrite E. cbn. split; [inversion L; assumption|]. intros last r0 X. subst r. symmetry. apply Hc. }
  destruct H1 as (L1 & C1).
  assert (Hadd : lfit b (sg_input sg) (sg_segs (fst (add_segment (fst (forward sg1)) (seg_with_tags (new_segment k (S k)) [TRaw]))))).
  { apply add_segment_lfit; [apply forward_lfit, L1 | apply sfit_raw_new, Hu|].
    intros _ last r E Es. apply forward_back in E. cbn in Es |- *. lia. }
  destruct (sg_segs sg1) as [|last r] eqn:E1; [exact Hadd|].
  destruct (has_tag TRaw (s_tags last)) eqn:Er; [|exact Hadd].
  cbn. inversion L1 as [|? ? ((R & _) & _) Hr]; subst. constructor; [|exact Hr]. specialize (C1 last r eq_refl).
  destruct (R Er) as (R1 & R2 & R3). apply sfit_raw_extend; [exact R1 | lia|].
  intros p Hp. destruct (Nat.eq_dec p k) as [-> | Hne]; [exact Hu | apply R3; lia].
Qed.

Lemma fallback_absorb inp e gb r :
  is_raw gb = true -> e < length inp ->
  fallback_proceed (mkSegm inp (new_segment e e :: gb :: r))
  = mkSegm inp (seg_with_tags (seg_clear (seg_with_end gb (S e))) [TRaw] :: r).
Proof.
  intros Hr He. unfold fallback_proceed, cur_len, cur_start. cbn [sg_segs s_start s_end new_segment sg_input].
  rewrite Nat.sub_diag. cbn [Nat.ltb Nat.leb]. replace (e =? length inp) with false by (symmetry; apply Nat.eqb_neq; lia).
  rewrite Nat.eqb_refl. cbn [sg_pop_back sg_with_segs sg_segs tl sg_input]. unfold is_raw in Hr. rewrite Hr. reflexivity.
Qed.

Lemma reset_input_keep sg ni : cur_end sg <= common_prefix (sg_input sg) ni -> reset_input sg ni = mkSegm ni (sg_segs sg).
Proof.
  unfold reset_input, cur_end. destruct (sg_segs sg) as [|g r]; [reflexivity|]. intros H. cbn [dispose].
  replace (common_prefix (sg_input sg) ni <? s_end g) with false by (symmetry; apply Nat.ltb_ge, H). reflexivity.
Qed.

(** what CalculateSegmentation does after its loop *)
Definition post_calc (sg1 : segmentation) : segmentation :=
  let sg2 := match sg_segs sg1 with
             | g :: _ => if has_tag TPlaceholder (s_tags g) then sg1 else fst (trim sg1)
             | [] => sg1
             end in
  match sg_segs sg2 with
  | g :: _ => if status_geb (s_status g) SSelected then fst (forward sg2) else sg2
  | [] => sg2
  end.

Lemma calc_segmentation_post o h caret sg :
  calc_segmentation cfg o h caret sg =
  (post_calc (fst (calc_loop cfg o h (S (length (sg_input sg))) caret sg)), snd (calc_loop cfg o h (S (length (sg_input sg))) caret sg)).
Proof. unfold calc_segmentation, post_calc. destruct (calc_loop cfg o h (S (length (sg_input sg))) caret sg). reflexivity. Qed.

Lemma post_calc_lfit b inp sg1 : lfit b inp (sg_segs sg1) -> lfit b inp (sg_segs (post_calc sg1)).
Proof.
  intros H1. unfold post_calc.
  set (sg2 := match sg_segs sg1 with [] => sg1 | _ => _ end).
  assert (H2 : lfit b inp (sg_segs sg2)).
  { subst sg2. destruct (sg_segs sg1) as [|g r] eqn:E; [rewrite E; exact H1|].
    destruct (has_tag TPlaceholder (s_tags g)); [rewrite E; exact H1|]. apply trim_lfit. rewrite E; exact H1. }
  destruct (sg_segs sg2) as [|g r] eqn:E2; [rewrite E2; exact H2|].
  destruct (status_geb (s_status g) SSelected); [apply forward_lfit|]; rewrite E2; exact H2.
Qed.

Lemma post_calc_last sg1 : last_ok (sg_segs (post_calc sg1)).
Proof.
  unfold post_calc. set (sg2 := match sg_segs sg1 with [] => sg1 | _ => _ end).
  destruct (sg_segs sg2) as [|g r] eqn:E2; [rewrite E2; exact I|].
  destruct (status_geb (s_status g) SSelected) eqn:Ec; [apply forward_last|].
  rewrite E2. unfold last_ok, closed. rewrite Ec. discriminate.
Qed.

Lemma begin_editing_rev_lfit inp l : lfit true inp l -> lfit true inp (begin_editing_rev l).
Proof.
  induction l as [|g r IH]; intros H; [exact H|]. inversion H; subst. cbn [begin_editing_rev].
  destruct (s_status g); try exact H; constructor; auto; try (apply IH; assumption).
  apply sfit_tags_insert; [discriminate | assumption].
Qed.
Lemma begin_editing_rev_last l : last_ok l -> last_ok (begin_editing_rev l).
Proof.
  destruct l as [|g r]; [auto|]. cbn [begin_editing_rev]. destruct (s_status g) eqn:Es; cbn; unfold closed; cbn; rewrite ?Es; auto.
Qed.

Lemma drop_unselected_lfit b inp l : lfit b inp l -> lfit b inp (fst (drop_unselected l)).
Proof.
  induction l as [|g r IH]; intros H; [exact H|]. cbn [drop_unselected].
  destruct (status_geb (s_status g) SSelected); [exact H|]. cbn [fst]. apply IH. inversion H; assumption.
Qed.

Lemma reopen_sel_rev_lfit inp l k l' : lfit true inp l -> reopen_sel_rev l k = Some l' -> lfit false inp l'.
Proof.
  revert l'. induction l as [|g r IH]; intros l' H E; [discriminate|]. inversion H; subst. cbn [reopen_sel_rev] in E.
  destruct (s_status g); try discriminate; try (apply IH; assumption).
  destruct (has_tag TSelectedBeforeEditing (s_tags g)); [discriminate|]. injection E as <-.
  constructor; [apply seg_reopen_sfit; assumption | apply lfit_weaken; assumption].
Qed.

(** the read-only views never reach substr with pos > size *)
Lemma commit_text_loop_ok inp l acc :
  Forall (seg_geo (length inp)) l -> snd acc = true -> snd (commit_text_loop inp l acc) = true.
Proof.
  revert acc. induction l as [|g r IH]; intros [[res en] ok] Hf Hok; [exact Hok|]. cbn [snd] in Hok. subst ok.
  inversion Hf as [|? ? (A & B) Hr]; subst. cbn [commit_text_loop]. apply IH; [exact Hr|].
  destruct (selected_cand g); [reflexivity|]. destruct (has_tag TPhony (s_tags g)); [reflexivity|].
  destruct (substr_se_ok inp (s_start g) (s_end g)) as (t & ->); [lia | reflexivity].
Qed.

Lemma comp_commit_text_ok sg : sgeo sg -> snd (comp_commit_text sg) = true.
Proof.
  intros (_ & Hf). unfold comp_commit_text, segs_fwd.
  pose proof (commit_text_loop_ok (sg_input sg) (rev (sg_segs sg)) ([], 0, true)) as H.
  destruct (commit_text_loop (sg_input sg) (rev (sg_segs sg)) ([], 0, true)) as [[res en] ok]. cbn [snd] in *.
  apply H; [|reflexivity]. apply Forall_rev, Hf.
Qed.

Lemma hist_step_ok g0 input a g :
  seg_geo (length input) g -> ha_ok a = true -> ha_ok (hist_step g0 input a g) = true.
Proof.
  intros (A & B) Ha. unfold hist_step. destruct (selected_cand g) as [cd|].
  - destruct (match ha_last a with Some (t, _) => bytes_eqb t (c_type cd) | None => false end); cbn [ha_ok hacc_push]; exact Ha.
  - destruct (substr_se_ok input (s_start g) (s_end g)) as (t & ->); [lia|]. cbn [ha_ok]. rewrite Ha. reflexivity.
Qed.
Lemma hist_fold_ok g0 input l : forall a, Forall (seg_geo (length input)) l -> ha_ok a = true ->
  ha_ok (fold_left (hist_step g0 input) l a) = true.
Proof.
  induction l as [|g r IH]; intros a Hf Ha; [exact Ha|]. inversion Hf; subst. cbn [fold_left].
  apply IH; [assumption | apply hist_step_ok; assumption].
Qed.

Lemma hist_push_comp_in g0 h sg input :
  sgeo sg -> length (sg_input sg) <= length input -> snd (fst (hist_push_comp g0 h sg input)) = true.
Proof.
  intros (_ & Hf) Hl. unfold hist_push_comp.
  pose proof (hist_fold_ok g0 input (segs_fwd sg) (mkHacc h None 0 true true)) as X.
  set (a := fold_left _ _ _) in *. assert (Ha : ha_ok a = true).
  { apply X; [|reflexivity]. unfold segs_fwd. apply Forall_rev. eapply Forall_impl; [|exact Hf]. intros g (A & B). split; lia. }
  destruct (ha_end a <? length input); cbn [fst snd hacc_push ha_ok]; exact Ha.
Qed.

(** the running [end] of GetPreedit / GetScriptText stays inside the input *)
Definition sel_in (n : nat) (g : segment) : Prop :=
  s_end g <= n /\ forall c, selected_cand g = Some c -> c_end c <= n.

Lemma sfit_sel_in inp n g : sfit true inp g -> seg_geo n g -> sel_in n g.
Proof.
  intros (_ & Hm) (A & B). split; [exact B|]. intros c Hsel. destruct (selected_in g c Hsel) as (m & Em & Hin).
  specialize (Hm m Em). destruct (status_cases g) as [Es | [Es | Ecl]].
  - unfold menu_ok in Hm. rewrite Es in Hm. discriminate Hm.
  - unfold menu_ok in Hm. rewrite Es in Hm. specialize (Hm c Hin). lia.
  - rewrite menu_ok_closed in Hm by exact Ecl. destruct Hm as (Hm & _). specialize (Hm c Hsel). lia.
Qed.

Lemma script_text_loop_ok inp l acc :
  Forall (sel_in (length inp)) l -> snd (fst acc) <= length inp -> snd acc = true ->
  snd (script_text_loop inp l acc) = true.
Proof.
  revert acc. induction l as [|g r IH]; intros [[res en] ok] Hf Hen Hok; [exact Hok|]. cbn [fst snd] in Hen, Hok. subst ok.
  inversion Hf as [|? ? (A & B) Hr]; subst. cbn [script_text_loop].
  destruct (selected_cand g) as [c|] eqn:Ec.
  - specialize (B c eq_refl).
    destruct (negb (match c_text c with [] => true | _ => false end) && status_geb (s_status g) SSelected); [apply IH; auto|].
    destruct (c_preedit c); [|apply IH; auto].
    destruct (substr_se_ok inp en (c_end c) Hen) as (t & ->). apply IH; auto.
  - destruct (substr_se_ok inp en (s_end g) Hen) as (t & ->). apply IH; auto.
Qed.

Definition pacc_in (n : nat) (a : pacc) : Prop := pa_end a <= n /\ pa_ok a = true.

Lemma preedit_step_ok inp full caret is_last a g :
  sel_in (length inp) g -> pacc_in (length inp) a -> pacc_in (length inp) (preedit_step inp full caret is_last a g).
Proof.
  intros (A & B) (Hen & Hok). unfold preedit_step.
  set (a1 := if caret =? pa_end a then _ else a).
  assert (H1 : pa_ok a1 = true) by (subst a1; destruct (caret =? pa_end a); exact Hok). clearbody a1.
  destruct (substr_se_ok inp (pa_end a) (s_end g) Hen) as (t & Hs).
  destruct (negb is_last).
  - destruct (selected_cand g) as [c|]; [split; [apply B; reflexivity | exact H1]|].
    destruct (has_tag TPhony (s_tags g)); [split; [exact A | exact H1]|].
    rewrite Hs. split; cbn; [exact A | rewrite H1; reflexivity].
  - match goal with |- context [match pa_sel_end ?x with _ => _ end] => set (a2 := x) end.
    assert (H2 : pacc_in (length inp) a2).
    { subst a2. destruct (selected_cand g) as [c|].
      - specialize (B c eq_refl). destruct (c_preedit c) as [|b0 p0].
        + rewrite Hs. split; cbn; [exact A | rewrite H1; reflexivity].
        + destruct (find_byte byte_tab (b0 :: p0)); [|split; [exact B | exact H1]].
          destruct ((caret =? c_end c) && (c_end c =? length full)); split; try exact B; exact H1.
      - rewrite Hs. split; cbn; [exact A | rewrite H1; reflexivity]. }
    clearbody a2. destruct (pa_sel_end a2); exact H2.
Qed.

Lemma preedit_loop_ok inp full caret l a :
  Forall (sel_in (length inp)) l -> pacc_in (length inp) a -> pa_ok (preedit_loop inp full caret l a) = true.
Proof.
  revert a. induction l as [|g r IH]; intros a Hf Ha; [apply Ha|]. inversion Hf; subst. cbn [preedit_loop].
  apply IH; [assumption | apply preedit_step_ok; assumption].
Qed.

(** declared only here: each [_ = true] in the context doubles the work of every [lia] once ZifyBool is loaded,
    so what needs arithmetic and none of them stands above *)
Hypothesis Hps : (1 <= cf_page_size cfg)%Z.
Hypothesis Hlen : forall i s, (Z.of_nat (length (translate i s)) + cf_page_size cfg < 2147483648)%Z.
Hypothesis Hdel : cf_del_checked cfg = true.
(** source fact: CommitHistory::Push(composition, input) resets [last] in its raw branch *)
Hypothesis Hhg : cf_hist_guard cfg = true.
(** source fact: the key binder replays its target keys with redirecting_ = true *)
Hypothesis Hkg : cf_kb_guard cfg = true.
(** the chains of this section: segmentors [abc_segmentor, fallback_segmentor], no punctuator
    (PunctProofs.v states what holds and what fails for chains with punct_segmentor) *)
Hypothesis Hseg : cf_segmentors cfg = [SgAbc; SgFallback].
Hypothesis Hnp : ~ In PPunctuator (cf_processors cfg).
Hypothesis Hfit : forall i s c, In c (translate i s) -> si_start s < c_end c /\ c_end c <= si_start s + length i.

Lemma HMPf : forall i s, IPt i -> MPf (si_start s) (translate i s).
Proof. intros i s _ c Hc. apply Hfit in Hc. lia. Qed.
Lemma HGEf : True -> forall st m, MPf st m -> forall c, In c m -> st <= c_end c.
Proof. intros _ st m H c Hc. specialize (H c Hc). lia. Qed.

Notation cinvT := (cinv cfg MPf IPt True).
Notation cpreT := (cpre cfg MPf IPt True).
Notation sinvT := (sinv cfg MPf IPt True).

(* [wf L]: the lemma [L] of WfProofs.v at this instance, its side conditions from the hypotheses above *)
Ltac side := first [exact Hps | exact Hlen | exact Hdel | exact Hhg | exact Hkg | exact HMPf | exact HGEf | exact I | (intros; exact I)].
Ltac wf L :=
  first [eapply L with (MP := MPf) (IP := IPt) (GE := True) | eapply L with (MP := MPf) (IP := IPt) | eapply L];
  try side; eauto.

Lemma g_calc_loop o h fuel caret sg : sgeo sg -> sgeo (fst (calc_loop cfg o h fuel caret sg)).
Proof using Hlen Hdel Hhg Hkg Hfit. intros H. wf calc_loop_geo. Qed.
Lemma g_seg_close n g : seg_inv cfg MPf g -> seg_geo n g -> s_start (seg_close g) = s_start g /\ seg_geo n (seg_close g).
Proof. intros A B. wf seg_close_geo. Qed.

Lemma good_geo c : cinvT c -> sgeo (cx_comp c) /\ cx_caret c <= length (sg_input (cx_comp c)).
Proof. intros H. apply (cinv_geo cfg MPf IPt True c H I). Qed.

Lemma set_back_sgeo sg g g0 r :
  sgeo sg -> sg_segs sg = g0 :: r -> s_start g = s_start g0 -> seg_geo (length (sg_input sg)) g -> sgeo (sg_set_back sg g).
Proof. intros H E Hs Hg. unfold sg_set_back. rewrite E. apply (set_back_geo sg g g0 r H E Hs Hg). Qed.
Lemma back_seg_geo sg g0 r : sgeo sg -> sg_segs sg = g0 :: r -> seg_geo (length (sg_input sg)) g0.
Proof. intros (_ & Hf) E. rewrite E in Hf. inversion Hf; assumption. Qed.

Lemma round_eq o h sg : seg_round cfg o h sg = fallback_proceed (abc_proceed cfg sg).
Proof. unfold seg_round. rewrite Hseg. reflexivity. Qed.

Lemma reset_input_lfit b sg ni :
  sgeo sg -> lfit b (sg_input sg) (sg_segs sg) -> lfit b ni (sg_segs (reset_input sg ni)).
Proof.
  intros (Hc & Hf) H. unfold reset_input.
  destruct (dispose_geo (sg_segs sg) (common_prefix (sg_input sg) ni) (length (sg_input sg)) Hc Hf) as (_ & D2 & _).
  pose proof (dispose_Forall (sg_segs sg) (common_prefix (sg_input sg) ni) H) as D3.
  destruct (dispose (sg_segs sg) (common_prefix (sg_input sg) ni)) as [l k]. cbn [fst] in *.
  assert (H1 : lfit b ni l).
  { apply (lfit_ext b _ (sg_input sg) ni l (same_prefix_common _ _)); [|exact D3].
    eapply Forall_impl; [|exact D2]. intros a (_ & X). lia. }
  destruct (0 <? k); cbn [sg_segs]; [|exact H1]. apply (forward_lfit b ni (sg_with_segs sg l)). exact H1.
Qed.

Definition seg_fit (b : bool) (inp : bytes) (x : segmentation) : Prop :=
  sgeo x /\ sg_input x = inp /\ lfit b inp (sg_segs x).

Lemma forward_seg_fit b inp x : seg_fit b inp x -> seg_fit b inp (fst (forward x)).
Proof. intros (G & E & L). split; [apply forward_geo, G|]. split; [rewrite forward_input; exact E | apply forward_lfit, L]. Qed.

Lemma round_seg_fit b inp o h x : seg_fit b inp x -> seg_fit b inp (seg_round cfg o h x).
Proof.
  intros (G & <- & L). rewrite round_eq.
  pose proof (abc_proceed_geo cfg x G) as Ga. pose proof (abc_proceed_lfit b x L) as La. pose proof (abc_none x) as Hn.
  rewrite <- (abc_proceed_input cfg x) in La, Hn |- *. rewrite <- (abc_proceed_cur_start cfg x) in Hn.
  split; [apply fallback_proceed_geo, Ga|]. split; [apply fallback_proceed_input | apply fallback_proceed_lfit; assumption].
Qed.

Lemma calc_loop_lfit b o h fuel caret sg :
  sgeo sg -> lfit b (sg_input sg) (sg_segs sg) ->
  lfit b (sg_input sg) (sg_segs (fst (calc_loop cfg o h fuel caret sg))).
Proof.
  intros H L. apply (calc_loop_round_ind cfg (seg_fit b (sg_input sg)) o h); [apply forward_seg_fit | apply round_seg_fit|].
  split; [exact H|]. split; [reflexivity | exact L].
Qed.

Lemma calc_segmentation_lfit b o h caret sg :
  sgeo sg -> lfit b (sg_input sg) (sg_segs sg) ->
  lfit b (sg_input sg) (sg_segs (fst (calc_segmentation cfg o h caret sg))) /\
  last_ok (sg_segs (fst (calc_segmentation cfg o h caret sg))).
Proof using Hlen Hdel Hhg Hkg Hseg Hfit.
  intros H L. rewrite calc_segmentation_post. cbn [fst]. split; [|apply post_calc_last].
  apply post_calc_lfit, calc_loop_lfit; assumption.
Qed.

Lemma calc_loop_first (P : segmentation -> Prop) o h f caret sg :
  (forall x, P x -> P (fst (forward x))) -> (forall x, P x -> P (seg_round cfg o h x)) ->
  has_finished sg = false -> P (seg_round cfg o h sg) -> P (fst (calc_loop cfg o h (S f) caret sg)).
Proof.
  intros Hfw Hr Hn H1. cbn [calc_loop]. rewrite Hn. destruct (cur_start sg =? _); [exact H1|]. destruct (caret <=? _); [exact H1|].
  apply calc_loop_round_ind; try assumption. destruct (has_finished (seg_round cfg o h sg)); [exact H1 | apply Hfw, H1].
Qed.

(** the first round at an empty Void segment on top of a raw one whose bytes, and the next one, abc_segmentor
    refuses: fallback_segmentor lets the raw segment swallow the next byte, whatever its status and menu were *)
Lemma calc_loop_absorb b o h f caret inp e gb r :
  sgeo (mkSegm inp (new_segment e e :: gb :: r)) -> lfit b inp r ->
  is_raw gb = true -> s_length gb = 1 -> s_start gb < e -> s_end gb = e ->
  (forall p, s_start gb <= p <= e -> unabc inp p) -> e < length inp -> e < caret ->
  lfit b inp (sg_segs (fst (calc_loop cfg o h (S f) caret (mkSegm inp (new_segment e e :: gb :: r))))).
Proof.
  intros G Lr Hraw Hlen1 Hst _ Hun He _.
  assert (Hround : seg_round cfg o h (mkSegm inp (new_segment e e :: gb :: r))
                   = mkSegm inp (seg_with_tags (seg_clear (seg_with_end gb (S e))) [TRaw] :: r)).
  { rewrite round_eq, abc_proceed_unabc by (apply Hun; cbn; lia). apply fallback_absorb; assumption. }
  apply (calc_loop_first (seg_fit b inp) o h); [apply forward_seg_fit | apply round_seg_fit | apply Nat.leb_gt, He|].
  split; [rewrite round_eq; apply fallback_proceed_geo, abc_proceed_geo, G|]. rewrite Hround.
  split; [reflexivity|]. constructor; [apply sfit_raw_extend; [exact Hlen1 | lia | exact Hun] | exact Lr].
Qed.

Lemma translate_one_sfit o inp g :
  seg_geo (length inp) g -> sfit false inp g -> sfit true inp (fst (translate_one translate o inp g)).
Proof.
  intros (A & B) (Ht & Hm). unfold translate_one. destruct (status_geb (s_status g) SGuess) eqn:Es; cbn [fst].
  - split; [exact Ht|]. intros m Em. specialize (Hm m Em). unfold menu_ok in *. destruct (s_status g); try exact Hm. discriminate.
  - unfold substr_se. replace (length inp <? s_start g) with false by (symmetry; apply Nat.ltb_ge; lia).
    replace (s_start g <=? s_end g) with true by (symmetry; apply Nat.leb_le; lia). cbn [fst].
    split; [exact Ht|]. intros m Em. cbn in Em. injection Em as <-. unfold menu_ok. cbn [s_status s_end].
    intros c Hc. apply Hfit in Hc. cbn in Hc. rewrite firstn_length, skipn_length in Hc. lia.
Qed.

Lemma translate_list_lfit o inp l :
  Forall (seg_geo (length inp)) l -> lfit false inp l -> lfit true inp (fst (translate_list translate o inp l)).
Proof.
  induction l as [|g r IH]; intros Hg H; [constructor|]. inversion Hg; subst. inversion H; subst. cbn [translate_list].
  pose proof (translate_one_sfit o inp g H2 H4) as H1. destruct (translate_one translate o inp g) as [g' ok1].
  specialize (IH H3 H5). destruct (translate_list translate o inp r) as [r' ok2]. cbn [fst] in *. constructor; assumption.
Qed.

Lemma translate_list_last o inp l : last_ok l -> last_ok (fst (translate_list translate o inp l)).
Proof.
  destruct l as [|g r]; [intros _; exact I|]. cbn [translate_list]. intros H.
  destruct (translate_one translate o inp g) as [g' ok1] eqn:E1. destruct (translate_list translate o inp r) as [r' ok2].
  cbn [fst last_ok]. unfold translate_one in E1. destruct (status_geb (s_status g) SGuess).
  - injection E1 as <- _. exact H.
  - destruct (substr_se inp (s_start g) (s_end g)). injection E1 as <- _. cbn. discriminate.
Qed.

Definition compose_sg1 (c : context) : segmentation :=
  let sg0 := reset_input (cx_comp c) (firstn (cx_caret c) (cx_input c)) in
  if (cx_caret c <? length (cx_input c)) && (cx_caret c =? confirmed_pos sg0)
  then reset_input sg0 (cx_input c) else sg0.

Lemma compose_sg1_facts c :
  sgeo (cx_comp c) -> sgeo (compose_sg1 c) /\ sg_input (compose_sg1 c) = firstn (length (sg_input (compose_sg1 c))) (cx_input c).
Proof.
  intros Hgeo. unfold compose_sg1.
  set (sg0 := reset_input (cx_comp c) (firstn (cx_caret c) (cx_input c))).
  assert (G0 : sgeo sg0) by (apply reset_input_geo, Hgeo).
  destruct (_ && _).
  - split; [apply reset_input_geo, G0|]. rewrite reset_input_input. symmetry. apply firstn_all.
  - split; [exact G0|]. subst sg0. rewrite reset_input_input. symmetry. apply firstn_firstn_len.
Qed.

Lemma compose_fit_core c :
  cx_err c = None -> sgeo (cx_comp c) ->
  lfit false (sg_input (compose_sg1 c))
       (sg_segs (fst (calc_loop cfg (cx_opts c) (cx_hist c) (S (length (sg_input (compose_sg1 c)))) (cx_caret c) (compose_sg1 c)))) ->
  fit (compose cfg translate c).
Proof.
  intros He Hgeo L. unfold compose.
  assert (Hhook : forall x, fit x -> fit (ac_on_update x))
    by (intros x Hx; unfold ac_on_update; destruct (cx_conn x && negb (is_composing x)); exact Hx).
  apply Hhook. clear Hhook.
  destruct (compose_sg1_facts c Hgeo) as (G1 & P1).
  unfold compose_core. fold (compose_sg1 c). set (sg1 := compose_sg1 c) in *.
  destruct ((calc_segmentation_geo cfg) (cx_opts c) (cx_hist c) (cx_caret c) sg1 G1) as (G2 & O2).
  pose proof (calc_segmentation_input cfg (cx_opts c) (cx_hist c) (cx_caret c) sg1) as I2.
  pose proof (calc_segmentation_post (cx_opts c) (cx_hist c) (cx_caret c) sg1) as Epost.
  destruct (calc_segmentation cfg (cx_opts c) (cx_hist c) (cx_caret c) sg1) as [sg2 okf]. cbn [fst snd] in *. subst okf.
  injection Epost as E2 _.
  destruct ((translate_segs_geo translate) (cx_opts c) sg2 G2) as (G3 & O3).
  unfold translate_segs in *.
  pose proof (translate_list_lfit (cx_opts c) (sg_input sg2) (sg_segs sg2) (proj2 G2)) as L3.
  pose proof (translate_list_last (cx_opts c) (sg_input sg2) (sg_segs sg2)) as K3.
  destruct (translate_list translate (cx_opts c) (sg_input sg2) (sg_segs sg2)) as [l oks]. cbn [fst snd] in *. subst oks.
  cbn [ctx_check]. split; [exact He|]. cbn [ctx_with_comp cx_comp sg_with_segs sg_input sg_segs].
  split; [apply L3; rewrite I2, E2; apply post_calc_lfit, L|]. split; [apply K3; rewrite E2; apply post_calc_last|].
  unfold prefix_ok. cbn. rewrite I2. exact P1.
Qed.

Lemma compose_fit_gen c : sgeo (cx_comp c) -> wfit c -> fit (compose cfg translate c).
Proof using Hlen Hdel Hhg Hkg Hseg Hfit.
  intros Hgeo (He & L). apply compose_fit_core; [exact He | exact Hgeo|].
  destruct (compose_sg1_facts c Hgeo) as (G1 & _). apply calc_loop_lfit; [exact G1|].
  unfold compose_sg1.
  set (sg0 := reset_input (cx_comp c) (firstn (cx_caret c) (cx_input c))).
  assert (G0 : sgeo sg0) by (apply reset_input_geo, Hgeo).
  assert (L0 : lfit false (sg_input sg0) (sg_segs sg0)).
  { subst sg0. rewrite reset_input_input. apply reset_input_lfit; assumption. }
  destruct (_ && _); [|exact L0]. rewrite reset_input_input. apply reset_input_lfit; assumption.
Qed.

Lemma compose_fit c : cpreT c -> wfit c -> fit (compose cfg translate c).
Proof using Hlen Hdel Hhg Hkg Hseg Hfit. intros (_ & _ & _ & _ & _ & G) W. apply compose_fit_gen; [apply G, I | exact W]. Qed.

Lemma wfit_with_input c i k : wfit c -> wfit (ctx_with_input c i k).
Proof. intros H; exact H. Qed.

Lemma compose_absorb c gb r e :
  sg_segs (cx_comp c) = new_segment e e :: gb :: r ->
  sgeo (cx_comp c) -> prefix_ok c -> cx_err c = None ->
  lfit false (sg_input (cx_comp c)) r ->
  closed gb = true -> s_end gb = e -> is_raw gb = true -> s_length gb = 1 -> s_start gb < e ->
  (forall p, s_start gb <= p <= e -> unabc (sg_input (cx_comp c)) p) ->
  e < length (sg_input (cx_comp c)) -> e < cx_caret c -> cx_caret c <= length (cx_input c) ->
  fit (compose cfg translate c).
Proof using Hlen Hdel Hhg Hkg Hseg Hfit.
  intros Es Hgeo P He Lr Hcl Hend Hraw Hlen1 Hst Hun Hen Hek Hka.
  apply compose_fit_core; [exact He | exact Hgeo|].
  destruct (compose_sg1_facts c Hgeo) as (G1 & _).
  set (inp1 := firstn (cx_caret c) (cx_input c)).
  assert (Hl1 : length inp1 = cx_caret c) by apply firstn_length_le, Hka.
  (* nothing is disposed of, and the caret is not at the confirmed position *)
  assert (Esg1 : compose_sg1 c = mkSegm inp1 (new_segment e e :: gb :: r)).
  { unfold compose_sg1. fold inp1. rewrite reset_input_keep.
    - rewrite Es. unfold confirmed_pos. cbn [sg_segs confirmed_pos_rev s_status new_segment].
      change (status_geb SVoid SSelected) with false. cbv iota. fold (closed gb). rewrite Hcl, Hend.
      rewrite (proj2 (Nat.eqb_neq (cx_caret c) e)) by apply Nat.neq_sym, Nat.lt_neq, Hek. rewrite andb_false_r. reflexivity.
    - unfold cur_end, inp1. rewrite Es, P, common_prefix_firstn2. cbn [s_end new_segment]. clear - Hen Hek Hka. lia. }
  (* the composition's input and the new one are prefixes of the context's input, both longer than [e] *)
  assert (Hag : same_prefix (S e) (sg_input (cx_comp c)) inp1).
  { unfold inp1. rewrite P. apply same_prefix_firstn; [exact Hen | exact Hek | exact (Nat.le_trans _ _ _ Hek Hka)]. }
  rewrite Esg1 in *. cbn [sg_input]. rewrite Hl1. apply calc_loop_absorb; try assumption; [| |rewrite Hl1; exact Hek].
  - destruct Hgeo as (Hc & Hf). rewrite Es in Hc, Hf. inversion Hf as [|? ? _ Hf1]; subst.
    apply (lfit_ext false _ _ inp1 r Hag); [|exact Lr].
    eapply Forall_impl; [|exact (chain_ends_le _ gb r (proj2 Hc) Hf1)]. intros g Hg. cbv beta in Hg. clear - Hg Hst. lia.
  - intros p Hp. apply (unabc_ext _ _ inp1 p Hag); [apply Nat.lt_succ_r, Hp | apply Hun, Hp].
Qed.

Definition good (c : context) : Prop := cinvT c /\ fit c.
Definition sgood (s : state) : Prop := good (st_ctx s).

Lemma compose_input_fit c i k : cinvT c -> fit c -> fit (compose cfg translate (ctx_with_input c i k)).
Proof. intros H F. apply compose_fit_gen; [apply (good_geo c H) | apply fit_wfit in F; exact F]. Qed.

Lemma compose_good c : cinvT c -> wfit c -> good (compose cfg translate c).
Proof.
  intros H W. split; [wf compose_inv; apply H|]. apply compose_fit_gen; [apply (good_geo c H) | exact W].
Qed.

Lemma push_input_good c ch : good c -> good (push_input cfg translate c ch).
Proof.
  intros (H & F). split; [wf push_input_inv|]. unfold push_input.
  destruct (length (cx_input c) <=? cx_caret c); apply compose_input_fit; assumption.
Qed.
Lemma pop_input_good c n : good c -> good (fst (pop_input cfg translate c n)).
Proof.
  intros (H & F). split; [wf pop_input_inv|]. unfold pop_input.
  destruct (cx_caret c <? n); [exact F|]. cbn [fst]. apply compose_input_fit; assumption.
Qed.
Lemma delete_input_good c n : good c -> good (fst (delete_input cfg translate c n)).
Proof.
  intros (H & F). split; [wf delete_input_inv|]. unfold delete_input.
  destruct (length (cx_input c) <? cx_caret c + n); [exact F|]. cbn [fst]. apply compose_input_fit; assumption.
Qed.
Lemma set_caret_pos_good c pos : good c -> good (set_caret_pos cfg translate c pos).
Proof. intros (H & F). split; [wf set_caret_pos_inv|]. unfold set_caret_pos. apply compose_input_fit; assumption. Qed.
Lemma set_input_good c v : good c -> good (set_input cfg translate c v).
Proof. intros (H & F). split; [wf set_input_inv|]. unfold set_input. apply compose_input_fit; assumption. Qed.

Lemma clear_fit c : cx_err c = None -> fit (clear cfg translate c).
Proof.
  intros He. unfold clear. apply compose_fit_gen; [split; constructor|]. split; [exact He | constructor].
Qed.
Lemma clear_good c : good c -> good (clear cfg translate c).
Proof. intros (H & F). split; [wf clear_inv | apply clear_fit, F]. Qed.

Lemma clear_previous_segment_good c : good c -> good (fst (clear_previous_segment cfg translate c)).
Proof.
  intros G. unfold clear_previous_segment. destruct (sg_segs (cx_comp c)) as [|g r]; [exact G|].
  destruct (length (cx_input c) <=? s_start g); [exact G|]. cbn [fst]. apply set_input_good, G.
Qed.

Lemma fit_with_comp c sg :
  cx_err c = None -> prefix_ok c -> sg_input sg = sg_input (cx_comp c) ->
  lfit true (sg_input sg) (sg_segs sg) -> last_ok (sg_segs sg) -> fit (ctx_with_comp c sg).
Proof. intros He P Ei L K. split; [exact He|]. split; [exact L|]. split; [exact K|]. unfold prefix_ok. cbn. rewrite Ei. exact P. Qed.

Lemma fit_set_back c g0 r g :
  fit c -> sg_segs (cx_comp c) = g0 :: r -> sfit true (sg_input (cx_comp c)) g ->
  (closed g = true -> s_start g = s_end g) ->
  fit (ctx_with_comp c (sg_set_back (cx_comp c) g)).
Proof.
  intros (He & L & K & P) E Hg Hc. apply fit_with_comp; try assumption; [apply set_back_input | |].
  - rewrite set_back_input. apply set_back_lfit; assumption.
  - unfold sg_set_back. rewrite E. exact Hc.
Qed.

Lemma back_of_fit c g r :
  fit c -> sg_segs (cx_comp c) = g :: r ->
  sfit true (sg_input (cx_comp c)) g /\ (closed g = true -> s_start g = s_end g).
Proof. intros (_ & L & K & _) E. rewrite E in L, K. inversion L; subst. split; assumption. Qed.

Lemma with_back_fit c f :
  fit c ->
  (forall g, sfit true (sg_input (cx_comp c)) g -> (closed g = true -> s_start g = s_end g) ->
             sfit true (sg_input (cx_comp c)) (f g) /\ closed (f g) = closed g /\ s_start (f g) = s_start g /\ s_end (f g) = s_end g) ->
  fit (with_back c f).
Proof.
  intros F Hf. unfold with_back. destruct (sg_segs (cx_comp c)) as [|g r] eqn:E; [exact F|].
  destruct (back_of_fit c g r F E) as (Hg & Hc). destruct (Hf g Hg Hc) as (A & B & C & D).
  apply (fit_set_back c g r); auto. rewrite B, C, D. exact Hc.
Qed.

Lemma set_sel_paging_fit c z : fit c -> fit (set_sel_paging c z).
Proof.
  intros F. apply with_back_fit; [exact F|]. intros g Hg Hc. split; [|repeat split; reflexivity].
  apply (sfit_tags_insert true _ (seg_with_sel g (size_of_int z)) TPaging); [discriminate|]. apply sel_sfit; assumption.
Qed.

Lemma set_back_cinv c g0 r g :
  cinvT c -> sg_segs (cx_comp c) = g0 :: r -> seg_inv cfg MPf g -> s_start g = s_start g0 -> s_end g = s_end g0 ->
  cinvT (ctx_with_comp c (sg_set_back (cx_comp c) g)).
Proof.
  intros H E Hg E1 E2.
  assert (Hbg : True -> back_geo_ok c g).
  { intros _. wf back_geo_same. intros g1 r1 X. rewrite E in X. injection X as <- <-. split; assumption. }
  wf cinv_set_back.
Qed.

Lemma sel_previous_page_fit c : fit c -> fit (fst (sel_previous_page cfg c)).
Proof.
  intros F. unfold sel_previous_page.
  destruct (sg_segs (cx_comp c)) as [|s0 r0]; [exact F|]. cbn [fst]. apply set_sel_paging_fit, F.
Qed.
Lemma sel_next_page_fit c : fit c -> fit (fst (sel_next_page cfg c)).
Proof.
  intros F. unfold sel_next_page.
  destruct (sg_segs (cx_comp c)) as [|s0 r0]; [exact F|]. destruct (s_menu s0); [|exact F].
  match goal with |- fit (fst (if ?a then (if ?b then _ else _) else if ?d then _ else _)) =>
    destruct a; [destruct b|destruct d] end; cbn [fst]; try exact F; apply set_sel_paging_fit, F.
Qed.
Lemma sel_previous_candidate_fit c : fit c -> fit (fst (sel_previous_candidate c)).
Proof.
  intros F. unfold sel_previous_candidate.
  destruct (is_linear_layout c && negb (caret_at_end_of_input c)); [exact F|].
  destruct (sg_segs (cx_comp c)) as [|s0 r0]; [exact F|]. destruct (int_of_size (s_sel s0) <=? 0)%Z; [exact F|]. cbn [fst].
  apply set_sel_paging_fit, F.
Qed.
Lemma sel_next_candidate_fit c : fit c -> fit (fst (sel_next_candidate c)).
Proof.
  intros F. unfold sel_next_candidate.
  destruct (is_linear_layout c && negb (caret_at_end_of_input c)); [exact F|].
  destruct (sg_segs (cx_comp c)) as [|s0 r0]; [exact F|]. destruct (s_menu s0); [|exact F].
  match goal with |- fit (fst (if ?a then _ else _)) => destruct a end; [exact F|]. cbn [fst]. apply set_sel_paging_fit, F.
Qed.
Lemma sel_home_fit c : fit c -> fit (fst (sel_home c)).
Proof.
  intros F. unfold sel_home.
  destruct (sg_segs (cx_comp c)) as [|s0 r0]; [exact F|]. destruct (0 <? s_sel s0)%N; [|exact F]. cbn [fst].
  apply with_back_fit; [exact F|]. intros g Hg Hc. split; [apply sel_sfit; assumption | repeat split; reflexivity].
Qed.
Lemma sel_end_fit c : fit c -> fit (fst (sel_end c)).
Proof. intros F. unfold sel_end. destruct (cx_caret c <? length (cx_input c)); [exact F | apply sel_home_fit, F]. Qed.

Lemma run_sel_action_good s a : sgood s -> sgood (fst (run_sel_action cfg s a)).
Proof.
  intros (H & F). split; [wf run_sel_action_inv|].
  destruct a; cbn [run_sel_action]; try exact F; apply (on_ctx_b_keeps (fun x => fit (st_ctx x))); try exact F; intros x.
  - apply sel_previous_candidate_fit.
  - apply sel_next_candidate_fit.
  - apply sel_previous_page_fit.
  - apply sel_next_page_fit.
  - apply sel_home_fit.
  - apply sel_end_fit.
Qed.

Lemma highlight_good c i : good c -> good (fst (highlight cfg translate c i)).
Proof.
  intros (H & F). split; [wf highlight_inv|]. unfold highlight.
  destruct (sg_segs (cx_comp c)) as [|g r] eqn:E; [exact F|]. destruct (s_menu g); [|exact F].
  match goal with |- fit (fst (if ?a then _ else _)) => destruct a end; [exact F|]. cbn [fst].
  destruct (back_of_fit c g r F E) as (Hg & Hc). destruct (good_geo c H) as (Hgeo & _).
  apply compose_fit_gen.
  - cbn [ctx_with_comp cx_comp]. apply (set_back_sgeo _ (seg_with_sel g _) g r Hgeo E eq_refl), (back_seg_geo _ g r Hgeo E).
  - apply fit_wfit. apply (fit_set_back c g r); auto. apply sel_sfit; assumption.
Qed.

Lemma delete_candidate_good s i : sgood s -> sgood (fst (delete_candidate cfg s i)).
Proof.
  intros (H & F). split; [wf delete_candidate_inv|]. unfold delete_candidate.
  destruct (sg_segs (cx_comp (st_ctx s))) as [|g r] eqn:E; [exact F|]. rewrite Hdel.
  destruct (cand_at g i); [|exact F]. cbn [fst st_ctx st_with_ctx].
  destruct (back_of_fit _ g r F E) as (Hg & Hc). apply (fit_set_back _ g r); auto. apply sel_sfit; assumption.
Qed.

Lemma begin_editing_good c : good c -> good (begin_editing c).
Proof.
  intros (H & He & L & K & P). split; [wf begin_editing_inv|].
  apply fit_with_comp; try assumption; [reflexivity | apply begin_editing_rev_lfit, L | apply begin_editing_rev_last, K].
Qed.

Lemma reopen_previous_segment_good c : good c -> good (fst (reopen_previous_segment cfg translate c)).
Proof.
  intros (H & F). split; [wf reopen_previous_segment_inv|]. unfold reopen_previous_segment.
  destruct (good_geo c H) as (Hgeo & Hcar). destruct F as (He & L & K & P).
  pose proof (trim_lfit true _ (cx_comp c) L) as Lt. pose proof (trim_geo (cx_comp c) Hgeo) as Gt.
  pose proof (trim_input (cx_comp c)) as Ei.
  destruct (trim (cx_comp c)) as [sg trimmed]. cbn [fst] in *. destruct trimmed; [|split; [|split; [|split]]; assumption]. cbn [fst].
  rewrite <- Ei in Lt, Hcar. pose proof (lfit_weaken _ _ Lt) as Lw.
  set (sg' := match sg_segs sg with [] => sg | _ => _ end).
  assert (X : sgeo sg' /\ lfit false (sg_input sg') (sg_segs sg')).
  { subst sg'. destruct (sg_segs sg) as [|g r] eqn:E; [rewrite E; split; assumption|].
    destruct (status_geb (s_status g) SSelected); [|rewrite E; split; assumption].
    destruct (seg_reopen_geo _ g (cx_caret c) (back_seg_geo sg g r Gt E) Hcar) as (R1 & R2).
    split; [apply (set_back_sgeo sg _ g r Gt E R1 R2)|]. rewrite set_back_input. apply set_back_lfit; [rewrite E; exact Lw|].
    apply seg_reopen_sfit. inversion Lt; assumption. }
  apply compose_fit_gen; [apply X | split; [exact He | apply X]].
Qed.

Lemma reopen_previous_selection_good c : good c -> good (fst (reopen_previous_selection cfg translate c)).
Proof.
  intros (H & F). split; [wf reopen_previous_selection_inv|]. unfold reopen_previous_selection.
  destruct (reopen_sel_rev (sg_segs (cx_comp c)) (cx_caret c)) as [l|] eqn:E; [|exact F]. cbn [fst].
  destruct (good_geo c H) as ((Hc0 & Hf0) & Hcar). destruct F as (He & L & K & P).
  destruct (reopen_sel_rev_geo _ _ _ _ Hc0 Hf0 Hcar E) as (R1 & R2).
  apply compose_fit_gen; [split; assumption|]. split; [exact He|]. cbn. apply (reopen_sel_rev_lfit _ _ _ _ L E).
Qed.

Lemma clear_non_confirmed_good c : good c -> good (fst (clear_non_confirmed c)).
Proof.
  intros (H & F). split; [wf clear_non_confirmed_inv|]. unfold clear_non_confirmed.
  destruct F as (He & L & K & P). pose proof (drop_unselected_lfit true _ _ L) as Ld.
  destruct (drop_unselected (sg_segs (cx_comp c))) as [l reverted]. cbn [fst] in Ld.
  destruct reverted; [|split; [|split; [|split]]; assumption]. cbn [fst].
  apply fit_with_comp; try assumption; [exact (forward_input (sg_with_segs (cx_comp c) l)) | | apply forward_last].
  rewrite forward_input. apply (forward_lfit true _ (sg_with_segs (cx_comp c) l)), Ld.
Qed.

Lemma refresh_non_confirmed_good c : good c -> good (fst (refresh_non_confirmed cfg translate c)).
Proof.
  intros G. unfold refresh_non_confirmed. pose proof (clear_non_confirmed_good c G) as (H1 & F1).
  destruct (clear_non_confirmed c) as [c1 reverted]. cbn [fst] in *.
  destruct reverted; [|exact G]. cbn [fst]. apply compose_good; [exact H1 | apply fit_wfit, F1].
Qed.

Lemma set_option_good c n v : good c -> good (set_option cfg translate c n v).
Proof.
  intros G. unfold set_option. destruct (is_composing _); [|exact G].
  apply (refresh_non_confirmed_good (ctx_with_opts c (opts_set (cx_opts c) n v))). exact G.
Qed.

Lemma ctx_commit_text_ok c : cinvT c -> snd (ctx_commit_text c) = true.
Proof.
  intros H. unfold ctx_commit_text. destruct (get_option c opt_dumb); [reflexivity|].
  apply comp_commit_text_ok, (good_geo c H).
Qed.

(** commit needs only the first invariant and a clear error flag: neither substr of CommitHistory::Push and
    GetCommitText is out of range, and Clear composes an empty composition *)
Lemma commit_good_gen s :
  sinvT s -> cx_err (st_ctx s) = None -> is_composing (st_ctx s) = true -> sgood (fst (commit cfg translate s)).
Proof.
  intros H He Hc. split; [wf commit_inv|]. unfold commit. rewrite Hc. cbn [negb].
  (* the commit history's record lies inside the input (geometry), and [last] never dangles (source fact) *)
  pose proof (hist_push_comp_in (cf_hist_guard cfg) (cx_hist (st_ctx s)) _ _ (proj1 (good_geo _ H)) (proj1 (proj2 H))) as O1.
  assert (O2 : snd (hist_push_comp (cf_hist_guard cfg) (cx_hist (st_ctx s)) (cx_comp (st_ctx s)) (cx_input (st_ctx s))) = true)
    by (rewrite Hhg; wf hist_push_comp_live).
  destruct (hist_push_comp (cf_hist_guard cfg) (cx_hist (st_ctx s)) (cx_comp (st_ctx s)) (cx_input (st_ctx s))) as [[h okh] live].
  cbn [fst snd] in O1, O2. subst okh live. cbn [ctx_check].
  pose proof (ctx_commit_text_ok (ctx_with_hist (st_ctx s) h) H) as Hok.
  destruct (ctx_commit_text (ctx_with_hist (st_ctx s) h)) as [text ok]. cbn [snd] in Hok. subst ok.
  cbn [fst st_ctx st_with_ctx sink ctx_check]. apply clear_fit. exact He.
Qed.

Lemma commit_good s : sgood s -> sgood (fst (commit cfg translate s)).
Proof.
  intros (H & F). destruct (is_composing (st_ctx s)) eqn:Hc; [apply commit_good_gen; [exact H | apply F | exact Hc]|].
  unfold commit. rewrite Hc. split; assumption.
Qed.

Lemma on_select_ctx s g0 r : sg_segs (cx_comp (st_ctx s)) = g0 :: r ->
  st_ctx (on_select cfg translate s) =
  let c := st_ctx s in
  let g := seg_close g0 in
  if s_end g =? length (cx_input c) then
    let c1 := ctx_with_comp c (sg_set_back (cx_comp c) (seg_with_status g SConfirmed)) in
    if get_option c1 opt_auto_commit then st_ctx (fst (commit cfg translate (st_with_ctx s c1)))
    else ctx_with_comp c1 (fst (forward (cx_comp c1)))
  else
    let c1 := ctx_with_comp c (fst (forward (sg_set_back (cx_comp c) g))) in
    compose cfg translate (ctx_with_input c1 (cx_input c) (if cx_caret c <=? s_end g then length (cx_input c) else cx_caret c)).
Proof.
  intros E. unfold on_select. rewrite E. cbv zeta. cbn [st_ctx].
  destruct (_ =? _); [destruct (get_option _ _); reflexivity|].
  destruct (_ <=? _); [|reflexivity]. cbn [st_ctx st_with_ctx]. unfold set_caret_pos. cbn [ctx_with_comp cx_input].
  rewrite Nat.ltb_irrefl. reflexivity.
Qed.

Lemma on_select_good s g0 r :
  sinvT s -> cx_err (st_ctx s) = None -> sg_segs (cx_comp (st_ctx s)) = g0 :: r ->
  lfit true (sg_input (cx_comp (st_ctx s))) (g0 :: r) -> closed g0 = true -> prefix_ok (st_ctx s) ->
  sgood (on_select cfg translate s).
Proof.
  intros H He E L Hcl P.
  split; [wf on_select_inv; rewrite E; discriminate|]. rewrite (on_select_ctx s g0 r E). cbv zeta.
  set (c := st_ctx s) in *.
  destruct (good_geo c H) as (Hgeo & Hcar).
  assert (Hlen2 : length (sg_input (cx_comp c)) <= length (cx_input c)) by apply H.
  assert (Hcin : cx_caret c <= length (cx_input c)) by apply H.
  assert (Hsi : seg_inv cfg MPf g0) by (wf back_inv).
  pose proof (back_seg_geo _ g0 r Hgeo E) as Hg0.
  destruct (g_seg_close _ g0 Hsi Hg0) as (C1 & C2).
  inversion L as [|? ? Lg0 Lr]; subst.
  destruct (s_end (seg_close g0) =? length (cx_input c)) eqn:Eend.
  - (* the whole input is covered, so Close has cut nothing: Confirmed *)
    apply Nat.eqb_eq in Eend.
    assert (Eg : seg_close g0 = g0).
    { destruct (seg_close_cases g0) as [X | (cd & _ & X1 & X2)]; [exact X|]. rewrite X2 in Eend. cbn in Eend. destruct Hg0. lia. }
    rewrite Eg.
    set (c1 := ctx_with_comp c (sg_set_back (cx_comp c) (seg_with_status g0 SConfirmed))).
    assert (Hb : sfit true (sg_input (cx_comp c)) (seg_with_status g0 SConfirmed)) by (apply sfit_confirm; assumption).
    destruct (get_option c1 opt_auto_commit).
    + apply (commit_good_gen (st_with_ctx s c1)); [|exact He|].
      * apply (set_back_cinv c g0 r _ H E); [wf seg_inv_status | reflexivity | reflexivity].
      * unfold is_composing, c1, sg_empty, sg_set_back. cbn [st_ctx st_with_ctx ctx_with_comp cx_comp]. rewrite E. cbn. apply orb_true_r.
    + unfold c1. cbn [ctx_with_comp cx_comp].
      apply (fit_with_comp c); try assumption; [rewrite forward_input; apply set_back_input | | apply forward_last].
      rewrite forward_input, set_back_input. apply forward_lfit, set_back_lfit; [rewrite E; exact L | exact Hb].
  - apply Nat.eqb_neq in Eend. set (g := seg_close g0) in *.
    set (k := if cx_caret c <=? s_end g then length (cx_input c) else cx_caret c).
    assert (Hk : s_end g < k <= length (cx_input c)).
    { subst k. destruct C2. destruct (cx_caret c <=? s_end g) eqn:Er; [|apply Nat.leb_gt in Er]; lia. }
    assert (G1 : sgeo (fst (forward (sg_set_back (cx_comp c) g)))) by apply forward_geo, (set_back_sgeo _ g g0 r Hgeo E C1 C2).
    pose proof (seg_close_sfit (sg_input (cx_comp c)) g0 Hsi Lg0 Hcl) as X. fold g in X. destruct X as [Hg | (Hclg & Hrg & Hlg & Hcd & R3)].
    + apply compose_fit_gen; [exact G1|]. split; [exact He|]. cbn [ctx_with_input ctx_with_comp cx_comp].
      rewrite forward_input, set_back_input. apply forward_lfit, set_back_lfit; [apply lfit_weaken; rewrite E; exact L | apply sfit_weaken, Hg].
    + (* a raw segment with a stale length, cut short: absorbed by the Compose *)
      apply (compose_absorb _ g r (s_end g)); cbn [ctx_with_input ctx_with_comp cx_comp cx_input cx_caret cx_err];
        rewrite ?forward_input, ?set_back_input; try assumption; try reflexivity; try apply Hk.
      * apply (forward_set_back_segs _ g0 r g E). rewrite C1. apply Nat.lt_neq, Hcd.
      * unfold prefix_ok. cbn [ctx_with_input ctx_with_comp cx_comp cx_input]. rewrite forward_input, set_back_input. exact P.
      * apply lfit_weaken, Lr.
      * rewrite C1. apply Hcd.
      * rewrite C1. intros p Hp. apply R3. split; [apply Hp|]. eapply Nat.le_lt_trans; [apply Hp | apply Hcd].
      * eapply Nat.lt_le_trans; [apply Hcd | apply Hg0].
Qed.

(** Context::Select, ConfirmCurrentSelection: the last segment is replaced by a closed one
    of the same extent, then OnSelect *)
Lemma on_select_back_good s g r g' :
  sgood s -> sg_segs (cx_comp (st_ctx s)) = g :: r -> seg_inv cfg MPf g' -> s_start g' = s_start g -> s_end g' = s_end g ->
  sfit true (sg_input (cx_comp (st_ctx s))) g' -> closed g' = true ->
  sgood (on_select cfg translate (st_with_ctx s (ctx_with_comp (st_ctx s) (sg_set_back (cx_comp (st_ctx s)) g')))).
Proof.
  intros (H & He & L & K & P) E Hsi E1 E2 Hg' Hcl. apply (on_select_good _ g' r); try assumption.
  - apply (set_back_cinv _ g r _ H E Hsi E1 E2).
  - cbn. unfold sg_set_back. rewrite E. reflexivity.
  - cbn [st_ctx st_with_ctx ctx_with_comp cx_comp]. rewrite set_back_input. rewrite E in L. inversion L; subst. constructor; assumption.
  - unfold prefix_ok. cbn. rewrite set_back_input. exact P.
Qed.

Lemma select_good s i : sgood s -> sgood (fst (select cfg translate s i)).
Proof.
  intros G. pose proof G as (H & F). unfold select. destruct (sg_segs (cx_comp (st_ctx s))) as [|g r] eqn:E; [exact G|].
  destruct (cand_at g i) as [cd|] eqn:Ec; [|exact G]. cbn [fst].
  assert (Hsi1 : seg_inv cfg MPf (seg_with_sel g i)).
  { wf seg_inv_sel_at; [wf back_inv|]. intros m Hm _. wf cand_at_some. }
  destruct (back_of_fit _ g r F E) as (Hg & Hc).
  apply (on_select_back_good s g r); try assumption; try reflexivity.
  apply to_selected_sfit; [exact Hsi1 | apply sel_sfit; assumption].
Qed.

Lemma confirm_current_selection_good s : sgood s -> sgood (fst (confirm_current_selection cfg translate s)).
Proof.
  intros G. pose proof G as (H & F). unfold confirm_current_selection.
  destruct (sg_segs (cx_comp (st_ctx s))) as [|g r] eqn:E; [exact G|].
  assert (Hsi : seg_inv cfg MPf (seg_with_status g SSelected)) by (wf seg_inv_status; wf back_inv).
  destruct (back_of_fit _ g r F E) as (Hg & Hc).
  assert (Hg2 : sfit true (sg_input (cx_comp (st_ctx s))) (seg_with_status g SSelected)) by (apply to_selected_sfit; [wf back_inv | exact Hg]).
  assert (Hos : sgood (on_select cfg translate (st_with_ctx s (ctx_with_comp (st_ctx s)
                        (sg_set_back (cx_comp (st_ctx s)) (seg_with_status g SSelected))))))
    by (apply (on_select_back_good s g r); try assumption; reflexivity).
  destruct (selected_cand (seg_with_status g SSelected)); cbn [fst]; [exact Hos|].
  destruct (s_end (seg_with_status g SSelected) =? s_start (seg_with_status g SSelected)) eqn:Ee; cbn [fst]; [|exact Hos].
  apply Nat.eqb_eq in Ee. split; [apply (set_back_cinv _ g r _ H E Hsi); reflexivity|]. cbn [st_ctx st_with_ctx].
  apply (fit_set_back _ g r _ F E Hg2). intros _. cbn in Ee |- *. lia.
Qed.

Lemma fit_sel_in c : cinvT c -> fit c -> Forall (sel_in (length (sg_input (cx_comp c)))) (segs_fwd (cx_comp c)).
Proof.
  intros H (_ & L & _). destruct (good_geo c H) as ((_ & Hf) & _). unfold segs_fwd. apply Forall_rev.
  unfold lfit in L. rewrite Forall_forall in *. intros g Hg. apply (sfit_sel_in (sg_input (cx_comp c))); auto.
Qed.

Lemma comp_script_text_ok c : cinvT c -> fit c -> snd (comp_script_text (cx_comp c)) = true.
Proof.
  intros H F. unfold comp_script_text.
  pose proof (script_text_loop_ok (sg_input (cx_comp c)) (segs_fwd (cx_comp c)) ([], 0, true) (fit_sel_in c H F)) as X.
  destruct (script_text_loop (sg_input (cx_comp c)) (segs_fwd (cx_comp c)) ([], 0, true)) as [[res en] ok]. cbn [fst snd] in *.
  apply X; [lia | reflexivity].
Qed.

Lemma ctx_preedit_ok c : cinvT c -> fit c -> pe_ok (ctx_preedit c) = true.
Proof.
  intros H F. unfold ctx_preedit, comp_preedit.
  pose proof (preedit_loop_ok (sg_input (cx_comp c)) (cx_input c) (cx_caret c) (segs_fwd (cx_comp c))
                              (mkPacc [] None 0 (Some 0) 0 true) (fit_sel_in c H F) (conj (Nat.le_0_l _) eq_refl)) as X.
  set (a := preedit_loop _ _ _ _ _) in *. clearbody a.
  set (a' := if pa_end a <? length (sg_input (cx_comp c)) then _ else a).
  assert (Y : pa_ok a' = true) by (subst a'; destruct (pa_end a <? _); [cbn|]; exact X). clearbody a'.
  destruct (_ ++ comp_prompt (cx_comp c)); cbn; exact Y.
Qed.

Lemma view_no_err s : sgood s -> snd (view_of cfg s) = None.
Proof.
  intros (H & F). unfold view_of. pose proof (ctx_commit_text_ok (st_ctx s) H) as H2.
  destruct (ctx_commit_text (st_ctx s)) as [pv ok2]. cbn [snd] in H2. subst ok2.
  assert (Hm : snd (menu_view cfg (st_ctx s)) = true) by (wf menu_view_ok). destruct (menu_view cfg (st_ctx s)) as [mv ok3]. cbn [snd] in *. subst ok3.
  rewrite (ctx_preedit_ok (st_ctx s) H F). cbn. rewrite andb_false_r. reflexivity.
Qed.

Lemma sgood_hist s h : sgood s -> sgood (on_ctx s (fun c => ctx_with_hist c h)).
Proof. intros H; exact H. Qed.

(** the processors and the API: [sgood] is kept by every operation TotalLift.v asks for *)
Lemma paging_good c : good c -> good (with_back c (fun g => seg_with_tags g (tag_insert TPaging (s_tags g)))).
Proof.
  intros (H & F). split.
  - unfold with_back. destruct (sg_segs (cx_comp c)) as [|g r] eqn:E; [exact H|].
    apply (set_back_cinv c g r _ H E); [wf seg_inv_tags; wf back_inv | reflexivity | reflexivity].
  - apply with_back_fit; [exact F|]. intros g Hg _. split; [|repeat split; reflexivity].
    apply sfit_tags_insert; [discriminate | exact Hg].
Qed.

Lemma good_kept : kept cfg translate sgood.
Proof.
  refine {| k_push := fun z _ s => push_input_good (st_ctx s) _;
            k_pop := fun n s => pop_input_good (st_ctx s) n;
            k_delete_input := fun n s => delete_input_good (st_ctx s) n;
            k_clear := fun s => clear_good (st_ctx s);
            k_caret := fun pos s => set_caret_pos_good (st_ctx s) pos;
            k_begin_editing := fun s => begin_editing_good (st_ctx s);
            k_reopen_segment := fun s => reopen_previous_segment_good (st_ctx s);
            k_reopen_selection := fun s => reopen_previous_selection_good (st_ctx s);
            k_clear_segment := fun s => clear_previous_segment_good (st_ctx s);
            k_clear_non_confirmed := fun s => clear_non_confirmed_good (st_ctx s);
            k_sel := run_sel_action_good;
            k_select := select_good;
            k_confirm := confirm_current_selection_good;
            k_commit := commit_good;
            k_delete_candidate := delete_candidate_good |}.
  - intros s s' E _ _ H. unfold sgood. rewrite E. exact H.
  - intros s t H. exact H.
  - intros s H. rewrite (comp_script_text_ok (st_ctx s) (proj1 H) (proj2 H)). exact H.
Qed.

Lemma good_kept_api : kept_api cfg translate sgood (fun _ => True).
Proof.
  refine {| k_option := fun n v s => set_option_good (st_ctx s) n v;
            k_conn := fun b s H => H;
            k_hist := fun h s => sgood_hist s h;
            k_set_input := fun v _ s => set_input_good (st_ctx s) v;
            k_highlight := fun i s => highlight_good (st_ctx s) i;
            k_paging := fun s => paging_good (st_ctx s) |}.
  - intros s v H. exact H.
  - intros X. congruence.
  - intros X. destruct (Hnp X).
Qed.

Lemma exec_good s o : sgood s -> sgood (fst (exec cfg translate s o)).
Proof. intros H. apply (exec_keeps cfg translate sgood good_kept _ good_kept_api); [intros; exact I | intros _; exact H | exact H]. Qed.

Lemma init_good : sgood (init_state cfg).
Proof.
  split; [wf init_inv|]. split; [reflexivity|]. split; [constructor|]. split; [exact I | reflexivity].
Qed.

Lemma step_good s o :
  sgood s -> sgood (fst (step cfg translate s o)) /\ exists r v, snd (step cfg translate s o) = Obs r v.
Proof.
  intros H. unfold step. assert (He : cx_err (st_ctx s) = None) by apply H. rewrite He.
  pose proof (exec_good s o H) as H1. destruct (exec cfg translate s o) as [s1 r]. cbn [fst] in H1.
  pose proof (view_no_err s1 H1) as Hv. destruct (view_of cfg s1) as [v ve]. cbn [snd] in Hv. subst ve.
  assert (He1 : cx_err (st_ctx s1) = None) by apply H1. rewrite He1. cbn [fst snd]. split; [exact H1 | eauto].
Qed.

Lemma run_from_total ops : forall s, sgood s ->
  sgood (fst (run_from cfg translate s ops)) /\
  Forall (fun ob => exists r v, ob = Obs r v) (snd (run_from cfg translate s ops)).
Proof.
  induction ops as [|o r IH]; intros s H; [split; [exact H | constructor]|]. cbn [run_from].
  destruct (step_good s o H) as (Hi & Hob). destruct (step cfg translate s o) as [s1 ob]. cbn [fst snd] in *.
  destruct (IH s1 Hi) as (I1 & I2). destruct (run_from cfg translate s1 r) as [s2 obs]. cbn [fst snd] in *.
  split; [exact I1 | constructor; assumption].
Qed.

Theorem total_gen ops : Forall (fun ob => exists r v, ob = Obs r v) (snd (run cfg translate ops)).
Proof using Hps Hlen Hdel Hhg Hkg Hseg Hnp Hfit. apply run_from_total, init_good. Qed.

End Full.

Definition cands_fit (translate : bytes -> seginfo -> list cand) : Prop :=
  forall i s c, In c (translate i s) -> si_start s < c_end c /\ c_end c <= si_start s + length i.

Definition is_obs (o : obs) : bool := match o with ObsCrash _ => false | Obs _ _ => true end.

(** the chains this theorem covers: segmentors [abc_segmentor, fallback_segmentor], any order of
    speller / selector / navigator / editor (key_binder and ascii_composer may be among them), no punctuator,
    and the source facts about CommitHistory::Push and KeyBinder's redirecting_ *)
Definition plain_chain (cfg : config) : Prop :=
  cf_hist_guard cfg = true /\ cf_kb_guard cfg = true /\ cf_segmentors cfg = [SgAbc; SgFallback] /\
  ~ In PPunctuator (cf_processors cfg).

Theorem core_total (cfg : config) (translate : bytes -> seginfo -> list cand) :
  (1 <= cf_page_size cfg)%Z ->
  (forall i s, (Z.of_nat (length (translate i s)) + cf_page_size cfg < 2147483648)%Z) ->
  cf_del_checked cfg = true ->
  plain_chain cfg ->
  cands_fit translate ->
  forall ops, forallb is_obs (snd (run cfg translate ops)) = true.
Proof.
  intros Hps Hlen Hdel (Hhg & Hkg & Hseg & Hnp) Hfit ops. apply forallb_forall. intros o Ho.
  pose proof (total_gen cfg translate Hps Hlen Hdel Hhg Hkg Hseg Hnp Hfit ops) as H. rewrite Forall_forall in H.
  destruct (H o Ho) as (r & v & ->). reflexivity.
Qed.
