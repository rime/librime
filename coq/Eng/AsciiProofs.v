(** Eng/AsciiProofs.v - the configurations with ascii_composer / ascii_segmentor (synth_ascii_express,
    synth_ascii_fluid: the stock chain order) meet the hypotheses of the general theorems of C02 / C01
    (C01's full totality for the plain chain with ascii_composer and key_binder in front: AsciiComposer's
    five switch styles, CommitText and the push of every printable key are compositions of operations
    that keep the invariant pair [good], TotalLift.v), and what the mode-switch keys do to the composition. *)
From Coq Require Import List Arith NArith ZArith Bool Lia.
From Coq.Strings Require Import Byte.
From RimeV Require Import Base.Bytes Eng.Keys Eng.Cand Eng.Menu Eng.Segm Eng.Ctx Eng.Engine Eng.Trans Eng.TransProofs
     Eng.Procs Eng.Api Eng.Oracle Eng.Spec Eng.WfProofs Eng.CommitProofs Eng.InvProofs Eng.TotalFull Eng.TotalProofs.
From RimeV Require Gen.EngFacts.
Import ListNotations.

Lemma synth_ascii_total_hyps fluid dlog :
  total_hyps (synth_ascii_cfg fluid dlog) (synth_translate (synth_ascii_cfg fluid dlog)).
Proof. apply synth_total_hyps; try reflexivity; destruct fluid; cbn; lia. Qed.

(** C02 on the ascii schemas *)
Theorem wf_reported_synth_ascii fluid dlog ops :
  forallb wf_obsb (snd (run (synth_ascii_cfg fluid dlog) (synth_translate (synth_ascii_cfg fluid dlog)) ops)) = true.
Proof. apply wf_reported_hyps, synth_ascii_total_hyps. Qed.

Theorem crash_kinds_synth_ascii fluid dlog ops :
  Forall (crash_kind_ok (synth_ascii_cfg fluid dlog))
         (snd (run (synth_ascii_cfg fluid dlog) (synth_translate (synth_ascii_cfg fluid dlog)) ops)).
Proof. apply crash_kinds_hyps, synth_ascii_total_hyps. Qed.

(** C01: full totality with the ascii composer in front of the plain chain *)
Lemma synth_acplain_chain fluid dlog : plain_chain (synth_acplain_cfg fluid dlog).
Proof. repeat split; try reflexivity. cbn. intuition discriminate. Qed.

Theorem core_total_synth_acplain fluid dlog ops :
  forallb not_crash (snd (run (synth_acplain_cfg fluid dlog) oracle_translate ops)) = true.
Proof.
  apply core_total; [|apply synth_acplain_chain | exact oracle_cands_fit].
  apply oracle_total_hyps; [cbn; lia | reflexivity].
Qed.

(** the constants of AsciiComposer::ProcessKeyEvent that Procs.v writes as literals are the ones in the current source
    (Gen/EngFacts.v, regenerated by gen/eng_facts.py on every run): the 500 ms tap window compared strictly, and the
    range 0x20 <= ch < 0x80 of keys pushed in ascii mode *)
Theorem ascii_source_constants :
  RimeV.Gen.EngFacts.ascii_facts_recognised = true /\ RimeV.Gen.EngFacts.ascii_toggle_window_ms = 500%N /\
  RimeV.Gen.EngFacts.ascii_window_strict = true /\
  RimeV.Gen.EngFacts.ascii_push_lo = 32%Z /\ RimeV.Gen.EngFacts.ascii_push_hi = 128%Z.
Proof. repeat split; reflexivity. Qed.

Section Ascii.
Variable cfg : config.
Variable translate : bytes -> seginfo -> list cand.

(** an "ordinary" key: none of the modifier combinations and special keys ProcessKeyEvent looks at first *)
Definition ordinary_key (k : key) : bool :=
  negb ((k_shift k && k_ctrl k) || k_alt k || k_super k) && negb (k_caps k) && negb (k_ctrl k) &&
  negb (k_shift k && (k_code k =? XK_space)%Z) &&
  negb (existsb (Z.eqb (k_code k)) [XK_Caps_Lock; XK_Eisu_toggle; XK_Shift_L; XK_Shift_R; XK_Control_L; XK_Control_R]).

(** "direct commit": in ascii mode and not composing every ordinary key is rejected *)
Theorem ascii_mode_idle_rejects s k :
  ordinary_key k = true -> get_option (st_ctx s) opt_ascii_mode = true -> is_composing (st_ctx s) = false ->
  ascii_composer_process cfg translate s k = (ac_unpress s, PRejected).
Proof.
  unfold ordinary_key. intros Ho Ha Hc.
  repeat (apply andb_prop in Ho; destruct Ho as (Ho & ?)).
  repeat match goal with H : negb _ = true |- _ => apply negb_true_iff in H end.
  cbn [existsb] in *. repeat match goal with H : _ || _ = false |- _ => apply orb_false_iff in H; destruct H end.
  unfold ascii_composer_process.
  replace ((k_shift k && k_ctrl k) || k_alt k || k_super k) with false
    by (symmetry; repeat (apply orb_false_iff; split); assumption).
  assert (Hcaps : (if ac_style_is_noop (ac_caps_style cfg) then (s, PNoop) else ac_process_caps_lock cfg translate s k) = (s, PNoop)).
  { destruct (ac_style_is_noop (ac_caps_style cfg)); [reflexivity|]. unfold ac_process_caps_lock.
    replace (k_code k =? XK_Caps_Lock)%Z with false by (symmetry; assumption).
    replace (k_caps k) with false by (symmetry; assumption). reflexivity. }
  rewrite Hcaps. cbn [presult_is_noop negb].
  repeat match goal with H : (k_code k =? ?x)%Z = false |- _ => rewrite H; clear H end.
  cbn [orb]. cbv zeta.
  replace (k_ctrl k) with false by (symmetry; assumption).
  match goal with H : k_shift k && (k_code k =? XK_space)%Z = false |- _ => rewrite H end. cbn [orb].
  change (st_ctx (ac_unpress s)) with (st_ctx s). rewrite Ha, Hc. reflexivity.
Qed.

Theorem ac_switch_clear_not_composing s m :
  is_composing (st_ctx s) = true -> is_composing (st_ctx (ac_switch cfg translate s m AcClear)) = false.
Proof.
  intros Hc. unfold ac_switch. rewrite Hc. unfold on_ctx. cbn [st_ctx st_with_ctx].
  set (c1 := clear cfg translate (ctx_with_conn (st_ctx s) false)).
  assert (H1 : is_composing c1 = false) by apply (clear_not_composing cfg translate).
  unfold set_option.
  assert (H2 : is_composing (ctx_with_opts c1 (opts_set (cx_opts c1) opt_ascii_mode m)) = false) by exact H1.
  rewrite H2. exact H2.
Qed.

Lemma opts_get_set o n v : bytes_eqb n n = true -> opts_get (opts_set o n v) n = v.
Proof.
  intros Hn. induction o as [|[m w] r IH]; cbn [opts_set opts_get]; [rewrite Hn; reflexivity|].
  destruct (bytes_eqb m n) eqn:E; cbn [opts_get]; rewrite E; [reflexivity | exact IH].
Qed.

(** the slot inline ascii mode connects to update_notifier_: a Compose that finds the context not composing takes
    the session out of ascii mode and disconnects *)
Theorem inline_leaves_ascii_mode c :
  cx_conn c = true -> is_composing c = false ->
  get_option (ac_on_update c) opt_ascii_mode = false /\ cx_conn (ac_on_update c) = false.
Proof.
  intros H1 H2. unfold ac_on_update. rewrite H1, H2. cbn [andb negb]. split; [|reflexivity].
  apply opts_get_set. reflexivity.
Qed.

(** the tap window: a Shift / Control key released when 500 ms or more have passed since it went down does not
    toggle - the release only clears the pressed flags *)
Theorem tap_window s k :
  negb ((k_shift k && k_ctrl k) || k_alt k || k_super k) = true -> ac_style_is_noop (ac_caps_style cfg) = true ->
  existsb (Z.eqb (k_code k)) [XK_Shift_L; XK_Shift_R; XK_Control_L; XK_Control_R] = true -> k_release k = true ->
  (ac_expire (st_ac s) <= st_clock s)%N ->
  st_ctx (fst (ascii_composer_process cfg translate s k)) = st_ctx s /\ snd (ascii_composer_process cfg translate s k) = PNoop.
Proof.
  intros Hm Hcl Hk Hr Ht. apply negb_true_iff in Hm. unfold ascii_composer_process. rewrite Hm, Hcl.
  cbn [presult_is_noop negb].
  assert (He : (k_code k =? XK_Eisu_toggle)%Z = false).
  { cbn [existsb] in Hk. repeat (apply orb_true_iff in Hk; destruct Hk as [Hk | Hk]); try discriminate Hk;
      apply Z.eqb_eq in Hk; rewrite Hk; reflexivity. }
  rewrite He. cbv zeta.
  assert (Hsc : ((k_code k =? XK_Shift_L)%Z || (k_code k =? XK_Shift_R)%Z) || ((k_code k =? XK_Control_L)%Z || (k_code k =? XK_Control_R)%Z) = true).
  { cbn [existsb] in Hk. rewrite orb_false_r in Hk. rewrite <- !orb_assoc. rewrite !orb_assoc in Hk. rewrite <- !orb_assoc in Hk. exact Hk. }
  rewrite Hsc, Hr.
  replace (st_clock s <? ac_expire (st_ac s))%N with false by (symmetry; apply N.ltb_ge; exact Ht).
  rewrite andb_false_r. destruct (ac_shift (st_ac s) || ac_ctrl (st_ac s)); split; reflexivity.
Qed.

End Ascii.
