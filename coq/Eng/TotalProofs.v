(** Eng/TotalProofs.v – C01 (modelled session core): which undefined / throwing
    C++ operations a history of API calls can reach.

    The model marks four kinds ([Ctx.err]): [ErrNullDeref] (member access
    through a null an<Candidate>), [ErrBadRange] (std::copy with first > last
    in Menu::CreatePage), [ErrSubstr] (std::string::substr with pos > size,
    which throws) and [ErrFuel] (a loop of the model – CalculateSegmentation,
    fuel |input| + 1 – did not finish; never a C++ behaviour).

    For ALL histories of API operations with arbitrary arguments under the
    hypotheses of C02_wf_reported ([total_hyps]):
      - no observation is a null dereference or an invalid page range
        ([core_total_partial], from the invariant of WfProofs.v);
      - with candidates ending at or after their segment's start, [ErrFuel] is
        unreachable too ([core_total_except_substr]);
      - for the C05 key alphabet no observation is a crash of any kind
        ([core_total_edit], a corollary of edit_refines_buffer);
      - with the candidate-shape hypothesis [cands_fit] (every candidate ends inside
        the segment it was made for and covers at least one byte of it – true of the
        oracle translator, [oracle_cands_fit]) and a plain chain, NO observation is a
        crash of any kind ([core_total], proved in Eng/TotalFull.v).
    Without the shape hypothesis the statement ([core_total_full]) is false
    ([core_total_full_refuted]: a translator whose candidate ends beyond the
    input makes GetPreedit call substr with pos > size): the geometric invariant
    rules out the substr calls of TranslateSegments and GetCommitText, but the running
    [end] of GetPreedit / GetScriptText follows the selected candidates. *)
From Coq Require Import List Arith NArith ZArith Bool Lia.
From Coq.Strings Require Import Byte.
From RimeV Require Import Base.Bytes Eng.Keys Eng.Cand Eng.Menu Eng.Segm Eng.Ctx Eng.Engine Eng.Procs
     Eng.Trans Eng.TransProofs Eng.Api Eng.Oracle Eng.Spec Eng.EditProofs Eng.WfProofs Eng.CommitProofs Eng.InvProofs Eng.TotalFull.
Import ListNotations.

Definition total_hyps (cfg : config) (translate : bytes -> seginfo -> list cand) : Prop :=
  (1 <= cf_page_size cfg)%Z /\
  (forall i s, (Z.of_nat (length (translate i s)) + cf_page_size cfg < 2147483648)%Z) /\
  cf_del_checked cfg = true.

Definition core_total_full : Prop :=
  forall cfg translate, total_hyps cfg translate ->
  forall ops, forallb not_crash (snd (run cfg translate ops)) = true.

Definition no_null_no_bad_range_obs (o : obs) : Prop :=
  match o with ObsCrash ErrNullDeref | ObsCrash ErrBadRange => False | _ => True end.

Theorem core_total_partial :
  forall cfg translate, total_hyps cfg translate ->
  forall ops, Forall no_null_no_bad_range_obs (snd (run cfg translate ops)).
Proof. intros cfg translate (H1 & H2 & H3) ops. exact (no_null_no_bad_range cfg translate H1 H2 H3 ops). Qed.

Lemma wf_reported_hyps cfg translate :
  total_hyps cfg translate -> forall ops, forallb wf_obsb (snd (run cfg translate ops)) = true.
Proof. intros (H1 & H2 & H3). exact (wf_reported cfg translate H1 H2 H3). Qed.
Lemma crash_kinds_hyps cfg translate :
  total_hyps cfg translate -> forall ops, Forall (crash_kind_ok cfg) (snd (run cfg translate ops)).
Proof. intros (H1 & H2 & H3). exact (crash_kinds cfg translate H1 H2 H3). Qed.

(** the hypothesis is true of every translator: a candidate covers a non-negative stretch of its segment's
    input.  [ErrFuel] is excluded by the geometric invariant of WfProofs.v (segments contiguous from 0,
    start <= end <= |composition input|) and [calc_loop_ok]. *)
Theorem core_total_except_substr :
  forall cfg translate, total_hyps cfg translate -> cf_hist_guard cfg = true -> cf_kb_guard cfg = true ->
  (forall i s c, In c (translate i s) -> si_start s <= c_end c) ->
  forall ops, Forall obs_only_substr (snd (run cfg translate ops)).
Proof. intros cfg translate (H1 & H2 & H3) Hg Hk Hce ops. exact (only_substr_can_fail cfg translate H1 H2 H3 Hg Hk Hce ops). Qed.

Theorem core_total_edit :
  forall fluid dlog translate keys,
    Forall (fun k => ekey_ok (synth_cfg fluid dlog) k = true) keys ->
    forallb not_crash (snd (run (synth_cfg fluid dlog) translate (map op_of_ekey keys))) = true.
Proof.
  intros fluid dlog translate keys Hk.
  destruct (edit_refines_buffer fluid dlog translate keys Hk) as (_ & _ & _ & Hs).
  set (obs := snd (run (synth_cfg fluid dlog) translate (map op_of_ekey keys))) in *.
  assert (Hall : Forall (fun o => edit_summary o <> None) obs).
  { apply Forall_forall. intros o Ho. apply (in_map edit_summary) in Ho. rewrite Hs in Ho.
    apply in_map_iff in Ho as (x & Hx & _). congruence. }
  apply forallb_forall. intros o Ho. apply (proj1 (Forall_forall _ _) Hall) in Ho.
  destruct o; [exfalso; apply Ho; reflexivity | reflexivity].
Qed.

(** with [core_total_full] the hypothesis of C03's exactly_once disappears *)
Theorem exactly_once_if_total :
  core_total_full ->
  forall cfg translate, total_hyps cfg translate ->
  forall ops,
    concat (map read_of (snd (run cfg translate ops))) ++ st_commit (fst (run cfg translate ops))
    = concat (deliveries cfg translate (init_state cfg) ops).
Proof. intros Hf cfg translate Hh ops. apply exactly_once, Hf, Hh. Qed.

Theorem core_total :
  forall cfg translate, total_hyps cfg translate -> plain_chain cfg -> cands_fit translate ->
  forall ops, forallb not_crash (snd (run cfg translate ops)) = true.
Proof. intros cfg translate (H1 & H2 & H3) Hc Hf ops. exact (TotalFull.core_total cfg translate H1 H2 H3 Hc Hf ops). Qed.

(** the CommitHistory fact of [plain_chain] comes from the source *)
Lemma synth_plain_chain fluid dlog : plain_chain (synth_cfg fluid dlog).
Proof. repeat split; try reflexivity. cbn. intuition discriminate. Qed.
Lemma synth_translate_plain fluid dlog i s : synth_translate (synth_cfg fluid dlog) i s = oracle_translate i s.
Proof. apply all_translate_main_only. reflexivity. Qed.

Lemma oracle_cands_fit : cands_fit oracle_translate.
Proof.
  intros input seg c H0. apply InvProofs.oracle_translate_incl in H0. revert H0.
  unfold oracle_translate_full. destruct input as [|c0 r] eqn:Ei; [intros []|]. rewrite <- Ei.
  assert (Hn : 1 <= length input) by (rewrite Ei; cbn; lia).
  destruct (Byte.eqb c0 x78); [intros []|].
  intros H. apply in_flat_map in H as (L & HL & H). apply in_map_iff in H as (j & <- & _). cbn [c_end oracle_cand].
  assert (1 <= L <= length input); [|lia].
  destruct (Byte.eqb c0 x75 || Byte.eqb c0 x76).
  - destruct HL as [<- | []]. lia.
  - apply in_app_or in HL as [[<- | []] | HL]; [lia|].
    apply in_app_or in HL as [HL | HL]; [destruct (2 <=? length input) eqn:E2; [apply Nat.leb_le in E2; destruct HL as [<- | []]; lia | destruct HL]|].
    apply in_app_or in HL as [HL | HL]; [destruct (3 <=? length input) eqn:E3; [apply Nat.leb_le in E3; destruct HL as [<- | []]; lia | destruct HL]|].
    destruct (4 <=? length input) eqn:E4; [apply Nat.leb_le in E4; destruct HL as [<- | []]; lia | destruct HL].
Qed.

(** the synthetic schemas meet [total_hyps]: a page holds 5 candidates, the oracle translator yields at most 40,
    punct_translator (where the schema lists it in front) at most [punct_width] *)
Lemma oracle_total_hyps cfg :
  (1 <= cf_page_size cfg <= 1000)%Z -> cf_del_checked cfg = true -> total_hyps cfg oracle_translate.
Proof.
  intros Hp Hd. split; [lia|]. split; [|exact Hd]. intros i s. pose proof (InvProofs.oracle_translate_length i s). lia.
Qed.

Lemma synth_total_hyps cfg :
  (1 <= cf_page_size cfg <= 1000)%Z -> cf_del_checked cfg = true -> cf_translators cfg = [TrPunct; TrMain] ->
  punct_width cfg <= 1000 -> total_hyps cfg (synth_translate cfg).
Proof.
  intros Hp Hd Ht Hw. split; [lia|]. split; [|exact Hd]. intros i s. unfold synth_translate.
  pose proof (all_translate_length2 cfg oracle_translate i s Ht). pose proof (punct_translate_length cfg i s).
  pose proof (InvProofs.oracle_translate_length i s). lia.
Qed.

Theorem core_total_synth :
  forall fluid dlog ops, forallb not_crash (snd (run (synth_cfg fluid dlog) oracle_translate ops)) = true.
Proof.
  intros fluid dlog. apply core_total; [|apply synth_plain_chain | exact oracle_cands_fit].
  apply oracle_total_hyps; [cbn; lia | reflexivity].
Qed.

Theorem core_total_except_substr_synth :
  forall fluid dlog ops, Forall obs_only_substr (snd (run (synth_cfg fluid dlog) oracle_translate ops)).
Proof.
  intros fluid dlog. apply core_total_except_substr; try reflexivity; [apply oracle_total_hyps; [cbn; lia | reflexivity]|].
  intros i s c Hc. apply oracle_cands_fit in Hc. lia.
Qed.

(** C03's exactly-once without the no-crash hypothesis *)
Theorem exactly_once_total :
  forall cfg translate, total_hyps cfg translate -> plain_chain cfg -> cands_fit translate ->
  forall ops,
    concat (map read_of (snd (run cfg translate ops))) ++ st_commit (fst (run cfg translate ops))
    = concat (deliveries cfg translate (init_state cfg) ops).
Proof. intros cfg translate Hh Hc Hf ops. apply exactly_once, core_total; assumption. Qed.

Lemma reachable_good cfg translate :
  total_hyps cfg translate -> plain_chain cfg -> cands_fit translate -> forall ops, sgood cfg (fst (run cfg translate ops)).
Proof.
  intros (H1 & H2 & H3) (Hhg & Hkg & Hseg & Hnp) Hf ops.
  apply (run_from_total cfg translate H1 H2 H3 Hhg Hkg Hseg Hnp Hf), TotalFull.init_good.
Qed.

Lemma good_step cfg translate :
  total_hyps cfg translate -> plain_chain cfg -> cands_fit translate ->
  forall s o, sgood cfg s -> sgood cfg (fst (step cfg translate s o)) /\ not_crash (snd (step cfg translate s o)) = true.
Proof.
  intros (H1 & H2 & H3) (Hhg & Hkg & Hseg & Hnp) Hf s o H.
  destruct (TotalFull.step_good cfg translate H1 H2 H3 Hhg Hkg Hseg Hnp Hf s o H) as (Hg & r & v & ->). split; [exact Hg | reflexivity].
Qed.

Lemma reachable_not_crash cfg translate :
  total_hyps cfg translate -> plain_chain cfg -> cands_fit translate ->
  forall ops o, not_crash (snd (step cfg translate (fst (run cfg translate ops)) o)) = true.
Proof. intros Hh Hc Hf ops o. apply (good_step cfg translate Hh Hc Hf), reachable_good; assumption. Qed.

(** C03's read theorems in every reachable state, without the no-crash hypothesis *)
Theorem read_takes_all_total :
  forall cfg translate, total_hyps cfg translate -> plain_chain cfg -> cands_fit translate ->
  forall ops, let s := fst (run cfg translate ops) in
    read_of (snd (step cfg translate s OpGetCommit)) = st_commit s /\
    st_commit (fst (step cfg translate s OpGetCommit)) = [] /\
    (exists v, snd (step cfg translate s OpGetCommit)
               = Obs (RCommit (match st_commit s with [] => None | t => Some t end)) v).
Proof.
  intros cfg translate Hh Hc Hf ops. cbv zeta. apply get_commit_step, reachable_not_crash; assumption.
Qed.

Theorem second_read_empty_total :
  forall cfg translate, total_hyps cfg translate -> plain_chain cfg -> cands_fit translate ->
  forall ops, let s := fst (run cfg translate ops) in
    let r1 := step cfg translate s OpGetCommit in
    let r2 := step cfg translate (fst r1) OpGetCommit in
    read_of (snd r2) = [] /\ exists v, snd r2 = Obs (RCommit None) v.
Proof.
  intros cfg translate Hh Hc Hf ops. cbv zeta.
  destruct (good_step cfg translate Hh Hc Hf _ OpGetCommit (reachable_good cfg translate Hh Hc Hf ops)) as (G1 & N1).
  apply second_read_empty; [exact N1 | apply (good_step cfg translate Hh Hc Hf), G1].
Qed.

(** the shape hypothesis is needed: [core_total_full] (no hypothesis on where
    candidates end) is false – a translator whose single candidate ends 10
    bytes after its segment's start: type "a", select it (fluid editor: the
    segment is confirmed and a new empty one opened); GetPreedit then continues
    from end = 10 and calls substr(10, ...) on a 1-byte string. *)
Definition long_translate (i : bytes) (s : seginfo) : list cand :=
  match i with [] => [] | _ => [mkCand (si_start s) (si_start s + 10) [x41] [] [] []] end.

Theorem core_total_full_refuted : ~ core_total_full.
Proof.
  intros H. specialize (H (synth_cfg true true) long_translate).
  assert (Hh : total_hyps (synth_cfg true true) long_translate).
  { split; [cbn; lia|]. split; [|reflexivity]. intros i s. destruct i; cbn; lia. }
  specialize (H Hh [OpKey 97 0; OpSelect 0]). vm_compute in H. discriminate H.
Qed.
