(** Eng/TotalLift.v – from the operations of Context to the processors and the API.

    Speller, Selector, Navigator, Editor, AsciiComposer, KeyBinder, ProcessKey and the calls of
    Api.exec only compose a few operations of Context and of the session (push_input, pop_input,
    select, commit, ...).  A predicate on states that each of those operations keeps is therefore
    kept by every processor and every API call: [kept] lists the operations the four composing
    processors use, [kept_api] what AsciiComposer, KeyBinder and the API layer use besides. *)
From Coq Require Import List Arith NArith ZArith Bool Lia.
From Coq.Strings Require Import Byte.
From RimeV Require Import Base.Bytes Eng.Keys Eng.Cand Eng.Menu Eng.Segm Eng.Ctx Eng.Engine Eng.Procs Eng.Api.
Import ListNotations.

Section Lift.
Variable cfg : config.
Variable translate : bytes -> seginfo -> list cand.
Variable P : state -> Prop.

Definition keeps (f : context -> context) : Prop := forall s, P s -> P (on_ctx s f).

Record kept : Prop := {
  (* [P] reads nothing but the context, KeyBinder::last_key_ and the text not yet fetched by the client *)
  k_frame : forall s s', st_ctx s' = st_ctx s -> st_kb_last s' = st_kb_last s -> st_commit s' = st_commit s -> P s -> P s';
  k_sink : forall s t, P s -> P (sink s t);
  k_push : forall z, (32 <= z < 128)%Z -> keeps (fun c => push_input cfg translate c (byte_of_N (Z.to_N z)));
  k_pop : forall n, keeps (fun c => fst (pop_input cfg translate c n));
  k_delete_input : forall n, keeps (fun c => fst (delete_input cfg translate c n));
  k_clear : keeps (clear cfg translate);
  k_caret : forall pos, keeps (fun c => set_caret_pos cfg translate c pos);
  k_begin_editing : keeps begin_editing;
  k_reopen_segment : keeps (fun c => fst (reopen_previous_segment cfg translate c));
  k_reopen_selection : keeps (fun c => fst (reopen_previous_selection cfg translate c));
  k_clear_segment : keeps (fun c => fst (clear_previous_segment cfg translate c));
  k_clear_non_confirmed : keeps (fun c => fst (clear_non_confirmed c));
  (* the error flag Editor::CommitScriptText may set *)
  k_script_check : forall s, P s -> P (on_ctx s (fun c => ctx_check c (snd (comp_script_text (cx_comp (st_ctx s)))) ErrSubstr));
  k_sel : forall s a, P s -> P (fst (run_sel_action cfg s a));
  k_select : forall s i, P s -> P (fst (select cfg translate s i));
  k_confirm : forall s, P s -> P (fst (confirm_current_selection cfg translate s));
  k_commit : forall s, P s -> P (fst (commit cfg translate s));
  k_delete_candidate : forall s i, P s -> P (fst (delete_candidate cfg s i))
}.

Hypothesis K : kept.

Lemma on_ctx_b_keeps f s : keeps (fun c => fst (f c)) -> P s -> P (fst (on_ctx_b s f)).
Proof. intros Hf H. specialize (Hf s H). unfold on_ctx_b, on_ctx in *. destruct (f (st_ctx s)). exact Hf. Qed.

Lemma or_else_keeps r f : P (fst r) -> (forall s, P s -> P (fst (f s))) -> P (fst (or_else r f)).
Proof. intros H Hf. unfold or_else. destruct r as [s ok]. destruct ok; [exact H | apply Hf, H]. Qed.

Lemma add_char_keeps s z : (32 <= z < 128)%Z -> P s ->
  P (on_ctx s (fun c => begin_editing (push_input cfg translate c (byte_of_N (Z.to_N z))))).
Proof. intros Hz H. exact (k_begin_editing K _ (k_push K z Hz s H)). Qed.

Lemma kbp_process_keeps {A} (run : state -> A -> state * bool) km fb s k :
  (forall s a, P s -> P (fst (run s a))) -> P s -> P (fst (kbp_process run km fb s k)).
Proof.
  intros Hr H. unfold kbp_process.
  assert (Ha : forall s k, P s -> P (fst (kbp_accept run km s k))).
  { intros s0 k0 H0. unfold kbp_accept. destruct (keymap_find km k0); [apply Hr; exact H0 | exact H0]. }
  pose proof (Ha s k H) as H1. destruct (kbp_accept run km s k) as [s1 ok1]. cbn [fst] in H1.
  destruct ok1; [exact H1|]. destruct (k_ctrl k || k_alt k); [exact H1|].
  destruct (k_shift k && fb); [|exact H1].
  pose proof (Ha s1 (mkKey (k_code k) (shift_as_control (k_mod k))) H1) as H2.
  destruct (kbp_accept run km s1 _) as [s2 ok2]. cbn [fst] in H2. destruct ok2; [exact H2|].
  pose proof (Ha s2 (mkKey (k_code k) (clear_shift (k_mod k))) H2) as H3.
  destruct (kbp_accept run km s2 _) as [s3 ok3]. cbn [fst] in H3. destruct ok3; exact H3.
Qed.

Theorem speller_process_keeps s k : P s -> P (fst (speller_process cfg translate s k)).
Proof.
  intros H. unfold speller_process.
  destruct (k_release k || k_ctrl k || k_alt k || k_super k); [exact H|].
  destruct ((k_code k <? 32) || (127 <=? k_code k))%Z eqn:Er; [exact H|].
  apply orb_false_iff in Er as (E1 & E2). apply Z.ltb_ge in E1. apply Z.leb_gt in E2.
  repeat match goal with |- P (fst (if ?b then _ else _)) => destruct b; [exact H|] end.
  apply add_char_keeps; [lia | exact H].
Qed.

Lemma select_candidate_at_keeps s i : P s -> P (fst (select_candidate_at cfg translate s i)).
Proof.
  intros H. unfold select_candidate_at. destruct (sg_segs (cx_comp (st_ctx s))); [exact H|].
  destruct (cf_page_size cfg <=? i)%Z; [exact H | apply (k_select K), H].
Qed.

Theorem selector_process_keeps s k : P s -> P (fst (selector_process cfg translate s k)).
Proof.
  intros H. unfold selector_process. destruct (k_release k || k_alt k || k_super k); [exact H|].
  destruct (sg_segs (cx_comp (st_ctx s))) as [|g r]; [exact H|].
  destruct ((match s_menu g with None => true | Some _ => false end) || has_tag TRaw (s_tags g)); [exact H|].
  pose proof (kbp_process_keeps (run_sel_action cfg) (sel_keymap (st_ctx s)) false s k (k_sel K) H) as H1.
  destruct (kbp_process (run_sel_action cfg) (sel_keymap (st_ctx s)) false s k) as [s1 r1]. cbn [fst] in H1.
  destruct (negb (presult_is_noop r1)); [exact H1|].
  destruct (0 <=? select_key_index cfg k)%Z; [apply select_candidate_at_keeps, H1 | exact H1].
Qed.

Lemma begin_move_keeps s : P s -> P (begin_move s).
Proof.
  intros H. pose proof (k_begin_editing K s H) as H1. unfold begin_move.
  destruct (_ || _); [|exact H1]. revert H1. apply (k_frame K); reflexivity.
Qed.

Lemma caret_to_keeps s pos : P s -> P (st_with_ctx s (set_caret_pos cfg translate (st_ctx s) pos)).
Proof. apply (k_caret K pos s). Qed.

Lemma jump_left_keeps s p : P s -> P (fst (jump_left cfg translate s p)).
Proof. intros H. unfold jump_left. destruct (negb _); [apply caret_to_keeps|]; exact H. Qed.
Lemma jump_right_keeps s p : P s -> P (fst (jump_right cfg translate s p)).
Proof. intros H. unfold jump_right. destruct (negb _); [apply caret_to_keeps|]; exact H. Qed.
Lemma move_left_keeps s : P s -> P (fst (move_left cfg translate s)).
Proof. intros H. unfold move_left. destruct (_ =? _); [|apply caret_to_keeps]; exact H. Qed.
Lemma move_right_keeps s : P s -> P (fst (move_right cfg translate s)).
Proof. intros H. unfold move_right. destruct (_ <=? _); [|apply caret_to_keeps]; exact H. Qed.
Lemma go_home_keeps s : P s -> P (fst (go_home cfg translate s)).
Proof.
  intros H. unfold go_home. destruct (_ <? _); [apply caret_to_keeps, H|].
  destruct (negb _); [apply caret_to_keeps|]; exact H.
Qed.
Lemma go_to_end_keeps s : P s -> P (fst (go_to_end cfg translate s)).
Proof. intros H. unfold go_to_end. destruct (negb _); [apply caret_to_keeps|]; exact H. Qed.

Lemma run_nav_action_keeps s a : P s -> P (fst (run_nav_action cfg translate s a)).
Proof.
  intros H. pose proof (begin_move_keeps s H) as H1.
  destruct a; cbn [run_nav_action fst]; try exact H.
  - apply or_else_keeps; [|exact go_to_end_keeps].
    destruct (_ && _); [apply jump_left_keeps | apply move_left_keeps]; exact H1.
  - apply or_else_keeps; [apply move_left_keeps, H1 | exact go_to_end_keeps].
  - apply or_else_keeps; [apply move_right_keeps, H1 | exact go_home_keeps].
  - apply or_else_keeps; [apply jump_left_keeps, H1 | exact go_to_end_keeps].
  - apply or_else_keeps; [apply jump_right_keeps, H1 | exact go_to_end_keeps].
  - apply go_home_keeps, H1.
  - apply go_to_end_keeps, H1.
Qed.

Theorem navigator_process_keeps s k : P s -> P (fst (navigator_process cfg translate s k)).
Proof.
  intros H. unfold navigator_process. destruct (k_release k); [exact H|].
  destruct (negb (is_composing (st_ctx s))); [exact H|].
  apply kbp_process_keeps; [exact run_nav_action_keeps | exact H].
Qed.

Lemma reopen_segment_keeps s : P s -> P (fst (on_ctx_b s (reopen_previous_segment cfg translate))).
Proof. apply on_ctx_b_keeps, (k_reopen_segment K). Qed.
Lemma reopen_selection_keeps s : P s -> P (fst (on_ctx_b s (reopen_previous_selection cfg translate))).
Proof. apply on_ctx_b_keeps, (k_reopen_selection K). Qed.
Lemma pop_keeps s : P s -> P (fst (on_ctx_b s (fun c => pop_input cfg translate c 1))).
Proof. apply on_ctx_b_keeps, (k_pop K 1). Qed.

Lemma ed_revert_last_edit_keeps s : P s -> P (ed_revert_last_edit cfg translate s).
Proof.
  intros H. unfold ed_revert_last_edit. apply or_else_keeps; [apply reopen_selection_keeps, H|].
  intros s1 H1. apply pop_keeps in H1 as H2.
  destruct (on_ctx_b s1 (fun c => pop_input cfg translate c 1)) as [s2 ok]. cbn [fst] in H2.
  destruct ok; [apply reopen_segment_keeps|]; exact H2.
Qed.

Lemma delete_current_selection_keeps s : P s -> P (fst (delete_current_selection cfg s)).
Proof.
  intros H. unfold delete_current_selection. destruct (sg_segs (cx_comp (st_ctx s))); [exact H|].
  apply (k_delete_candidate K), H.
Qed.

Lemma run_editor_action_keeps s a : P s -> P (fst (run_editor_action cfg translate s a)).
Proof.
  intros H. destruct a; cbn [run_editor_action fst]; try exact H.
  - apply or_else_keeps; [apply (k_confirm K), H | exact (k_commit K)].
  - apply or_else_keeps; [apply reopen_segment_keeps, H | exact (k_confirm K)].
  - destruct (ctx_selected_cand (st_ctx s)) as [cd|]; [|exact H]. destruct (c_comment cd); [exact H|]. cbn [fst].
    apply (k_clear K), (k_sink K), H.
  - apply (k_commit K), (k_clear_non_confirmed K), H.
  - pose proof (k_script_check K s H) as H1. destruct (comp_script_text (cx_comp (st_ctx s))) as [t ok]. cbn [fst snd] in *.
    apply (k_clear K), (k_sink K), H1.
  - pose proof (k_confirm K s H) as H1.
    destruct (confirm_current_selection cfg translate s) as [s1 ok]. cbn [fst] in H1.
    destruct (negb ok || negb (has_menu (st_ctx s1))); cbn [fst]; [apply (k_commit K)|]; exact H1.
  - apply ed_revert_last_edit_keeps, H.
  - apply or_else_keeps; [apply or_else_keeps; [apply reopen_segment_keeps, H | exact reopen_selection_keeps] | exact pop_keeps].
  - apply ed_revert_last_edit_keeps, H.
  - apply delete_current_selection_keeps, H.
  - apply (k_delete_input K), H.
  - pose proof (on_ctx_b_keeps _ s (k_clear_segment K) H) as H1.
    destruct (on_ctx_b s (clear_previous_segment cfg translate)) as [s1 ok]. cbn [fst] in H1.
    destruct ok; cbn [fst]; [|apply (k_clear K)]; exact H1.
Qed.

Theorem editor_process_keeps s k : P s -> P (fst (editor_process cfg translate s k)).
Proof.
  intros H. unfold editor_process. destruct (k_release k); [exact H|].
  assert (H1 : P (fst (if is_composing (st_ctx s)
                       then kbp_process (run_editor_action cfg translate) (editor_keymap cfg) true s k
                       else (s, PNoop)))).
  { destruct (is_composing (st_ctx s)); [|exact H]. apply kbp_process_keeps; [exact run_editor_action_keeps | exact H]. }
  destruct (if is_composing (st_ctx s) then _ else _) as [s1 r]. cbn [fst] in H1.
  destruct (negb (presult_is_noop r)); [exact H1|].
  match goal with |- P (fst (if ?b then _ else _)) => destruct b eqn:Eb end; [|exact H1].
  destruct (editor_char_handler cfg); cbn [fst]; try exact H1; [apply (k_commit K), H1|].
  apply andb_prop in Eb as (Eb & E2). apply andb_prop in Eb as (_ & E1). apply Z.ltb_lt in E1, E2.
  apply add_char_keeps; [lia | exact H1].
Qed.

Theorem shape_process_keeps s k : P s -> P (fst (shape_process s k)).
Proof.
  intros H. unfold shape_process.
  repeat match goal with |- P (fst (if ?b then _ else _)) => destruct b; [exact H|] end. apply (k_sink K), H.
Qed.

Variable input_ok : bytes -> Prop.      (* the strings a client may pass to set_input *)

Record kept_api : Prop := {
  k_last : forall s v, P s -> P (mkSt (st_ctx s) (st_nav_input s) (st_spans s) (st_commit s) (st_odd s) v (st_ac s) (st_clock s));
  k_option : forall n v, keeps (fun c => set_option cfg translate c n v);
  k_conn : forall b, keeps (fun c => ctx_with_conn c b);
  k_hist : forall h s, P s -> P (on_ctx s (fun c => ctx_with_hist c h));
  (* KeyBinder out of nesting depth: only a source without the redirecting_ flag gets there *)
  k_recursion : cf_kb_guard cfg = false -> keeps (fun c => ctx_fail c ErrRecursion);
  k_punctuator : In PPunctuator (cf_processors cfg) -> forall s k, P s -> P (fst (punctuator_process cfg translate s k));
  k_set_input : forall v, input_ok v -> keeps (fun c => set_input cfg translate c v);
  k_highlight : forall i, keeps (fun c => fst (highlight cfg translate c i));
  k_paging : keeps (fun c => with_back c (fun g => seg_with_tags g (tag_insert TPaging (s_tags g))))
}.

Hypothesis KA : kept_api.

Lemma ac_keeps s a : P s -> P (st_with_ac s a).
Proof. apply (k_frame K); reflexivity. Qed.

Lemma ac_switch_keeps s m st : P s -> P (ac_switch cfg translate s m st).
Proof.
  intros H. unfold ac_switch. apply (k_option KA).
  destruct (is_composing (st_ctx s)); [|exact H].
  pose proof (k_conn KA false s H) as H0.
  destruct st.
  - destruct m; [apply (k_conn KA true)|]; exact H0.
  - apply (k_confirm K), H0.
  - apply (k_commit K), (k_clear_non_confirmed K), H0.
  - apply (k_clear K), H0.
  - exact H0.
Qed.

Lemma ac_toggle_with_key_keeps s code : P s -> P (ac_toggle_with_key cfg translate s code).
Proof.
  intros H. unfold ac_toggle_with_key. destruct (ac_find (cf_ascii_keys cfg) code); [|exact H].
  apply ac_keeps, ac_switch_keeps, H.
Qed.

Lemma ac_process_caps_lock_keeps s k : P s -> P (fst (ac_process_caps_lock cfg translate s k)).
Proof.
  intros H. unfold ac_process_caps_lock. destruct (k_code k =? XK_Caps_Lock)%Z.
  - destruct (negb (k_release k)); [|exact H].
    match goal with |- P (fst (if ?b then _ else _)) => destruct b end; [apply ac_keeps, H|].
    apply ac_switch_keeps, ac_keeps, ac_keeps, H.
  - destruct (k_caps k); [|exact H].
    match goal with |- P (fst (if ?b then _ else _)) => destruct b end; [|exact H].
    apply (k_sink K), (k_hist KA), H.
Qed.

Theorem ascii_composer_process_keeps s k : P s -> P (fst (ascii_composer_process cfg translate s k)).
Proof.
  intros H. unfold ascii_composer_process.
  destruct ((k_shift k && k_ctrl k) || k_alt k || k_super k); [apply ac_keeps, H|].
  assert (H1 : P (fst (if ac_style_is_noop (ac_caps_style cfg) then (s, PNoop) else ac_process_caps_lock cfg translate s k))).
  { destruct (ac_style_is_noop (ac_caps_style cfg)); [exact H | apply ac_process_caps_lock_keeps, H]. }
  destruct (if ac_style_is_noop (ac_caps_style cfg) then (s, PNoop) else ac_process_caps_lock cfg translate s k) as [s1 r].
  cbn [fst] in H1. destruct (negb (presult_is_noop r)); [exact H1|].
  destruct (k_code k =? XK_Eisu_toggle)%Z.
  { destruct (negb (k_release k)); [|exact H1]. apply ac_toggle_with_key_keeps, ac_keeps, H1. }
  cbv zeta.
  match goal with |- P (fst (if ?b then _ else _)) => destruct b end.
  - destruct (k_release k).
    + destruct (ac_shift (st_ac s1) || ac_ctrl (st_ac s1)); [|exact H1]. apply ac_keeps.
      match goal with |- P (if ?b then _ else _) => destruct b end; [apply ac_toggle_with_key_keeps|]; exact H1.
    + destruct (negb (ac_shift (st_ac s1) || ac_ctrl (st_ac s1))); [apply ac_keeps|]; exact H1.
  - assert (H2 : P (ac_unpress s1)) by apply ac_keeps, H1.
    match goal with |- P (fst (if ?b then _ else _)) => destruct b end; [exact H2|].
    destruct (get_option (st_ctx (ac_unpress s1)) opt_ascii_mode); [|exact H2].
    destruct (negb (is_composing (st_ctx (ac_unpress s1)))); [exact H2|].
    destruct (negb (k_release k) && (32 <=? k_code k)%Z && (k_code k <? 128)%Z) eqn:Ek; [|exact H2].
    apply andb_prop in Ek as (Ek & E3). apply andb_prop in Ek as (_ & E2).
    apply (k_push K); [lia | exact H2].
Qed.

(* KeyBinder uses three of the operations only *)
Section KeyBinder.
Hypothesis Hlast : forall s v, P s -> P (mkSt (st_ctx s) (st_nav_input s) (st_spans s) (st_commit s) (st_odd s) v (st_ac s) (st_clock s)).
Hypothesis Hdot : keeps (fun c => push_input cfg translate c (byte_of_N (Z.to_N 46))).
Hypothesis Hoption : forall n v, keeps (fun c => set_option cfg translate c n v).

Lemma reinterpret_paging_key_keeps_of s k : P s -> P (fst (reinterpret_paging_key cfg translate s k)).
Proof.
  intros H. unfold reinterpret_paging_key. destruct (k_release k); [exact H|]. cbv zeta.
  match goal with |- P (fst (if ?b then _ else _)) => destruct b end; [apply Hlast, H|].
  match goal with |- P (fst (if ?b then _ else _)) => destruct b end; [|apply Hlast, H].
  destruct (cx_input (st_ctx s)) as [|b0 r0] eqn:Ei; [apply Hlast, H|].
  match goal with |- P (fst (if ?b then _ else _)) => destruct b end; [apply Hlast, H|].
  apply (Hlast (on_ctx s _)), Hdot, H.
Qed.

Lemma kb_perform_action_keeps_of s a : P s -> P (kb_perform_action cfg translate s a).
Proof. intros H. destruct a; cbn [kb_perform_action]; try exact H; apply Hoption, H. Qed.

(* [R]: the re-entered ProcessKey; without one the binder must be redirecting (it then declines the key), or [P] must
   admit the error it raises *)
Theorem key_binder_process_keeps_of R red s k :
  (forall f, R = Some f -> forall x tk, P x -> P (fst (f x tk))) ->
  (R = None -> red = true \/ keeps (fun c => ctx_fail c ErrRecursion)) ->
  P s -> P (fst (key_binder_process cfg translate R red s k)).
Proof.
  intros HR HN H. unfold key_binder_process.
  destruct (red || match cf_bindings cfg with [] => true | _ => false end) eqn:Er; [exact H|].
  apply orb_false_iff in Er as (Er & _).
  pose proof (reinterpret_paging_key_keeps_of s k H) as H1.
  destruct (reinterpret_paging_key cfg translate s k) as [s1 re]. cbn [fst] in H1. destruct re; [exact H1|].
  destruct (find _ (kb_vector cfg k)) as [b|]; [|exact H1].
  destruct (kb_act b) as [keys | o | o | o | sc] eqn:Ea; cbn [fst];
    try (rewrite <- Ea; apply kb_perform_action_keeps_of, H1).
  destruct keys as [|tk keys]; [exact H1|]. destruct R as [f|]; cbn [fst].
  - generalize (tk :: keys). intros l. revert s1 H1.
    induction l as [|t l IH]; intros x Hx; [exact Hx|]. apply IH, (HR f eq_refl), Hx.
  - destruct (HN eq_refl) as [X | X]; [congruence | apply X, H1].
Qed.
End KeyBinder.

Theorem key_binder_process_keeps R red s k :
  (forall f, R = Some f -> forall x tk, P x -> P (fst (f x tk))) ->
  (R = None -> red = true \/ cf_kb_guard cfg = false \/ keeps (fun c => ctx_fail c ErrRecursion)) ->
  P s -> P (fst (key_binder_process cfg translate R red s k)).
Proof.
  intros HR HN. apply (key_binder_process_keeps_of (k_last KA) (k_push K 46 ltac:(lia)) (k_option KA)); [exact HR|].
  intros E. destruct (HN E) as [X | [X | X]]; [left; exact X | right; exact (k_recursion KA X) | right; exact X].
Qed.

Lemma run_processors_keeps ps k :
  (forall p, In p ps -> forall s, P s -> P (fst (p s k))) -> forall s, P s -> P (fst (run_processors ps s k)).
Proof.
  induction ps as [|p r IH]; intros Hp s H; cbn [run_processors]; [exact H|].
  pose proof (Hp p (or_introl eq_refl) s H) as H1. destruct (p s k) as [s1 ret]. cbn [fst] in H1.
  destruct ret; cbn [fst]; try exact H1. apply IH; [|exact H1]. intros q Hq. apply Hp. right; exact Hq.
Qed.

Lemma process_key_gen_keeps kb s k :
  (forall x, P x -> P (fst (kb x k))) -> P s -> P (fst (process_key_gen cfg translate kb s k)).
Proof.
  intros Hkb H. unfold process_key_gen.
  assert (H1 : P (fst (run_processors (processors cfg translate kb) s k))).
  { apply run_processors_keeps; [|exact H]. intros p Hp x. unfold processors in Hp. apply in_map_iff in Hp as (i & <- & Hi).
    destruct i; cbn [proc_of];
      [apply speller_process_keeps | apply (k_punctuator KA Hi) | apply selector_process_keeps
       | apply navigator_process_keeps | apply editor_process_keeps | apply Hkb | apply ascii_composer_process_keeps]. }
  destruct (run_processors (processors cfg translate kb) s k) as [s1 ret]. cbn [fst] in H1.
  assert (H2 : P (on_ctx s1 (fun c => ctx_with_hist c (hist_push_key (cx_hist c) k)))) by exact (k_hist KA _ s1 H1).
  apply shape_process_keeps with (k := k) in H2 as Hs.
  destruct ret; cbn [fst]; try exact H1; cbv zeta;
    destruct (shape_process (on_ctx s1 (fun c => ctx_with_hist c (hist_push_key (cx_hist c) k))) k) as [sx rx];
    destruct rx; exact Hs.
Qed.

(* with the flag set during the replay every nesting depth is fine; a source that does not set it
   may run out of depth, which [k_recursion] then has to admit *)
Theorem process_key_n_keeps fuel : forall red s k,
  (cf_kb_guard cfg = true -> red = true \/ fuel <> 0 \/ keeps (fun c => ctx_fail c ErrRecursion)) ->
  P s -> P (fst (process_key_n cfg translate fuel red s k)).
Proof.
  induction fuel as [|f IH]; intros red s k Hg H; cbn [process_key_n]; apply process_key_gen_keeps; try exact H; intros x Hx;
    apply key_binder_process_keeps; try exact Hx.
  - intros f0 X; discriminate X.
  - intros _. destruct (cf_kb_guard cfg); [|right; left; reflexivity].
    destruct (Hg eq_refl) as [X | [X | X]]; [left; exact X | congruence | right; right; exact X].
  - intros f0 X. injection X as <-. intros y tk Hy. apply IH; [|exact Hy]. intros Eg. left. exact Eg.
  - intros X; discriminate X.
Qed.

Theorem process_key_keeps s k : P s -> P (fst (process_key cfg translate s k)).
Proof. apply process_key_n_keeps. intros _. right. left. discriminate. Qed.

Lemma on_current_page_keeps s i verb :
  (forall s n, P s -> P (fst (verb s n))) -> P s -> P (fst (on_current_page cfg s i verb)).
Proof.
  intros Hv H. unfold on_current_page. destruct (negb (has_menu (st_ctx s))); [exact H|].
  destruct (size_of_int (cf_page_size cfg) <=? i)%N; [exact H|].
  destruct (sg_segs (cx_comp (st_ctx s))); [exact H | apply Hv, H].
Qed.

Lemma do_highlight_keeps s i : P s -> P (fst (do_highlight cfg translate s i)).
Proof. intros H. pose proof (k_highlight KA i s H) as H1. unfold do_highlight, on_ctx in *. destruct (highlight _ _ _ _). exact H1. Qed.

Lemma change_page_keeps s b : P s -> P (fst (change_page cfg translate s b)).
Proof.
  intros H. unfold change_page. destruct (negb (has_menu (st_ctx s))); [exact H|].
  pose proof (k_paging KA s H) as H1. unfold on_ctx, with_back in H1.
  destruct (sg_segs (cx_comp (st_ctx s))); [exact H | apply do_highlight_keeps, H1].
Qed.

Lemma fst_let_pair {A B C} (p : A * B) (g : B -> C) : fst (let (a, b) := p in (a, g b)) = fst p.
Proof. destruct p; reflexivity. Qed.

(* RimeGetCommit empties the text not yet fetched: asked of [P] only for that call *)
Theorem exec_keeps s o : (forall v, o = OpSetInput v -> input_ok v) ->
  (o = OpGetCommit -> P (mkSt (st_ctx s) (st_nav_input s) (st_spans s) [] (st_odd s) (st_kb_last s) (st_ac s) (st_clock s))) ->
  P s -> P (fst (exec cfg translate s o)).
Proof.
  intros Ho Hf H. destruct o; cbn [exec]; rewrite ?fst_let_pair; try exact H.
  - apply process_key_keeps, H.
  - apply (k_set_input KA), H. apply Ho. reflexivity.
  - apply (k_caret K), H.
  - apply (k_select K), H.
  - apply on_current_page_keeps; [exact (k_select K) | exact H].
  - apply do_highlight_keeps, H.
  - apply on_current_page_keeps; [exact do_highlight_keeps | exact H].
  - apply (k_delete_candidate K), H.
  - apply on_current_page_keeps; [exact (k_delete_candidate K) | exact H].
  - apply change_page_keeps, H.
  - apply (k_commit K), H.
  - apply (k_clear K), H.
  - destruct (st_commit s); [exact H | apply Hf; reflexivity].
  - apply (k_option KA), H.
  - revert H. apply (k_frame K); reflexivity.
Qed.

End Lift.
