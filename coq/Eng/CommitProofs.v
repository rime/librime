(** Eng/CommitProofs.v – C03: what is committed is what was shown, and it is
    delivered exactly once.

    [commit_is_preview], [select_covering_rest]: statements about one call in
    ANY state (the preview, the commit handler and the selection all go
    through [Ctx.commit_text_loop]; the proofs show the three paths agree).
    [exactly_once]: queue refinement over all histories – every operation but
    get_commit only appends to Session::commit_text_, get_commit hands out the
    whole buffer and empties it. *)
From Coq Require Import List Arith NArith ZArith Bool Lia.
From Coq.Strings Require Import Byte.
From RimeV Require Import Base.Bytes Base.ListX Eng.Keys Eng.Cand Eng.Menu Eng.Segm Eng.Ctx Eng.Engine Eng.Procs
     Eng.Api Eng.Spec Eng.TotalLift Eng.CommitFrame.
Import ListNotations.

Lemma commit_text_loop_app ci l1 l2 acc :
  commit_text_loop ci (l1 ++ l2) acc = commit_text_loop ci l2 (commit_text_loop ci l1 acc).
Proof.
  revert acc. induction l1 as [|g r IH]; intros [[res en] ok]; [reflexivity|]. cbn [app commit_text_loop]. apply IH.
Qed.

Definition op_eq_getcommit (o : op) : {o = OpGetCommit} + {o <> OpGetCommit}.
Proof. destruct o; try (right; discriminate). left; reflexivity. Defined.

Section Commit.
Variable cfg : config.
Variable translate : bytes -> seginfo -> list cand.

Lemma ac_on_update_composing c : is_composing (ac_on_update c) = is_composing c.
Proof. unfold ac_on_update. destruct (cx_conn c && negb (is_composing c)); reflexivity. Qed.
Lemma ac_on_update_commit_text c : ctx_commit_text (ac_on_update c) = ctx_commit_text c \/ is_composing c = false.
Proof. unfold ac_on_update. destruct (is_composing c); [left|right; reflexivity]. rewrite andb_false_r. reflexivity. Qed.

Lemma clear_not_composing c : is_composing (clear cfg translate c) = false.
Proof.
  unfold clear, compose. rewrite ac_on_update_composing. unfold compose_core. cbn [cx_caret cx_input cx_comp firstn length Nat.ltb Nat.leb andb].
  unfold reset_input at 1. cbn [sg_with_segs sg_segs dispose Nat.ltb Nat.leb sg_input].
  cbn [calc_segmentation calc_loop has_finished cur_end sg_segs sg_input length Nat.leb fst snd].
  unfold translate_segs. cbn [sg_segs sg_input translate_list sg_with_segs].
  unfold ctx_check, is_composing. cbn. reflexivity.
Qed.

(** Context::Commit: the record pushed onto the commit history first changes neither
    the commit text nor the formatter's options *)
Lemma ctx_commit_text_ext c c' : cx_opts c' = cx_opts c -> cx_comp c' = cx_comp c -> ctx_commit_text c' = ctx_commit_text c.
Proof. intros E1 E2. unfold ctx_commit_text, get_option. rewrite E1, E2. reflexivity. Qed.
Lemma format_text_ext c c' t : cx_opts c' = cx_opts c -> format_text c' t = format_text c t.
Proof. intros E1. unfold format_text, get_option. rewrite E1. reflexivity. Qed.
Lemma ctx_check_opts c b e : cx_opts (ctx_check c b e) = cx_opts c.
Proof. destruct b; reflexivity. Qed.
Lemma ctx_check_comp c b e : cx_comp (ctx_check c b e) = cx_comp c.
Proof. destruct b; reflexivity. Qed.

Lemma commit_composing s :
  is_composing (st_ctx s) = true ->
  st_commit (fst (commit cfg translate s))
  = st_commit s ++ format_text (st_ctx s) (fst (ctx_commit_text (st_ctx s))) /\
  is_composing (st_ctx (fst (commit cfg translate s))) = false.
Proof.
  intros Hc. unfold commit. rewrite Hc. cbn [negb].
  destruct (hist_push_comp (cf_hist_guard cfg) (cx_hist (st_ctx s)) (cx_comp (st_ctx s)) (cx_input (st_ctx s))) as [[h okh] live].
  set (c1 := ctx_check (ctx_check (ctx_with_hist (st_ctx s) h) okh ErrSubstr) live ErrDangling).
  assert (Eo : cx_opts c1 = cx_opts (st_ctx s)) by (unfold c1; rewrite !ctx_check_opts; reflexivity).
  assert (Ec : cx_comp c1 = cx_comp (st_ctx s)) by (unfold c1; rewrite !ctx_check_comp; reflexivity).
  rewrite (ctx_commit_text_ext (st_ctx s) c1 Eo Ec).
  destruct (ctx_commit_text (st_ctx s)) as [text ok]. rewrite (format_text_ext (st_ctx s) c1 _ Eo).
  cbn [fst st_commit st_ctx st_with_ctx sink].
  split; [reflexivity | apply clear_not_composing].
Qed.

(** C03 (1): commit_composition delivers the preview reported just before: in ANY state, full-shape conversion on
    or off, the shape formatter's image of it (ShapeFormatter::Format: the identity with the option off) *)
Lemma view_preview s :
  v_preview (fst (view_of cfg s)) = if is_composing (st_ctx s) then fst (ctx_commit_text (st_ctx s)) else [].
Proof. unfold view_of. destruct (ctx_commit_text (st_ctx s)), (menu_view cfg (st_ctx s)). reflexivity. Qed.

Theorem commit_any_shape s :
  let v := fst (view_of cfg s) in
  let r := exec cfg translate s OpCommit in
  st_commit (fst r) = st_commit s ++ (if is_composing (st_ctx s) then format_text (st_ctx s) (v_preview v) else []) /\
  is_composing (st_ctx (fst r)) = false.
Proof.
  cbn [exec fst]. rewrite view_preview. destruct (is_composing (st_ctx s)) eqn:Ec; [exact (commit_composing s Ec)|].
  unfold commit. rewrite Ec, app_nil_r. split; [reflexivity | exact Ec].
Qed.

Theorem commit_is_preview s :
  get_option (st_ctx s) opt_full_shape = false ->
  let v := fst (view_of cfg s) in
  let r := exec cfg translate s OpCommit in
  st_commit (fst r) = st_commit s ++ v_preview v /\
  is_composing (st_ctx (fst r)) = false /\
  snd r = RBool (negb (match st_commit (fst r) with [] => true | _ => false end)).
Proof.
  intros Hfs. destruct (commit_any_shape s) as (C1 & C2). split; [|split; [exact C2 | reflexivity]].
  rewrite C1. unfold format_text. rewrite Hfs, view_preview. now destruct (is_composing (st_ctx s)).
Qed.

(** what the shape formatter does to a text: nothing unless it holds a printable ASCII byte (0x20 .. 0x7e), and
    then every such byte becomes its three-byte full-width form (U+3000 for the space, U+FF01 + (b - 0x21) otherwise)
    while every other byte - all of multi-byte UTF-8 - is kept: Chinese text is delivered as previewed in either mode *)
Lemma shape_wide_spec b : if shape_outside b then shape_wide b = [b] else length (shape_wide b) = 3.
Proof.
  unfold shape_wide, shape_outside.
  destruct (N.eqb_spec (N_of_byte b) 32), (N.ltb_spec (N_of_byte b) 32), (N.ltb_spec 126 (N_of_byte b)),
    (N.ltb_spec 32 (N_of_byte b)), (N.leb_spec (N_of_byte b) 126); cbn [orb andb]; reflexivity || lia.
Qed.

Lemma flat_map_shape_wide_outside t : forallb shape_outside t = true -> flat_map shape_wide t = t.
Proof.
  induction t as [|b t IH]; [reflexivity|]. cbn [forallb flat_map]. intros H. apply andb_true_iff in H. destruct H as [Hb Ht].
  pose proof (shape_wide_spec b) as Hw. rewrite Hb in Hw. now rewrite Hw, (IH Ht).
Qed.
Theorem format_text_no_ascii c t : forallb shape_outside t = true -> format_text c t = t.
Proof. intros H. unfold format_text. rewrite H. destruct (negb (get_option c opt_full_shape)); reflexivity. Qed.
Theorem format_text_length c t :
  length (format_text c t) = length t \/
  (get_option c opt_full_shape = true /\
   length (format_text c t) = length t + 2 * length (filter (fun b => negb (shape_outside b)) t)).
Proof.
  unfold format_text. destruct (get_option c opt_full_shape); cbn [negb]; [|left; reflexivity].
  destruct (forallb shape_outside t); [left; reflexivity|]. right. split; [reflexivity|].
  induction t as [|b t IH]; [reflexivity|]. cbn [flat_map filter]. rewrite app_length, IH.
  pose proof (shape_wide_spec b) as Hw. destruct (shape_outside b); rewrite Hw; cbn [negb length]; lia.
Qed.

(** after Segment::Close the segment ends at min (candidate end, segment end) *)
Definition covers_rest (c : context) (g : segment) (cd : cand) : Prop :=
  Nat.min (c_end cd) (s_end g) = length (cx_input c).

Lemma seg_close_selected g i cd :
  cand_at g i = Some cd ->
  let g' := seg_with_status (seg_with_sel g i) SSelected in
  selected_cand (seg_close g') = Some cd /\ s_end (seg_close g') = Nat.min (c_end cd) (s_end g).
Proof.
  intros Hc. cbv zeta. unfold seg_close.
  assert (Hs : selected_cand (seg_with_status (seg_with_sel g i) SSelected) = Some cd) by exact Hc.
  rewrite Hs. cbn [s_end seg_with_status seg_with_sel].
  destruct (c_end cd <? s_end g) eqn:E; [apply Nat.ltb_lt in E | apply Nat.ltb_ge in E]; split; auto; cbn; lia.
Qed.

Lemma on_select_confirmed s1 g1 r :
  sg_segs (cx_comp (st_ctx s1)) = g1 :: r ->
  s_end (seg_close g1) = length (cx_input (st_ctx s1)) ->
  let c2 := ctx_with_comp (st_ctx s1)
              (sg_with_segs (cx_comp (st_ctx s1)) (seg_with_status (seg_close g1) SConfirmed :: r)) in
  let s' := if get_option (st_ctx s1) opt_auto_commit
            then fst (commit cfg translate (st_with_ctx s1 c2))
            else st_with_ctx s1 (ctx_with_comp c2 (fst (forward (cx_comp c2)))) in
  on_select cfg translate s1 = mkSt (st_ctx s') (st_nav_input s') [] (st_commit s') (st_odd s') (st_kb_last s') (st_ac s') (st_clock s').
Proof.
  intros Hsegs Hend. cbv zeta. unfold on_select. rewrite Hsegs, Hend, Nat.eqb_refl.
  unfold sg_set_back. rewrite Hsegs. reflexivity.
Qed.

(** the commit text of a composition whose last segment [g2] has the selected candidate [cd] reaching the end of the
    composition's input, before and after Forward (which may add an empty segment behind it) *)
Lemma commit_text_confirmed (c : context) ci g2 r cd sg :
  sg = mkSegm ci (g2 :: r) \/ sg = fst (forward (mkSegm ci (g2 :: r))) ->
  selected_cand g2 = Some cd -> length ci <= c_end cd -> length ci <= s_end g2 ->
  get_option c opt_dumb = false ->
  fst (ctx_commit_text (ctx_with_comp c sg)) = fst (fst (commit_text_loop ci (rev r) ([], 0, true))) ++ c_text cd /\
  is_composing (ctx_with_comp c sg) = true.
Proof.
  intros Hsg Hsel Hge1 Hge2 Hdumb.
  assert (Hl : exists l, sg = mkSegm ci (l ++ g2 :: r) /\ (l = [] \/ l = [new_segment (s_end g2) (s_end g2)])).
  { destruct Hsg as [-> | ->]; [exists []; auto|]. unfold forward. cbn [sg_segs].
    destruct (s_start g2 =? s_end g2); cbn [fst]; [exists [] | exists [new_segment (s_end g2) (s_end g2)]]; auto. }
  destruct Hl as (l & -> & Hl).
  split; [|unfold is_composing, sg_empty; cbn [cx_comp ctx_with_comp sg_segs]; destruct l; apply orb_true_r].
  unfold ctx_commit_text. change (get_option (ctx_with_comp c _) opt_dumb) with (get_option c opt_dumb). rewrite Hdumb.
  unfold comp_commit_text, segs_fwd. cbn [cx_comp ctx_with_comp sg_segs sg_input].
  rewrite rev_app_distr. cbn [rev]. rewrite <- app_assoc. cbn [app].
  rewrite commit_text_loop_app.
  destruct (commit_text_loop ci (rev r) ([], 0, true)) as [[tr enr] okr]. cbn [fst].
  rewrite (commit_text_loop_app ci [g2] (rev l)). cbn [commit_text_loop]. rewrite Hsel.
  destruct Hl as [-> | ->]; cbn [rev app commit_text_loop].
  - replace (c_end cd <? length ci) with false by (symmetry; apply Nat.ltb_ge; lia). reflexivity.
  - cbn [selected_cand cand_at new_segment s_menu has_tag s_tags existsb s_start s_end].
    unfold substr_se. destruct (length ci <? s_end g2); cbn [fst snd].
    + replace (s_end g2 <? length ci) with false by (symmetry; apply Nat.ltb_ge; lia).
      cbn [fst]. now rewrite app_nil_r.
    + rewrite Nat.leb_refl, Nat.sub_diag. cbn [firstn].
      replace (s_end g2 <? length ci) with false by (symmetry; apply Nat.ltb_ge; lia).
      cbn [fst]. now rewrite app_nil_r.
Qed.

Theorem select_covering_rest s g r i cd :
  sg_segs (cx_comp (st_ctx s)) = g :: r ->
  cand_at g i = Some cd ->
  covers_rest (st_ctx s) g cd ->
  length (sg_input (cx_comp (st_ctx s))) <= length (cx_input (st_ctx s)) ->
  get_option (st_ctx s) opt_dumb = false ->
  get_option (st_ctx s) opt_full_shape = false ->
  let confirmed := comp_confirmed_text (cx_comp (st_ctx s)) in
  let s' := fst (select cfg translate s i) in
  snd (select cfg translate s i) = true /\
  if get_option (st_ctx s) opt_auto_commit
  then st_commit s' = st_commit s ++ confirmed ++ c_text cd /\ is_composing (st_ctx s') = false
  else st_commit s' = st_commit s /\ fst (ctx_commit_text (st_ctx s')) = confirmed ++ c_text cd
       /\ is_composing (st_ctx s') = true.
Proof.
  intros Hsegs Hc Hcov Hlen Hdumb Hfs. cbv zeta. unfold select. rewrite Hsegs, Hc. cbn [fst snd].
  split; [reflexivity|].
  destruct (seg_close_selected g i cd Hc) as (Hsel & Hend). cbv zeta in Hsel, Hend.
  set (g' := seg_with_status (seg_with_sel g i) SSelected) in *.
  set (s1 := st_with_ctx s (ctx_with_comp (st_ctx s) (sg_set_back (cx_comp (st_ctx s)) g'))).
  assert (Hsegs1 : sg_segs (cx_comp (st_ctx s1)) = g' :: r).
  { unfold s1, sg_set_back. cbn. rewrite Hsegs. reflexivity. }
  unfold covers_rest in Hcov.
  assert (Hend1 : s_end (seg_close g') = length (cx_input (st_ctx s1))) by (rewrite Hend; exact Hcov).
  rewrite (on_select_confirmed s1 g' r Hsegs1 Hend1). cbv zeta.
  set (g2 := seg_with_status (seg_close g') SConfirmed).
  set (ci := sg_input (cx_comp (st_ctx s))) in *.
  assert (Hci : sg_with_segs (cx_comp (st_ctx s1)) (g2 :: r) = mkSegm ci (g2 :: r)).
  { unfold s1, sg_with_segs, sg_set_back. cbn. rewrite Hsegs. reflexivity. }
  rewrite Hci.
  assert (Ht : forall sg, sg = mkSegm ci (g2 :: r) \/ sg = fst (forward (mkSegm ci (g2 :: r))) ->
               fst (ctx_commit_text (ctx_with_comp (st_ctx s1) sg)) = comp_confirmed_text (cx_comp (st_ctx s)) ++ c_text cd /\
               is_composing (ctx_with_comp (st_ctx s1) sg) = true).
  { intros sg Hsg. unfold comp_confirmed_text. rewrite Hsegs.
    apply (commit_text_confirmed (st_ctx s1) ci g2 r cd sg Hsg Hsel); [| |exact Hdumb]; cbn [g2 s_end seg_with_status]; lia. }
  change (get_option (st_ctx s1) opt_auto_commit) with (get_option (st_ctx s) opt_auto_commit).
  destruct (get_option (st_ctx s) opt_auto_commit); cbn [st_ctx st_commit st_with_ctx cx_comp ctx_with_comp].
  - (* delivered at once *)
    destruct (Ht _ (or_introl eq_refl)) as (Et & Hcomp).
    destruct (commit_composing (st_with_ctx s1 (ctx_with_comp (st_ctx s1) (mkSegm ci (g2 :: r)))) Hcomp) as (C1 & C2).
    rewrite C1, C2. cbn [st_ctx st_with_ctx st_commit]. rewrite Et. unfold format_text.
    change (get_option (ctx_with_comp (st_ctx s1) _) opt_full_shape) with (get_option (st_ctx s) opt_full_shape).
    rewrite Hfs. split; reflexivity.
  - (* reported as the new preview *)
    split; [reflexivity | exact (Ht _ (or_intror eq_refl))].
Qed.

Definition appends (s s' : state) : Prop := exists d, st_commit s' = st_commit s ++ d.

Lemma appends_refl s : appends s s.
Proof. exists []. now rewrite app_nil_r. Qed.
Lemma appends_trans a b c : appends a b -> appends b c -> appends a c.
Proof. intros (d1 & H1) (d2 & H2). exists (d1 ++ d2). now rewrite H2, H1, app_assoc. Qed.

Definition grows (f : state -> state) : Prop := forall s, appends s (f s).

Lemma grows_comp f g : grows f -> grows g -> grows (fun s => g (f s)).
Proof. intros Hf Hg s. eapply appends_trans; [apply Hf | apply Hg]. Qed.

Lemma lift s0 (f : state -> state) : (forall s, appends s (f s)) -> forall s, appends s0 s -> appends s0 (f s).
Proof. intros Hf s H. eapply appends_trans; [exact H | apply Hf]. Qed.

(** "the commit text still starts with that of [s0]" survives every update the components below the key binder make
    (CommitFrame.v), so each of them only appends *)
Lemma appends_stable s0 : stable (appends s0).
Proof.
  split; [intros s c i sp o a clk H; exact H|].
  intros s t (d & H). exists (d ++ t). cbn [sink st_commit]. now rewrite H, app_assoc.
Qed.

Lemma appends_kept s0 : kept cfg translate (appends s0).
Proof. apply stable_kept, appends_stable. Qed.
Lemma appends_kept_api s0 : kept_api cfg translate (appends s0) (fun _ => True).
Proof. apply stable_kept_api; [apply appends_stable | intros s v H; exact H]. Qed.

Lemma punctuator_appends s k : appends s (fst (punctuator_process cfg translate s k)).
Proof. apply punctuator_stable; [apply appends_stable | apply appends_refl]. Qed.

(** the key binder also writes last_key_, replays keys through the re-entered ProcessKey and, out of nesting depth,
    sets an error: none of it touches the commit text *)
Lemma recursion_appends s0 : keeps (appends s0) (fun c => ctx_fail c ErrRecursion).
Proof. intros s H. apply on_ctx_stable; [apply appends_stable | exact H]. Qed.

Lemma key_binder_appends R red s k :
  (forall f, R = Some f -> forall x tk, appends x (fst (f x tk))) ->
  appends s (fst (key_binder_process cfg translate R red s k)).
Proof.
  intros HR. apply (key_binder_process_keeps cfg translate _ (appends_kept s) _ (appends_kept_api s)); [| |apply appends_refl].
  - intros f E x tk. apply (lift s (fun x => fst (f x tk))). intros y. apply (HR f E).
  - intros _. right. right. apply recursion_appends.
Qed.

Lemma process_key_n_appends fuel : forall red s k, appends s (fst (process_key_n cfg translate fuel red s k)).
Proof.
  intros red s k. apply (process_key_n_keeps cfg translate _ (appends_kept s) _ (appends_kept_api s)); [|apply appends_refl].
  intros _. right. right. apply recursion_appends.
Qed.

Lemma exec_appends s o : o <> OpGetCommit -> appends s (fst (exec cfg translate s o)).
Proof.
  intros Hne. apply (exec_keeps cfg translate _ (appends_kept s) _ (appends_kept_api s)); [intros; exact I | | apply appends_refl].
  intros E. contradiction.
Qed.

Lemma step_commit_eq s o : st_commit (fst (step cfg translate s o)) =
  match cx_err (st_ctx s) with Some _ => st_commit s | None => st_commit (fst (exec cfg translate s o)) end.
Proof.
  unfold step. destruct (cx_err (st_ctx s)); [reflexivity|].
  destruct (exec cfg translate s o) as [s1 r]. destruct (view_of cfg s1) as [v ve]. cbn [fst].
  destruct ve; cbn; match goal with |- context [match ?x with Some _ => _ | None => _ end] => destruct x end; reflexivity.
Qed.

Lemma step_appends s o : o <> OpGetCommit -> appends s (fst (step cfg translate s o)).
Proof.
  intros Hne. destruct (exec_appends s o Hne) as (d & Hd). unfold appends. rewrite step_commit_eq.
  destruct (cx_err (st_ctx s)); [exists []; now rewrite app_nil_r | exists d; exact Hd].
Qed.

Definition delivered (s : state) (o : op) : bytes :=
  match o with
  | OpGetCommit => []
  | _ => skipn (length (st_commit s)) (st_commit (fst (step cfg translate s o)))
  end.

Lemma delivered_spec s o : o <> OpGetCommit -> st_commit (fst (step cfg translate s o)) = st_commit s ++ delivered s o.
Proof.
  intros Hne. destruct (step_appends s o Hne) as (d & Hd). unfold delivered.
  destruct o; try congruence; rewrite Hd, skipn_app, skipn_all, Nat.sub_diag; reflexivity.
Qed.

Fixpoint deliveries (s : state) (ops : list op) : list bytes :=
  match ops with
  | [] => []
  | o :: r => delivered s o :: deliveries (fst (step cfg translate s o)) r
  end.

Definition read_of (o : obs) : bytes := match o with Obs (RCommit (Some t)) _ => t | _ => [] end.
Definition not_crash (o : obs) : bool := match o with ObsCrash _ => false | Obs _ _ => true end.

Lemma step_ok s o :
  not_crash (snd (step cfg translate s o)) = true ->
  st_commit (fst (step cfg translate s o)) = st_commit (fst (exec cfg translate s o)) /\
  exists v, snd (step cfg translate s o) = Obs (snd (exec cfg translate s o)) v.
Proof.
  rewrite step_commit_eq. unfold step. destruct (cx_err (st_ctx s)); [discriminate|].
  destruct (exec cfg translate s o) as [s1 r]. destruct (view_of cfg s1) as [v ve].
  match goal with |- context [match ?x with Some _ => _ | None => _ end] => destruct x end; [discriminate|].
  intros _. split; [reflexivity | exists v; reflexivity].
Qed.

Lemma get_commit_step s :
  not_crash (snd (step cfg translate s OpGetCommit)) = true ->
  read_of (snd (step cfg translate s OpGetCommit)) = st_commit s /\
  st_commit (fst (step cfg translate s OpGetCommit)) = [] /\
  (exists v, snd (step cfg translate s OpGetCommit)
             = Obs (RCommit (match st_commit s with [] => None | t => Some t end)) v).
Proof.
  intros H. destruct (step_ok s OpGetCommit H) as (-> & v & ->). cbn [exec].
  destruct (st_commit s) eqn:Ec; cbn [fst snd read_of st_commit]; rewrite ?Ec; repeat split; exists v; reflexivity.
Qed.

Lemma other_ops_read_nothing s o v : o <> OpGetCommit -> read_of (Obs (snd (exec cfg translate s o)) v) = [].
Proof.
  intros Hne. destruct o; try congruence; cbn [exec];
    repeat match goal with |- context [let (_, _) := ?t in _] => destruct t end; reflexivity.
Qed.

Lemma run_from_exactly_once ops : forall s,
  forallb not_crash (snd (run_from cfg translate s ops)) = true ->
  concat (map read_of (snd (run_from cfg translate s ops))) ++ st_commit (fst (run_from cfg translate s ops))
  = st_commit s ++ concat (deliveries s ops).
Proof.
  induction ops as [|o r IH]; intros s Hnc; [cbn; now rewrite app_nil_r|].
  cbn [run_from deliveries] in *. rewrite (surjective_pairing (step cfg translate s o)) in *.
  specialize (IH (fst (step cfg translate s o))). rewrite (surjective_pairing (run_from cfg translate _ r)) in *.
  cbn [fst snd map concat forallb] in *. apply andb_prop in Hnc as (Hnc1 & Hnc2). rewrite <- app_assoc, (IH Hnc2).
  destruct (op_eq_getcommit o) as [-> | Hne].
  - destruct (get_commit_step s Hnc1) as (-> & -> & _). reflexivity.
  - destruct (step_ok s o Hnc1) as (_ & v & ->).
    now rewrite (other_ops_read_nothing s o v Hne), (delivered_spec s o Hne), <- app_assoc.
Qed.

Theorem exactly_once ops :
  forallb not_crash (snd (run cfg translate ops)) = true ->
  concat (map read_of (snd (run cfg translate ops))) ++ st_commit (fst (run cfg translate ops))
  = concat (deliveries (init_state cfg) ops).
Proof. intros H. unfold run in *. now rewrite (run_from_exactly_once ops (init_state cfg) H). Qed.

Theorem second_read_empty s :
  let r1 := step cfg translate s OpGetCommit in
  let r2 := step cfg translate (fst r1) OpGetCommit in
  not_crash (snd r1) = true -> not_crash (snd r2) = true ->
  read_of (snd r2) = [] /\ exists v, snd r2 = Obs (RCommit None) v.
Proof.
  cbv zeta. intros H1 H2. destruct (get_commit_step s H1) as (_ & Hc & _).
  destruct (get_commit_step _ H2) as (Hr & _ & (v & Hv)). rewrite Hc in Hr, Hv. split; [exact Hr | exists v; exact Hv].
Qed.

End Commit.
