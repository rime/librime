(** Eng/WfProofs.v – C02: the invariant every API operation maintains.

    [cinv c]: the caret lies inside the input, and every segment whose menu
    has candidates has its selected_index inside that menu (menus are the
    translator's lists, shorter than 2^31 - page_size).  This is the invariant
    the code really maintains once Context::DeleteCandidate looks the
    candidate up first ([cf_del_checked cfg = true]); every function of
    Engine.v / Procs.v / Api.v preserves it, whatever the arguments.

    The geometry of segmentations ([sgeo]) needs no hypothesis.  Every
    observation of a history is the view (or the error flag) of a state that
    satisfies the invariant ([reachable_inv]); the statements about histories
    follow from that. *)
From Coq Require Import List Arith NArith ZArith Bool Lia.
From Coq.Strings Require Import Byte.
From RimeV Require Import Base.Bytes Base.ListX Eng.Keys Eng.Cand Eng.Menu Eng.Segm Eng.Ctx Eng.Engine Eng.Procs
     Eng.Api Eng.TotalLift Eng.Spec Eng.WfView Eng.Utf8Proofs.
Import ListNotations.

(** segments are stored reversed *)
Fixpoint chain_rev (l : list segment) : Prop :=
  match l with
  | [] => True
  | g :: r => match r with [] => s_start g = 0 | g' :: _ => s_start g = s_end g' end /\ chain_rev r
  end.
Definition seg_geo (n : nat) (g : segment) : Prop := s_start g <= s_end g /\ s_end g <= n.
Definition sgeo (sg : segmentation) : Prop :=
  chain_rev (sg_segs sg) /\ Forall (seg_geo (length (sg_input sg))) (sg_segs sg).

Lemma forward_cases sg :
  fst (forward sg) = sg /\ cur_start sg = cur_end sg \/
  fst (forward sg) = sg_push_back sg (new_segment (cur_end sg) (cur_end sg)).
Proof.
  unfold forward, cur_start, cur_end. destruct (sg_segs sg) as [|g r]; [left; split; reflexivity|].
  destruct (s_start g =? s_end g) eqn:E; [left; split; [reflexivity | apply Nat.eqb_eq, E] | right; reflexivity].
Qed.
Lemma trim_cases sg : fst (trim sg) = sg \/ fst (trim sg) = sg_pop_back sg.
Proof. unfold trim. destruct (sg_segs sg) as [|g r]; [left; reflexivity|]. destruct (_ =? _); [right | left]; reflexivity. Qed.

(** the segmentation's own input is only written by Reset *)
Lemma forward_input sg : sg_input (fst (forward sg)) = sg_input sg.
Proof. destruct (forward_cases sg) as [(-> & _) | ->]; reflexivity. Qed.
Lemma trim_input sg : sg_input (fst (trim sg)) = sg_input sg.
Proof. destruct (trim_cases sg) as [-> | ->]; reflexivity. Qed.
Lemma set_back_input sg g : sg_input (sg_set_back sg g) = sg_input sg.
Proof. unfold sg_set_back. destruct (sg_segs sg); reflexivity. Qed.
Lemma reset_input_input sg ni : sg_input (reset_input sg ni) = ni.
Proof. unfold reset_input. destruct (dispose _ _). reflexivity. Qed.
Lemma add_segment_input sg g : sg_input (fst (add_segment sg g)) = sg_input sg.
Proof.
  unfold add_segment. destruct (negb _); [reflexivity|]. destruct (sg_segs sg) as [|l r]; [reflexivity|].
  destruct (s_end g <? s_end l); [reflexivity|]. destruct (s_end l <? s_end g); reflexivity.
Qed.

Lemma seg_geo_le n m g : n <= m -> seg_geo n g -> seg_geo m g.
Proof. intros H (A & B). split; lia. Qed.

Lemma sgeo_nil i : sgeo (mkSegm i []).
Proof. split; constructor. Qed.

Lemma chain_tl l : chain_rev l -> chain_rev (tl l).
Proof. destruct l; [auto|]. intros (_ & H); exact H. Qed.

Lemma pop_back_geo sg : sgeo sg -> sgeo (sg_pop_back sg).
Proof.
  intros (Hc & Hf). split; cbn; [apply chain_tl, Hc|]. destruct (sg_segs sg); [constructor | inversion Hf; assumption].
Qed.

Lemma with_segs_tl_geo sg : sgeo sg -> sgeo (sg_with_segs sg (tl (sg_segs sg))).
Proof. apply pop_back_geo. Qed.

Lemma cur_geo sg : sgeo sg -> cur_start sg <= cur_end sg /\ cur_end sg <= length (sg_input sg).
Proof.
  intros (_ & Hf). unfold cur_start, cur_end. destruct (sg_segs sg); [lia|]. inversion Hf as [|? ? (A & B) _]; subst. lia.
Qed.

Lemma push_back_geo sg g :
  sgeo sg -> s_start g = cur_end sg -> seg_geo (length (sg_input sg)) g -> sgeo (sg_push_back sg g).
Proof.
  intros (Hc & Hf) Hs Hg. split; cbn; [|constructor; assumption].
  unfold cur_end in Hs. destruct (sg_segs sg); split; assumption.
Qed.

Lemma forward_geo sg : sgeo sg -> sgeo (fst (forward sg)).
Proof.
  intros H. destruct (forward_cases sg) as [(-> & _) | ->]; [exact H|].
  apply push_back_geo; [exact H | reflexivity | split; cbn; [lia | apply cur_geo, H]].
Qed.

Lemma trim_geo sg : sgeo sg -> sgeo (fst (trim sg)).
Proof. intros H. destruct (trim_cases sg) as [-> | ->]; [exact H | apply pop_back_geo, H]. Qed.

Lemma set_back_geo sg g g0 r :
  sgeo sg -> sg_segs sg = g0 :: r -> s_start g = s_start g0 -> seg_geo (length (sg_input sg)) g ->
  sgeo (sg_with_segs sg (g :: r)).
Proof.
  intros (Hc & Hf) E Hs Hg. rewrite E in Hc, Hf. split; cbn.
  - destruct Hc as (H1 & H2). split; [rewrite Hs; exact H1 | exact H2].
  - inversion Hf; subst. constructor; assumption.
Qed.

Lemma chain_ends_le n g r : chain_rev (g :: r) -> Forall (seg_geo n) (g :: r) -> Forall (fun g' => s_end g' <= s_start g) r.
Proof.
  revert g. induction r as [|g1 r IH]; intros g Hc Hf; [constructor|].
  destruct Hc as (H1 & Hc1). inversion Hf as [|? ? Hg Hf1]; subst.
  constructor; [lia|]. specialize (IH g1 Hc1 Hf1). inversion Hf1 as [|? ? (A & B) _]; subst.
  eapply Forall_impl; [|exact IH]. intros a Ha. cbn in Ha. lia.
Qed.

Lemma dispose_geo l d n :
  chain_rev l -> Forall (seg_geo n) l ->
  chain_rev (fst (dispose l d)) /\ Forall (seg_geo (Nat.min n d)) (fst (dispose l d)) /\ (d <= n -> True).
Proof.
  induction l as [|g r IH]; intros Hc Hf; [cbn; repeat split; constructor|]. cbn [dispose].
  destruct (d <? s_end g) eqn:E.
  - destruct (dispose r d) as [l' k] eqn:Ed. cbn [fst] in *. inversion Hf; subst. apply IH; [apply (chain_tl (g :: r)), Hc | assumption].
  - apply Nat.ltb_ge in E. cbn [fst]. split; [exact Hc|]. split; [|auto].
    pose proof (chain_ends_le n g r Hc Hf) as Hle. inversion Hf as [|? ? (A & B) Hr]; subst.
    constructor; [split; lia|].
    eapply Forall_impl; [|apply (Forall_and Hle Hr)]. intros a (H1 & A1 & B1). cbn in H1. split; lia.
Qed.

Lemma common_prefix_le a b : common_prefix a b <= length b.
Proof.
  revert b. induction a as [|x a IH]; intros [|y b]; cbn; try lia. destruct (Byte.eqb x y); [specialize (IH b)|]; lia.
Qed.

Lemma reset_input_geo sg ni : sgeo sg -> sgeo (reset_input sg ni).
Proof.
  intros (Hc & Hf). unfold reset_input.
  destruct (dispose_geo (sg_segs sg) (common_prefix (sg_input sg) ni) (length (sg_input sg)) Hc Hf) as (D1 & D2 & _).
  destruct (dispose (sg_segs sg) (common_prefix (sg_input sg) ni)) as [l k]. cbn [fst] in *.
  (* the segments that stay end inside the common prefix, so inside the new input *)
  assert (H1 : sgeo (mkSegm ni l)).
  { split; cbn; [exact D1|]. eapply Forall_impl; [|exact D2]. intros a. apply seg_geo_le.
    pose proof (common_prefix_le (sg_input sg) ni). lia. }
  destruct (0 <? k); [|exact H1].
  apply forward_geo in H1. revert H1. unfold forward. cbn [sg_segs sg_with_segs].
  destruct l as [|g r]; [auto|]. destruct (s_start g =? s_end g); auto.
Qed.

Lemma add_segment_geo sg g :
  sgeo sg -> seg_geo (length (sg_input sg)) g -> sgeo (fst (add_segment sg g)).
Proof.
  intros H Hg. unfold add_segment. destruct (s_start g =? cur_start sg) eqn:Es; cbn [negb]; [|exact H].
  apply Nat.eqb_eq in Es. destruct (sg_segs sg) as [|last r] eqn:E.
  - cbn [fst]. split; cbn; rewrite E; [|constructor; [exact Hg | constructor]].
    unfold cur_start in Es. rewrite E in Es. split; [exact Es | exact I].
  - unfold cur_start in Es. rewrite E in Es.
    destruct (s_end g <? s_end last); cbn [fst]; [exact H|].
    destruct (s_end last <? s_end g); cbn [fst].
    + apply (set_back_geo sg g last r H E Es Hg).
    + apply (set_back_geo sg _ last r H E); [reflexivity|]. destruct H as (_ & Hf). rewrite E in Hf. inversion Hf; assumption.
Qed.

Lemma add_segment_cur sg g :
  cur_start (fst (add_segment sg g)) = cur_start sg /\ cur_end sg <= cur_end (fst (add_segment sg g)).
Proof.
  unfold add_segment. destruct (s_start g =? cur_start sg) eqn:Es; cbn [negb fst]; [|split; [reflexivity | lia]].
  apply Nat.eqb_eq in Es. unfold cur_start, cur_end in *. destruct (sg_segs sg) as [|l r] eqn:E; cbn [fst sg_push_back sg_segs sg_with_segs].
  - split; [exact Es | lia].
  - destruct (s_end g <? s_end l) eqn:E1; cbn [fst]; [rewrite E; split; [reflexivity | lia]|].
    destruct (s_end l <? s_end g) eqn:E2; cbn [fst sg_segs sg_with_segs].
    + apply Nat.ltb_lt in E2. split; [exact Es | lia].
    + cbn. split; [reflexivity | lia].
Qed.

Lemma forward_cur_end sg : cur_end (fst (forward sg)) = cur_end sg.
Proof. destruct (forward_cases sg) as [(-> & _) | ->]; reflexivity. Qed.

Lemma forward_cur_start sg : cur_start (fst (forward sg)) = cur_end sg.
Proof. destruct (forward_cases sg) as [(-> & E) | ->]; [exact E | reflexivity]. Qed.

Lemma chain_same l l' : map s_start l' = map s_start l -> map s_end l' = map s_end l -> chain_rev l -> chain_rev l'.
Proof.
  revert l'. induction l as [|g r IH]; intros [|g' r'] Hs He Hc; try discriminate; [exact I|].
  cbn [map] in Hs, He. injection Hs as Hs1 Hs2. injection He as He1 He2. destruct Hc as (H1 & H2).
  split; [|apply IH; assumption]. destruct r as [|g1 r1]; destruct r' as [|g1' r1']; try discriminate; [congruence|].
  cbn [map] in Hs2, He2. injection He2 as He21 _. congruence.
Qed.

Lemma geo_same n l l' :
  map s_start l' = map s_start l -> map s_end l' = map s_end l -> Forall (seg_geo n) l -> Forall (seg_geo n) l'.
Proof.
  revert l'. induction l as [|g r IH]; intros [|g' r'] Hs He Hf; try discriminate; [constructor|].
  cbn [map] in Hs, He. injection Hs as Hs1 Hs2. injection He as He1 He2. inversion Hf as [|? ? (A & B) Hr]; subst.
  constructor; [split; lia | apply IH; assumption].
Qed.

Lemma sgeo_same sg l' :
  map s_start l' = map s_start (sg_segs sg) -> map s_end l' = map s_end (sg_segs sg) -> sgeo sg -> sgeo (sg_with_segs sg l').
Proof. intros Hs He (Hc & Hf). split; cbn; [apply (chain_same _ _ Hs He Hc) | apply (geo_same _ _ _ Hs He Hf)]. Qed.

Lemma seg_reopen_geo n g k :
  seg_geo n g -> k <= n -> s_start (fst (seg_reopen g k)) = s_start g /\ seg_geo n (fst (seg_reopen g k)).
Proof.
  intros (A & B) Hk. unfold seg_reopen. destruct (negb (status_geb (s_status g) SSelected)); cbn [fst]; [split; [reflexivity | split; assumption]|].
  destruct (s_start g + s_length g =? k) eqn:E; cbn [fst]; [|split; [reflexivity | split; assumption]].
  apply Nat.eqb_eq in E. destruct (s_end g <? s_start g + s_length g) eqn:E2;
    [apply Nat.ltb_lt in E2 | apply Nat.ltb_ge in E2]; (split; [reflexivity|]);
    split; cbn [s_start s_end seg_with_status seg_with_tags seg_with_end]; lia.
Qed.

Lemma reopen_sel_rev_geo n l k l' :
  chain_rev l -> Forall (seg_geo n) l -> k <= n -> reopen_sel_rev l k = Some l' ->
  chain_rev l' /\ Forall (seg_geo n) l'.
Proof.
  revert l'. induction l as [|g r IH]; intros l' Hc Hf Hk E; [discriminate|].
  inversion Hf as [|? ? Hg Hr]; subst. cbn [reopen_sel_rev] in E.
  destruct (s_status g); try discriminate; try (apply IH; [apply (chain_tl (g :: r)), Hc | assumption..]).
  destruct (has_tag TSelectedBeforeEditing (s_tags g)); [discriminate|]. injection E as <-.
  destruct (seg_reopen_geo n g k Hg Hk) as (R1 & R2). destruct Hc as (C1 & C2).
  split; [split; [rewrite R1; exact C1 | exact C2] | constructor; assumption].
Qed.

Lemma drop_unselected_geo n l : chain_rev l -> Forall (seg_geo n) l ->
  chain_rev (fst (drop_unselected l)) /\ Forall (seg_geo n) (fst (drop_unselected l)).
Proof.
  induction l as [|g r IH]; intros Hc Hf; [split; assumption|]. cbn [drop_unselected].
  destruct (status_geb (s_status g) SSelected); [split; assumption|]. cbn [fst].
  inversion Hf; subst. apply IH; [apply (chain_tl (g :: r)), Hc | assumption].
Qed.

Lemma begin_editing_rev_maps l :
  map s_start (begin_editing_rev l) = map s_start l /\ map s_end (begin_editing_rev l) = map s_end l.
Proof.
  induction l as [|g r (I1 & I2)]; [split; reflexivity|]. cbn [begin_editing_rev].
  destruct (s_status g); cbn [map]; try (split; reflexivity); rewrite ?I1, ?I2; split; reflexivity.
Qed.

Section Pipeline.
Variable cfg : config.

(** abc_segmentor, punct_segmentor and ascii_segmentor leave the segmentation alone or call
    AddSegment with a fresh tagged segment [cur_start, k), cur_start < k <= |input| *)
Definition adds_segment (sg sg' : segmentation) : Prop :=
  sg' = sg \/
  exists k t, cur_start sg < k <= length (sg_input sg) /\
              sg' = fst (add_segment sg (seg_with_tags (new_segment (cur_start sg) k) t)).

Lemma abc_scan_le l f e : abc_scan cfg l f e <= length l.
Proof.
  revert f e. induction l as [|b r IH]; intros f e; cbn [abc_scan length]; [lia|].
  destruct (negb _ && negb _); [lia|]. destruct (e && _ && _); [lia|]. specialize (IH false (mem_byte b (cf_finals cfg) || (negb f && mem_byte b (cf_delims cfg)))). lia.
Qed.

Lemma abc_proceed_adds sg : adds_segment sg (abc_proceed cfg sg).
Proof.
  unfold abc_proceed. destruct (cur_start sg <? _) eqn:E; [|left; reflexivity]. apply Nat.ltb_lt in E.
  right. eexists _, _. split; [|reflexivity].
  pose proof (abc_scan_le (skipn (cur_start sg) (sg_input sg)) true true) as Hl. rewrite skipn_length in Hl. lia.
Qed.

Lemma punct_proceed_adds o h sg : adds_segment sg (fst (punct_proceed cfg o h sg)).
Proof.
  unfold punct_proceed. destruct (nth_error (sg_input sg) (cur_start sg)) as [ch|] eqn:En; [|left; reflexivity].
  destruct (negb (printable ch)); [left; reflexivity|]. destruct (punct_lookup cfg o ch); [|left; reflexivity].
  right. eexists _, _. split; [|reflexivity].
  assert (cur_start sg < length (sg_input sg)); [|lia]. apply nth_error_Some. rewrite En. discriminate.
Qed.

Lemma ascii_proceed_adds o sg : adds_segment sg (fst (ascii_proceed o sg)).
Proof.
  unfold ascii_proceed. destruct (negb (opts_get o opt_ascii_mode)); [left; reflexivity|].
  destruct (cur_start sg <? length (sg_input sg)) eqn:El; [|left; reflexivity]. apply Nat.ltb_lt in El.
  right. eexists _, _. split; [|reflexivity]. lia.
Qed.

Lemma segmentor_proceed_cases o h i sg :
  adds_segment sg (fst (segmentor_proceed cfg o h i sg)) \/
  segmentor_proceed cfg o h i sg = (fallback_proceed sg, false).
Proof.
  destruct i; cbn [segmentor_proceed fst];
    [left; apply abc_proceed_adds | left; apply punct_proceed_adds | right; reflexivity | left; apply ascii_proceed_adds].
Qed.

Lemma adds_input sg sg' : adds_segment sg sg' -> sg_input sg' = sg_input sg.
Proof. intros [-> | (k & t & _ & ->)]; [reflexivity | apply add_segment_input]. Qed.

Lemma adds_geo sg sg' : adds_segment sg sg' -> sgeo sg -> sgeo sg'.
Proof.
  intros [-> | (k & t & Hk & ->)] H; [exact H|]. apply add_segment_geo; [exact H | split; cbn; lia].
Qed.

Lemma adds_cur_start sg sg' : adds_segment sg sg' -> cur_start sg' = cur_start sg.
Proof. intros [-> | (k & t & _ & ->)]; [reflexivity | apply add_segment_cur]. Qed.

Lemma abc_proceed_input sg : sg_input (abc_proceed cfg sg) = sg_input sg.
Proof. apply adds_input, abc_proceed_adds. Qed.

Lemma abc_proceed_geo sg : sgeo sg -> sgeo (abc_proceed cfg sg).
Proof. apply adds_geo, abc_proceed_adds. Qed.

Lemma abc_proceed_cur_start sg : cur_start (abc_proceed cfg sg) = cur_start sg.
Proof. apply adds_cur_start, abc_proceed_adds. Qed.

(** the fallback segmentor, when it acts: an empty last segment is dropped; then a raw last segment is
    extended by one byte (its menu cleared), or else a raw segment of one byte is added *)
Definition drop_empty_back (sg : segmentation) : segmentation :=
  match sg_segs sg with
  | g :: _ => if s_start g =? s_end g then sg_pop_back sg else sg
  | [] => sg
  end.

Lemma drop_empty_back_cases sg :
  drop_empty_back sg = sg \/ cur_start sg = cur_end sg /\ drop_empty_back sg = sg_pop_back sg.
Proof.
  unfold drop_empty_back, cur_start, cur_end. destruct (sg_segs sg) as [|g r]; [left; reflexivity|].
  destruct (s_start g =? s_end g) eqn:E; [right; split; [apply Nat.eqb_eq, E | reflexivity] | left; reflexivity].
Qed.

Lemma fallback_proceed_cases sg :
  let k := cur_start sg in let sg1 := drop_empty_back sg in
  fallback_proceed sg = sg \/
  cur_len sg = 0 /\ k <> length (sg_input sg) /\
  (fallback_proceed sg = fst (add_segment (fst (forward sg1)) (seg_with_tags (new_segment k (S k)) [TRaw])) \/
   exists last r, sg_segs sg1 = last :: r /\
     fallback_proceed sg = sg_with_segs sg1 (seg_with_tags (seg_clear (seg_with_end last (S k))) [TRaw] :: r)).
Proof.
  intros k sg1. unfold fallback_proceed. fold (drop_empty_back sg). fold k sg1.
  destruct (0 <? cur_len sg) eqn:El; [left; reflexivity|]. destruct (k =? length (sg_input sg)) eqn:Ek; [left; reflexivity|].
  right. split; [apply Nat.ltb_ge in El; lia|]. split; [apply Nat.eqb_neq, Ek|].
  destruct (sg_segs sg1) as [|last r]; [left; reflexivity|].
  destruct (has_tag TRaw (s_tags last)); [right; exists last, r; split; reflexivity | left; reflexivity].
Qed.

Lemma fallback_proceed_input sg : sg_input (fallback_proceed sg) = sg_input sg.
Proof.
  assert (E1 : sg_input (drop_empty_back sg) = sg_input sg) by (destruct (drop_empty_back_cases sg) as [-> | (_ & ->)]; reflexivity).
  destruct (fallback_proceed_cases sg) as [-> | (_ & _ & [-> | (last & r & _ & ->)])]; [reflexivity | | exact E1].
  rewrite add_segment_input, forward_input. exact E1.
Qed.

Lemma pop_back_cur_end sg : sgeo sg -> cur_end (sg_pop_back sg) = cur_start sg.
Proof.
  intros (Hc & _). unfold cur_end, cur_start. cbn. destruct (sg_segs sg) as [|g [|g1 r]]; [reflexivity | |]; symmetry; apply Hc.
Qed.

Lemma fallback_proceed_geo_progress sg :
  sgeo sg -> sgeo (fallback_proceed sg) /\ cur_start sg <= cur_end (fallback_proceed sg).
Proof.
  intros H. destruct (cur_geo sg H) as (A & B).
  destruct (fallback_proceed_cases sg) as [-> | (El & Ek & Hr)]; [split; assumption|].
  set (k := cur_start sg) in *. set (sg1 := drop_empty_back sg) in *.
  (* the segmentation ends at [k] once an empty last segment is dropped *)
  assert (H1 : sgeo sg1 /\ sg_input sg1 = sg_input sg /\ cur_end sg1 = k).
  { subst sg1. destruct (drop_empty_back_cases sg) as [-> | (_ & ->)].
    - split; [exact H|]. split; [reflexivity|]. unfold cur_len, k, cur_start, cur_end in *. destruct (sg_segs sg); lia.
    - split; [apply pop_back_geo, H|]. split; [reflexivity | apply pop_back_cur_end, H]. }
  destruct H1 as (G1 & I1 & C1). destruct Hr as [-> | (last & r & E1 & ->)].
  - split; [|rewrite <- C1, <- (forward_cur_end sg1); apply add_segment_cur].
    apply add_segment_geo; [apply forward_geo, G1|]. rewrite forward_input, I1. split; cbn; lia.
  - unfold cur_end in C1. rewrite E1 in C1. split; [|cbn; lia].
    eapply set_back_geo; [exact G1 | exact E1 | reflexivity|]. rewrite I1.
    destruct G1 as (_ & Hf). rewrite E1 in Hf. inversion Hf as [|? ? (X & Y) _]; subst. split; cbn; lia.
Qed.

Lemma fallback_proceed_geo sg : sgeo sg -> sgeo (fallback_proceed sg).
Proof. apply fallback_proceed_geo_progress. Qed.

Lemma segmentor_proceed_input o h i sg : sg_input (fst (segmentor_proceed cfg o h i sg)) = sg_input sg.
Proof.
  destruct (segmentor_proceed_cases o h i sg) as [Ha | ->]; [apply (adds_input _ _ Ha) | apply fallback_proceed_input].
Qed.

Lemma segmentor_proceed_geo o h i sg : sgeo sg -> sgeo (fst (segmentor_proceed cfg o h i sg)).
Proof.
  intros H. destruct (segmentor_proceed_cases o h i sg) as [Ha | ->]; [apply (adds_geo _ _ Ha H) | apply fallback_proceed_geo, H].
Qed.

Lemma run_segmentors_ind (P : segmentation -> Prop) o h l :
  (forall i sg, P sg -> P (fst (segmentor_proceed cfg o h i sg))) ->
  forall sg, P sg -> P (run_segmentors cfg o h l sg).
Proof.
  intros Hstep. induction l as [|i r IH]; intros sg H; cbn [run_segmentors]; [exact H|].
  pose proof (Hstep i sg H) as H1. destruct (segmentor_proceed cfg o h i sg) as [sg1 cont]. cbn [fst] in H1.
  destruct cont; [apply IH|]; exact H1.
Qed.

Lemma calc_loop_round_ind (P : segmentation -> Prop) o h :
  (forall sg, P sg -> P (fst (forward sg))) -> (forall sg, P sg -> P (seg_round cfg o h sg)) ->
  forall fuel caret sg, P sg -> P (fst (calc_loop cfg o h fuel caret sg)).
Proof.
  intros Hfw Hround fuel caret. induction fuel as [|f IH]; intros sg H; cbn [calc_loop].
  - destruct (has_finished sg); exact H.
  - destruct (has_finished sg); [exact H|]. pose proof (Hround sg H) as H2.
    destruct (cur_start sg =? cur_end (seg_round cfg o h sg)); [exact H2|].
    destruct (caret <=? cur_start sg); [exact H2|].
    apply IH. destruct (has_finished (seg_round cfg o h sg)); [exact H2 | apply Hfw, H2].
Qed.

Lemma calc_loop_ind (P : segmentation -> Prop) o h :
  (forall sg, P sg -> P (fst (forward sg))) ->
  (forall i sg, P sg -> P (fst (segmentor_proceed cfg o h i sg))) ->
  forall fuel caret sg, P sg -> P (fst (calc_loop cfg o h fuel caret sg)).
Proof.
  intros Hfw Hstep. apply calc_loop_round_ind; [exact Hfw|]. intros sg. apply run_segmentors_ind, Hstep.
Qed.

Lemma calc_segmentation_ind (P : segmentation -> Prop) o h :
  (forall sg, P sg -> P (fst (forward sg))) -> (forall sg, P sg -> P (fst (trim sg))) ->
  (forall i sg, P sg -> P (fst (segmentor_proceed cfg o h i sg))) ->
  forall caret sg, P sg -> P (fst (calc_segmentation cfg o h caret sg)).
Proof.
  intros Hfw Htr Hstep caret sg H. unfold calc_segmentation.
  pose proof (calc_loop_ind P o h Hfw Hstep (S (length (sg_input sg))) caret sg H) as H1.
  destruct (calc_loop cfg o h (S (length (sg_input sg))) caret sg) as [sg1 ok]. cbn [fst] in *.
  set (sg2 := match sg_segs sg1 with
              | g :: _ => if has_tag TPlaceholder (s_tags g) then sg1 else fst (trim sg1)
              | [] => sg1
              end).
  assert (H2 : P sg2).
  { subst sg2. destruct (sg_segs sg1) as [|g r]; [exact H1|].
    destruct (has_tag TPlaceholder (s_tags g)); [exact H1 | apply Htr, H1]. }
  destruct (sg_segs sg2) as [|g r]; [exact H2|].
  destruct (status_geb (s_status g) SSelected); [apply Hfw|]; exact H2.
Qed.

Lemma seg_round_input o h sg : sg_input (seg_round cfg o h sg) = sg_input sg.
Proof.
  unfold seg_round. apply (run_segmentors_ind (fun x => sg_input x = sg_input sg)); [|reflexivity].
  intros i x E. rewrite segmentor_proceed_input. exact E.
Qed.

Lemma calc_segmentation_input o h caret sg : sg_input (fst (calc_segmentation cfg o h caret sg)) = sg_input sg.
Proof.
  apply (calc_segmentation_ind (fun x => sg_input x = sg_input sg)); [..|reflexivity]; intros; 
    rewrite ?forward_input, ?trim_input, ?segmentor_proceed_input; assumption.
Qed.

Lemma round_progress o h sg : sgeo sg -> cur_start sg <= cur_end (seg_round cfg o h sg).
Proof.
  unfold seg_round. revert sg. induction (cf_segmentors cfg) as [|i r IH]; intros sg H; cbn [run_segmentors]; [apply (cur_geo sg H)|].
  destruct (segmentor_proceed_cases o h i sg) as [Ha | ->]; [|apply fallback_proceed_geo_progress, H].
  pose proof (adds_geo _ _ Ha H) as G1. rewrite <- (adds_cur_start _ _ Ha).
  destruct (segmentor_proceed cfg o h i sg) as [sg1 cont]. cbn [fst] in *.
  destruct cont; [apply IH, G1 | apply (cur_geo sg1 G1)].
Qed.

Lemma calc_loop_geo o h fuel caret sg : sgeo sg -> sgeo (fst (calc_loop cfg o h fuel caret sg)).
Proof. apply (calc_loop_ind sgeo); [apply forward_geo | apply segmentor_proceed_geo]. Qed.

Lemma calc_loop_finished o h fuel caret sg : has_finished sg = true -> calc_loop cfg o h fuel caret sg = (sg, true).
Proof. intros H. destruct fuel; cbn [calc_loop]; rewrite H; reflexivity. Qed.

(** CalculateSegmentation finishes: every round that goes on starts strictly
    further right, so |input| + 1 rounds suffice *)
Lemma calc_loop_ok o h fuel caret : forall sg,
  sgeo sg -> length (sg_input sg) - cur_start sg < fuel -> snd (calc_loop cfg o h fuel caret sg) = true.
Proof.
  induction fuel as [|f IH]; intros sg H Hm; [lia|]. cbn [calc_loop].
  destruct (has_finished sg) eqn:Efin; [reflexivity|].
  assert (H2 : sgeo (seg_round cfg o h sg)) by (apply (run_segmentors_ind sgeo); [apply segmentor_proceed_geo | exact H]).
  pose proof (round_progress o h sg H) as Hp.
  pose proof (seg_round_input o h sg) as Hin.
  set (sg2 := seg_round cfg o h sg) in *.
  destruct (cur_start sg =? cur_end sg2) eqn:Ee; [reflexivity|]. apply Nat.eqb_neq in Ee.
  destruct (caret <=? cur_start sg); [reflexivity|].
  destruct (has_finished sg2) eqn:Ef2; [rewrite (calc_loop_finished o h f caret sg2 Ef2); reflexivity|].
  apply IH; [apply forward_geo, H2|]. rewrite forward_input, forward_cur_start, Hin.
  unfold has_finished in Efin. apply Nat.leb_gt in Efin. destruct (cur_geo sg H) as (A & _). lia.
Qed.

Lemma calc_segmentation_geo o h caret sg : sgeo sg -> sgeo (fst (calc_segmentation cfg o h caret sg)) /\ snd (calc_segmentation cfg o h caret sg) = true.
Proof.
  intros H. split; [revert H; apply (calc_segmentation_ind sgeo); [apply forward_geo | apply trim_geo | apply segmentor_proceed_geo]|].
  unfold calc_segmentation.
  pose proof (calc_loop_ok o h (S (length (sg_input sg))) caret sg H ltac:(lia)) as Hok.
  destruct (calc_loop cfg o h (S (length (sg_input sg))) caret sg) as [sg1 ok]. exact Hok.
Qed.

End Pipeline.

Lemma translate_segs_input translate o sg : sg_input (fst (translate_segs translate o sg)) = sg_input sg.
Proof. unfold translate_segs. destruct (translate_list translate o (sg_input sg) (sg_segs sg)). reflexivity. Qed.

Lemma translate_list_same translate o inp l :
  Forall (seg_geo (length inp)) l ->
  snd (translate_list translate o inp l) = true /\
  map s_start (fst (translate_list translate o inp l)) = map s_start l /\
  map s_end (fst (translate_list translate o inp l)) = map s_end l.
Proof.
  intros Hf. induction Hf as [|g r (A & B) _ (I1 & I2 & I3)]; [repeat split|].
  cbn [translate_list]. destruct (translate_list translate o inp r) as [r' ok2]. cbn [fst snd] in *. subst ok2.
  unfold translate_one. destruct (status_geb (s_status g) SGuess).
  - cbn [fst snd map]. rewrite I2, I3. repeat split.
  - unfold substr_se. replace (length inp <? s_start g) with false by (symmetry; apply Nat.ltb_ge; lia).
    replace (s_start g <=? s_end g) with true by (symmetry; apply Nat.leb_le; lia).
    cbn [fst snd map s_start s_end andb]. rewrite I2, I3. repeat split.
Qed.

Lemma translate_segs_geo translate o sg : sgeo sg -> sgeo (fst (translate_segs translate o sg)) /\ snd (translate_segs translate o sg) = true.
Proof.
  intros H. unfold translate_segs.
  destruct (translate_list_same translate o (sg_input sg) (sg_segs sg) (proj2 H)) as (T1 & T2 & T3).
  destruct (translate_list translate o (sg_input sg) (sg_segs sg)) as [l ok]. cbn [fst snd] in *.
  split; [apply (sgeo_same sg l T2 T3 H) | exact T1].
Qed.


Section Wf.
Variable cfg : config.
Variable translate : bytes -> seginfo -> list cand.
Hypothesis Hps : (1 <= cf_page_size cfg)%Z.
Hypothesis Hlen : forall i s, (Z.of_nat (length (translate i s)) + cf_page_size cfg < 2147483648)%Z.
Hypothesis Hdel : cf_del_checked cfg = true.
(** two abstract predicates carried along by the invariant: [MP] holds of every
    candidate list the translator yields, [IP] of every raw input string (closed
    under the string operations of Context); instantiated with [True] for the
    range clauses and with "clean candidates" / "ASCII" for the UTF-8 clause *)
Variable MP : nat -> menu -> Prop.     (* indexed by the start of the segment the list was made for *)
Variable IP : bytes -> Prop.
Hypothesis HMP : forall i s, IP i -> MP (si_start s) (translate i s).
(** [GE] switches the geometric part of the invariant on (used for C01's
    totality; [False] for C02/C03): it needs candidates that end at or after
    the start of their segment *)
Variable GE : Prop.
Hypothesis HGE : GE -> forall st m, MP st m -> forall c, In c m -> st <= c_end c.
Hypothesis IP_nil : IP [].
Hypothesis IP_firstn : forall n l, IP l -> IP (firstn n l).
Hypothesis IP_skipn : forall n l, IP l -> IP (skipn n l).
Hypothesis IP_app : forall a b, IP a -> IP b -> IP (a ++ b).
Hypothesis IP_key : forall z, (32 <= z < 128)%Z -> IP [byte_of_N (Z.to_N z)].   (* 0x7f: ascii_composer pushes it *)

Definition op_ok (o : op) : Prop := match o with OpSetInput v => IP v | _ => True end.

Definition menu_bounded (m : menu) : Prop := (Z.of_nat (length m) + cf_page_size cfg < 2147483648)%Z.

Definition seg_inv (g : segment) : Prop :=
  s_prompt g = [] /\
  forall m, s_menu g = Some m -> menu_bounded m /\ (m <> [] -> (s_sel g < menu_count m)%N) /\ MP (s_start g) m.
Definition segs_inv (l : list segment) : Prop := Forall seg_inv l.
(** the sticky error flag is never a null dereference or an invalid page range
    (the two kinds the invariant excludes; substr/fuel bounds are not tracked here) *)
Definition err_ok (e : option err) : Prop :=
  match e with
  | Some ErrNullDeref | Some ErrBadRange => False
  | Some ErrDangling => cf_hist_guard cfg = false   (* only the source shape without the reset can reach it *)
  | Some ErrRecursion => cf_kb_guard cfg = false    (* only a key binder that replays without redirecting_ *)
  | _ => True
  end.

(** [cpre]: what Compose needs; [cinv]: what holds after every operation
    (the composition's own input is then no longer than the raw input) *)
Definition cpre (c : context) : Prop :=
  cx_caret c <= length (cx_input c) /\ segs_inv (sg_segs (cx_comp c)) /\
  IP (cx_input c) /\ IP (sg_input (cx_comp c)) /\ err_ok (cx_err c) /\
  (GE -> sgeo (cx_comp c) /\ cx_err c <> Some ErrFuel).
Definition cinv (c : context) : Prop :=
  cpre c /\ length (sg_input (cx_comp c)) <= length (cx_input c) /\
  (GE -> cx_caret c <= length (sg_input (cx_comp c))).
Definition sinv (s : state) : Prop := cinv (st_ctx s).

Lemma seg_inv_same g g' :
  s_menu g' = s_menu g -> s_sel g' = s_sel g -> s_prompt g' = s_prompt g -> s_start g' = s_start g ->
  seg_inv g -> seg_inv g'.
Proof. intros Hm Hs Hp Hst (H0 & H). split; [rewrite Hp; exact H0|]. intros m. rewrite Hm, Hs, Hst. apply H. Qed.

Lemma seg_inv_nomenu g : s_menu g = None -> s_prompt g = [] -> seg_inv g.
Proof. intros H Hp. split; [exact Hp|]. intros m. rewrite H. discriminate. Qed.

Lemma seg_inv_status g x : seg_inv g -> seg_inv (seg_with_status g x).
Proof. apply seg_inv_same; reflexivity. Qed.
Lemma seg_inv_end g e : seg_inv g -> seg_inv (seg_with_end g e).
Proof. apply seg_inv_same; reflexivity. Qed.
Lemma seg_inv_tags g t : seg_inv g -> seg_inv (seg_with_tags g t).
Proof. apply seg_inv_same; reflexivity. Qed.
Lemma seg_inv_new a b : seg_inv (new_segment a b).
Proof. apply seg_inv_nomenu; reflexivity. Qed.
Lemma seg_inv_clear g : seg_inv (seg_clear g).
Proof. apply seg_inv_nomenu; reflexivity. Qed.
Lemma seg_inv_close g : seg_inv g -> seg_inv (seg_close g).
Proof.
  intros H. unfold seg_close. destruct (selected_cand g); [|exact H].
  destruct (c_end c <? s_end g); [|exact H]. apply seg_inv_tags, seg_inv_end, H.
Qed.
Lemma seg_inv_reopen g k : seg_inv g -> seg_inv (fst (seg_reopen g k)).
Proof.
  intros H. unfold seg_reopen. destruct (negb (status_geb (s_status g) SSelected)); [exact H|].
  destruct (s_start g + s_length g =? k); cbn [fst]; [|apply seg_inv_status, H].
  destruct (s_end g <? s_start g + s_length g); apply seg_inv_status; [apply seg_inv_tags, seg_inv_end|]; exact H.
Qed.

Lemma seg_inv_sel_at g i : seg_inv g -> (forall m, s_menu g = Some m -> m <> [] -> (i < menu_count m)%N) ->
  seg_inv (seg_with_sel g i).
Proof.
  intros (H0 & H) Hi. split; [exact H0|]. intros m Hm. cbn in Hm. destruct (H m Hm) as (Hb & _ & Hmp).
  split; [exact Hb|]. split; [cbn; apply Hi; assumption | exact Hmp].
Qed.

Lemma cand_at_some g i c : cand_at g i = Some c -> forall m, s_menu g = Some m -> (i < menu_count m)%N.
Proof.
  unfold cand_at. intros H m Hm. rewrite Hm in H. unfold menu_at in H.
  destruct (menu_count m <=? i)%N eqn:E; [discriminate|]. apply N.leb_gt in E. exact E.
Qed.

Lemma segs_inv_tl l : segs_inv l -> segs_inv (tl l).
Proof. destruct l; [auto|]. intros H; inversion H; assumption. Qed.

Lemma forward_inv sg : segs_inv (sg_segs sg) -> segs_inv (sg_segs (fst (forward sg))).
Proof.
  intros H. destruct (forward_cases sg) as [(-> & _) | ->]; [exact H | constructor; [apply seg_inv_new | exact H]].
Qed.

Lemma trim_inv sg : segs_inv (sg_segs sg) -> segs_inv (sg_segs (fst (trim sg))).
Proof. intros H. destruct (trim_cases sg) as [-> | ->]; [exact H | apply segs_inv_tl, H]. Qed.

Lemma set_back_inv sg g : segs_inv (sg_segs sg) -> seg_inv g -> segs_inv (sg_segs (sg_set_back sg g)).
Proof.
  intros H Hg. unfold sg_set_back. destruct (sg_segs sg) as [|g0 r] eqn:E; [rewrite E; exact H|].
  cbn. inversion H; constructor; assumption.
Qed.

Lemma dispose_inv l d : segs_inv l -> segs_inv (fst (dispose l d)).
Proof.
  induction l as [|g r IH]; intros H; [exact H|]. cbn [dispose].
  destruct (d <? s_end g); [|exact H]. inversion H; subst.
  destruct (dispose r d) eqn:E. cbn [fst] in *. apply IH. assumption.
Qed.

Lemma reset_input_inv sg ni : segs_inv (sg_segs sg) -> segs_inv (sg_segs (reset_input sg ni)).
Proof.
  intros H. unfold reset_input.
  pose proof (dispose_inv (sg_segs sg) (common_prefix (sg_input sg) ni) H) as Hd.
  destruct (dispose (sg_segs sg) (common_prefix (sg_input sg) ni)) as [l n]. cbn [fst] in Hd.
  cbn [sg_segs]. destruct (0 <? n); [|exact Hd]. apply (forward_inv (sg_with_segs sg l)). exact Hd.
Qed.

Lemma add_segment_inv sg g : segs_inv (sg_segs sg) -> seg_inv g -> segs_inv (sg_segs (fst (add_segment sg g))).
Proof.
  intros H Hg. unfold add_segment. destruct (negb (s_start g =? cur_start sg)); [exact H|].
  destruct (sg_segs sg) as [|last r] eqn:E.
  - cbn. rewrite E. constructor; assumption.
  - inversion H; subst. destruct (s_end g <? s_end last); cbn [fst]; [rewrite E; exact H|].
    destruct (s_end last <? s_end g); cbn; constructor; auto using seg_inv_tags.
Qed.

Lemma fallback_proceed_inv sg : segs_inv (sg_segs sg) -> segs_inv (sg_segs (fallback_proceed sg)).
Proof.
  intros H.
  assert (H1 : segs_inv (sg_segs (drop_empty_back sg))).
  { destruct (drop_empty_back_cases sg) as [-> | (_ & ->)]; [exact H | apply segs_inv_tl, H]. }
  destruct (fallback_proceed_cases sg) as [-> | (_ & _ & [-> | (last & r & E & ->)])]; [exact H | |].
  - apply add_segment_inv; [apply forward_inv, H1 | apply seg_inv_tags, seg_inv_new].
  - rewrite E in H1. inversion H1; subst. constructor; [apply seg_inv_tags, seg_inv_clear | assumption].
Qed.

Lemma adds_inv sg sg' : adds_segment sg sg' -> segs_inv (sg_segs sg) -> segs_inv (sg_segs sg').
Proof.
  intros [-> | (k & t & _ & ->)] H; [exact H|]. apply add_segment_inv; [exact H | apply seg_inv_tags, seg_inv_new].
Qed.

Lemma segmentor_proceed_inv o h i sg :
  segs_inv (sg_segs sg) -> segs_inv (sg_segs (fst (segmentor_proceed cfg o h i sg))).
Proof.
  intros H. destruct (segmentor_proceed_cases cfg o h i sg) as [Ha | ->]; [apply (adds_inv _ _ Ha H) | apply fallback_proceed_inv, H].
Qed.

Lemma calc_segmentation_inv o h caret sg :
  segs_inv (sg_segs sg) -> segs_inv (sg_segs (fst (calc_segmentation cfg o h caret sg))).
Proof.
  apply (calc_segmentation_ind cfg (fun x => segs_inv (sg_segs x))); [apply forward_inv | apply trim_inv | apply segmentor_proceed_inv].
Qed.

Lemma substr_se_ip s pos en : IP s -> IP (fst (substr_se s pos en)).
Proof.
  intros H. unfold substr_se. destruct (length s <? pos); [exact IP_nil|].
  destruct (pos <=? en); cbn [fst]; [apply IP_firstn|]; apply IP_skipn, H.
Qed.

Lemma translate_one_inv o inp g : IP inp -> seg_inv g -> seg_inv (fst (translate_one translate o inp g)).
Proof.
  intros Hinp H. unfold translate_one. destruct (status_geb (s_status g) SGuess); [exact H|].
  pose proof (substr_se_ip inp (s_start g) (s_end g) Hinp) as Hsub.
  destruct (substr_se inp (s_start g) (s_end g)) as [s ok]. cbn [fst] in *.
  split; [exact (proj1 H)|].
  intros m Hm. cbn in Hm. injection Hm as <-. split; [apply Hlen|]. split; [|apply (HMP s (seg_info o g)); exact Hsub].
  intros Hne. cbn [s_sel]. unfold menu_count. destruct (translate s (seg_info o g)); [congruence|]. cbn [length]. lia.
Qed.

Lemma translate_list_inv o inp l : IP inp -> segs_inv l -> segs_inv (fst (translate_list translate o inp l)).
Proof.
  intros Hinp. induction l as [|g r IH]; intros H; [constructor|]. inversion H; subst. cbn [translate_list].
  pose proof (translate_one_inv o inp g Hinp H2) as H1. destruct (translate_one translate o inp g) as [g' ok1].
  specialize (IH H3). destruct (translate_list translate o inp r) as [r' ok2]. cbn [fst] in *. constructor; assumption.
Qed.

Lemma translate_segs_inv o sg :
  IP (sg_input sg) -> segs_inv (sg_segs sg) -> segs_inv (sg_segs (fst (translate_segs translate o sg))).
Proof.
  intros Hinp H. unfold translate_segs. pose proof (translate_list_inv o (sg_input sg) _ Hinp H) as H1.
  destruct (translate_list translate o (sg_input sg) (sg_segs sg)) as [l ok]. exact H1.
Qed.

Definition err_allowed (e : err) : Prop :=
  e = ErrSubstr \/ (e = ErrDangling /\ cf_hist_guard cfg = false) \/ (e = ErrRecursion /\ cf_kb_guard cfg = false) \/
  (e = ErrFuel /\ ~ GE).
Lemma err_ok_fail c e : err_allowed e -> err_ok (cx_err c) -> err_ok (cx_err (ctx_fail c e)).
Proof. intros He H. cbn. destruct (cx_err c); [exact H|]. destruct He as [-> | [(-> & Hg) | [(-> & Hg) | (-> & _)]]]; [exact I | exact Hg | exact Hg | exact I]. Qed.

(** with the reset in the raw branch [last] never ages, so it is never read after its record was popped *)
Lemma hist_step_guarded input a g :
  (forall t age, ha_last a = Some (t, age) -> age = 0) -> ha_live a = true ->
  (forall t age, ha_last (hist_step true input a g) = Some (t, age) -> age = 0) /\ ha_live (hist_step true input a g) = true.
Proof.
  intros H0 Hl. unfold hist_step. destruct (selected_cand g) as [cd|].
  - destruct (ha_last a) as [[t0 age0]|] eqn:El.
    + pose proof (H0 t0 age0 eq_refl) as ->. rewrite Hl. cbn [andb kMaxRecords Nat.ltb Nat.leb].
      destruct (bytes_eqb t0 (c_type cd)); destruct (status_geb (s_status g) SConfirmed); cbn [ha_last ha_live hacc_push];
        split; try reflexivity; intros t age X; try discriminate X; injection X as _ <-; reflexivity.
    + rewrite Hl. destruct (status_geb (s_status g) SConfirmed); cbn [ha_last ha_live hacc_push andb];
        split; try reflexivity; intros t age X; try discriminate X; injection X as _ <-; reflexivity.
  - destruct (substr_se input (s_start g) (s_end g)) as [t ok]. cbn [ha_last ha_live hacc_push].
    split; [intros t0 age X; discriminate X | exact Hl].
Qed.
Lemma hist_fold_guarded input l : forall a,
  (forall t age, ha_last a = Some (t, age) -> age = 0) -> ha_live a = true ->
  ha_live (fold_left (hist_step true input) l a) = true.
Proof.
  induction l as [|g r IH]; intros a H0 Hl; [exact Hl|]. cbn [fold_left].
  destruct (hist_step_guarded input a g H0 Hl) as (A & B). apply IH; assumption.
Qed.
Lemma hist_push_comp_live h sg input : snd (hist_push_comp true h sg input) = true.
Proof.
  unfold hist_push_comp.
  pose proof (hist_fold_guarded input (segs_fwd sg) (mkHacc h None 0 true true)) as H.
  set (a := fold_left (hist_step true input) (segs_fwd sg) (mkHacc h None 0 true true)) in *.
  assert (Ha : ha_live a = true) by (apply H; [intros t age X; discriminate X | reflexivity]).
  destruct (ha_end a <? length input); cbn [snd hacc_push ha_live]; exact Ha.
Qed.
Lemma cinv_err c e : err_allowed e -> cinv c -> cinv (ctx_fail c e).
Proof.
  intros He ((H1 & H2 & H3 & H4 & H5 & Hg) & H6). split; [|exact H6].
  split; [exact H1|]. split; [exact H2|]. split; [exact H3|]. split; [exact H4|].
  split; [apply err_ok_fail; assumption|]. intros G. destruct (Hg G) as (Hgeo & Hne). split; [exact Hgeo|].
  cbn. destruct (cx_err c) as [x|]; [exact Hne|]. destruct He as [-> | [(-> & _) | [(-> & _) | (_ & Hn)]]]; [discriminate | discriminate | discriminate | contradiction].
Qed.
Lemma cinv_check c b e : (b = false -> err_allowed e) -> cinv c -> cinv (ctx_check c b e).
Proof. intros He H. unfold ctx_check. destruct b; [exact H | apply cinv_err; auto]. Qed.
Lemma cinv_opts c o : cinv c -> cinv (ctx_with_opts c o).
Proof. intros H; exact H. Qed.
Lemma cinv_hist c h : cinv c -> cinv (ctx_with_hist c h).
Proof. intros H; exact H. Qed.
Lemma cinv_comp c sg :
  cinv c -> segs_inv (sg_segs sg) -> sg_input sg = sg_input (cx_comp c) -> (GE -> sgeo sg) -> cinv (ctx_with_comp c sg).
Proof.
  intros ((H1 & _ & H3 & H4 & He & Hg) & H5 & H6) H2 E G.
  split; [|cbn; rewrite E; split; assumption].
  split; [exact H1|]. split; [exact H2|]. split; [exact H3|]. split; [cbn; rewrite E; exact H4|]. split; [exact He|].
  intros G0. split; [apply G, G0 | apply Hg, G0].
Qed.
Lemma cinv_geo c : cinv c -> GE -> sgeo (cx_comp c) /\ cx_caret c <= length (sg_input (cx_comp c)).
Proof. intros ((_ & _ & _ & _ & _ & Hg) & _ & H6) G. split; [apply Hg, G | apply H6, G]. Qed.
Lemma cinv_segs c : cinv c -> segs_inv (sg_segs (cx_comp c)).
Proof. intros H; apply H. Qed.
Lemma cinv_cpre c : cinv c -> cpre c.
Proof. intros H; apply H. Qed.
Lemma cinv_forward c : cinv c -> cinv (ctx_with_comp c (fst (forward (cx_comp c)))).
Proof.
  intros H. apply cinv_comp; [exact H | apply forward_inv, H | apply forward_input|].
  intros G. apply forward_geo, (cinv_geo c H G).
Qed.

(** the ascii composer's slot on update_notifier_ writes an option and its own connection flag only *)
Lemma ac_on_update_inv c : cinv c -> cinv (ac_on_update c).
Proof. intros H. unfold ac_on_update. destruct (cx_conn c && negb (is_composing c)); exact H. Qed.

Definition sg_ok (sg : segmentation) : Prop := segs_inv (sg_segs sg) /\ IP (sg_input sg) /\ (GE -> sgeo sg).

Lemma reset_input_ok sg ni : sg_ok sg -> IP ni -> sg_ok (reset_input sg ni).
Proof.
  intros (H1 & _ & H3) Hi. split; [apply reset_input_inv, H1|].
  split; [rewrite reset_input_input; exact Hi | intros G; apply reset_input_geo, H3, G].
Qed.

Lemma compose_core_inv c : cpre c -> cinv (compose_core cfg translate c).
Proof.
  intros (Hc & Hs & Hi & Hci & He & Hg). unfold compose_core.
  set (sg0 := reset_input (cx_comp c) (firstn (cx_caret c) (cx_input c))).
  set (sg1 := if _ && _ then reset_input sg0 (cx_input c) else sg0).
  (* Reset leaves a prefix of the raw input that reaches the caret *)
  assert (H1 : sg_ok sg1 /\ length (sg_input sg1) <= length (cx_input c) /\ cx_caret c <= length (sg_input sg1)).
  { assert (H0 : sg_ok sg0).
    { apply reset_input_ok; [|apply IP_firstn, Hi]. split; [exact Hs|]. split; [exact Hci | intros G; apply Hg, G]. }
    subst sg1. destruct (_ && _).
    - split; [apply reset_input_ok; assumption|]. rewrite reset_input_input. lia.
    - split; [exact H0|]. subst sg0. rewrite reset_input_input, firstn_length. lia. }
  destruct H1 as ((S1 & I1 & G1) & Hl1).
  pose proof (calc_segmentation_inv (cx_opts c) (cx_hist c) (cx_caret c) sg1 S1) as S2.
  pose proof (calc_segmentation_input cfg (cx_opts c) (cx_hist c) (cx_caret c) sg1) as E2.
  pose proof (fun G => calc_segmentation_geo cfg (cx_opts c) (cx_hist c) (cx_caret c) sg1 (G1 G)) as G2.
  destruct (calc_segmentation cfg (cx_opts c) (cx_hist c) (cx_caret c) sg1) as [sg2 okf]. cbn [fst snd] in S2, E2, G2.
  rewrite <- E2 in I1, Hl1.
  pose proof (translate_segs_inv (cx_opts c) sg2 I1 S2) as S3.
  pose proof (translate_segs_input translate (cx_opts c) sg2) as E3.
  pose proof (fun G => proj1 (translate_segs_geo translate (cx_opts c) sg2 (proj1 (G2 G)))) as G3.
  destruct (translate_segs translate (cx_opts c) sg2) as [sg3 oks]. cbn [fst] in S3, E3, G3.
  rewrite <- E3 in I1, Hl1.
  apply cinv_check; [intros _; left; reflexivity|].
  apply cinv_check; [intros ->; right; right; right; split; [reflexivity|]; intros G; discriminate (proj2 (G2 G))|].
  split; [|split; [apply Hl1 | intros _; apply Hl1]].
  split; [exact Hc|]. split; [exact S3|]. split; [exact Hi|]. split; [exact I1|]. split; [exact He|].
  intros G. split; [apply G3, G | apply Hg, G].
Qed.

Lemma compose_inv c : cpre c -> cinv (compose cfg translate c).
Proof. intros H. unfold compose. apply ac_on_update_inv, compose_core_inv, H. Qed.

Lemma compose_with_input_inv c i k :
  cinv c -> k <= length i -> IP i -> cinv (compose cfg translate (ctx_with_input c i k)).
Proof.
  intros ((_ & Hs & _ & Hci & He & Hg) & _) Hk Hi. apply compose_inv.
  split; [exact Hk|]. split; [exact Hs|]. split; [exact Hi|]. split; [exact Hci|]. split; [exact He | exact Hg].
Qed.

Lemma cinv_ip c : cinv c -> IP (cx_input c).
Proof. intros H; apply H. Qed.

Lemma push_input_inv c ch : cinv c -> IP [ch] -> cinv (push_input cfg translate c ch).
Proof.
  intros H Hch. pose proof (cinv_ip c H) as Hi. unfold push_input. destruct (length (cx_input c) <=? cx_caret c) eqn:E.
  - apply compose_with_input_inv; [exact H| |apply IP_app; assumption]. rewrite app_length. cbn. lia.
  - apply Nat.leb_gt in E. apply compose_with_input_inv; [exact H| |].
    + rewrite app_length, firstn_length. cbn [length]. rewrite skipn_length. lia.
    + apply IP_app; [apply IP_firstn; exact Hi|]. apply (IP_app [ch]); [exact Hch | apply IP_skipn; exact Hi].
Qed.

Lemma pop_input_inv c n : cinv c -> cinv (fst (pop_input cfg translate c n)).
Proof.
  intros H. unfold pop_input. destruct (cx_caret c <? n) eqn:E; [exact H|]. apply Nat.ltb_ge in E.
  cbn [fst]. pose proof (cinv_ip c H) as Hi. apply compose_with_input_inv; [exact H| |].
  - destruct H as ((Hc & _) & _). rewrite app_length, firstn_length, skipn_length. lia.
  - apply IP_app; [apply IP_firstn | apply IP_skipn]; exact Hi.
Qed.

Lemma delete_input_inv c n : cinv c -> cinv (fst (delete_input cfg translate c n)).
Proof.
  intros H. unfold delete_input. destruct (length (cx_input c) <? cx_caret c + n) eqn:E; [exact H|].
  apply Nat.ltb_ge in E. cbn [fst]. pose proof (cinv_ip c H) as Hi. apply compose_with_input_inv; [exact H| |].
  - rewrite app_length, firstn_length, skipn_length. lia.
  - apply IP_app; [apply IP_firstn | apply IP_skipn]; exact Hi.
Qed.

Lemma clear_inv c : cinv c -> cinv (clear cfg translate c).
Proof.
  intros H. unfold clear. apply compose_inv.
  split; [cbn; lia|]. split; [constructor|]. split; [exact IP_nil|]. split; [apply H|]. split; [apply H|].
  intros G. destruct H as ((_ & _ & _ & _ & _ & Hg) & _).
  split; [split; constructor | apply Hg, G].
Qed.

Lemma set_caret_pos_inv c pos : cinv c -> cinv (set_caret_pos cfg translate c pos).
Proof.
  intros H. unfold set_caret_pos. apply compose_with_input_inv; [exact H| |apply (cinv_ip c H)].
  destruct (length (cx_input c) <? pos) eqn:E; [lia|]. apply Nat.ltb_ge in E. exact E.
Qed.

Lemma set_input_inv c v : cinv c -> IP v -> cinv (set_input cfg translate c v).
Proof. intros H Hv. unfold set_input. apply compose_with_input_inv; [exact H | lia | exact Hv]. Qed.

Lemma back_inv c g r : cinv c -> sg_segs (cx_comp c) = g :: r -> seg_inv g.
Proof. intros ((_ & H & _) & _) E. rewrite E in H. inversion H; assumption. Qed.

Definition back_geo_ok (c : context) (g : segment) : Prop :=
  forall g0 r, sg_segs (cx_comp c) = g0 :: r ->
               s_start g = s_start g0 /\ seg_geo (length (sg_input (cx_comp c))) g.

Lemma cinv_set_back c g :
  cinv c -> seg_inv g -> (GE -> back_geo_ok c g) -> cinv (ctx_with_comp c (sg_set_back (cx_comp c) g)).
Proof.
  intros H Hg Hb. apply cinv_comp; [exact H| |apply set_back_input|]; [apply set_back_inv; [apply H | exact Hg]|].
  intros G. destruct (cinv_geo c H G) as (Hgeo & _). unfold sg_set_back.
  destruct (sg_segs (cx_comp c)) as [|g0 r] eqn:E; [exact Hgeo|].
  destruct (Hb G g0 r E) as (B1 & B2). apply (set_back_geo (cx_comp c) g g0 r Hgeo E B1 B2).
Qed.

Lemma back_geo_same c g :
  cinv c -> (forall g0 r, sg_segs (cx_comp c) = g0 :: r -> s_start g = s_start g0 /\ s_end g = s_end g0) ->
  GE -> back_geo_ok c g.
Proof.
  intros H Hs G g0 r E. destruct (Hs g0 r E) as (S1 & S2). split; [exact S1|].
  destruct (cinv_geo c H G) as ((_ & Hf) & _). rewrite E in Hf. inversion Hf as [|? ? (A & B) _]; subst. split; lia.
Qed.

Lemma cinv_back_same c g r g' :
  cinv c -> sg_segs (cx_comp c) = g :: r -> seg_inv g' -> s_start g' = s_start g -> s_end g' = s_end g ->
  cinv (ctx_with_comp c (sg_set_back (cx_comp c) g')).
Proof.
  intros H E Hg Es Ee. apply cinv_set_back; [exact H | exact Hg | apply (back_geo_same _ _ H)].
  intros g0 r0 E0. rewrite E in E0. injection E0 as <- <-. split; assumption.
Qed.

Lemma reopen_previous_segment_inv c : cinv c -> cinv (fst (reopen_previous_segment cfg translate c)).
Proof.
  intros H. unfold reopen_previous_segment.
  assert (H1 : cinv (ctx_with_comp c (fst (trim (cx_comp c))))).
  { apply cinv_comp; [exact H | apply trim_inv, H | apply trim_input|]. intros G. apply trim_geo, (cinv_geo c H G). }
  destruct (trim (cx_comp c)) as [sg trimmed]. cbn [fst] in H1. destruct trimmed; [|exact H]. cbn [fst].
  apply compose_inv, cinv_cpre.
  destruct (sg_segs sg) as [|g r] eqn:E; [exact H1|]. destruct (status_geb (s_status g) SSelected); [|exact H1].
  apply (cinv_set_back (ctx_with_comp c sg)); [exact H1 | apply seg_inv_reopen, (back_inv _ g r H1 E)|].
  intros G g0 r0 E0. cbn in E0. rewrite E in E0. injection E0 as <- <-.
  destruct (cinv_geo _ H1 G) as ((_ & Hf) & Hcar). cbn in Hf, Hcar. rewrite E in Hf. inversion Hf as [|? ? Hgg _]; subst.
  apply (seg_reopen_geo _ g (cx_caret c) Hgg Hcar).
Qed.

Lemma clear_previous_segment_inv c : cinv c -> cinv (fst (clear_previous_segment cfg translate c)).
Proof.
  intros H. unfold clear_previous_segment. destruct (sg_segs (cx_comp c)) as [|g r]; [exact H|].
  destruct (length (cx_input c) <=? s_start g); [exact H|]. cbn [fst].
  apply set_input_inv; [exact H | apply IP_firstn, (cinv_ip c H)].
Qed.

Lemma reopen_sel_rev_inv l k l' : segs_inv l -> reopen_sel_rev l k = Some l' -> segs_inv l'.
Proof.
  revert l'. induction l as [|g r IH]; intros l' H E; [discriminate|]. inversion H; subst. cbn [reopen_sel_rev] in E.
  destruct (s_status g); try discriminate; try (apply IH; assumption).
  destruct (has_tag TSelectedBeforeEditing (s_tags g)); [discriminate|]. injection E as <-.
  constructor; [apply seg_inv_reopen|]; assumption.
Qed.

Lemma reopen_previous_selection_inv c : cinv c -> cinv (fst (reopen_previous_selection cfg translate c)).
Proof.
  intros H. unfold reopen_previous_selection.
  destruct (reopen_sel_rev (sg_segs (cx_comp c)) (cx_caret c)) as [l|] eqn:E; [|exact H]. cbn [fst].
  apply compose_inv, cinv_cpre, cinv_comp; [exact H| |reflexivity|]. apply (reopen_sel_rev_inv _ _ _ (cinv_segs c H) E).
  intros G. destruct (cinv_geo c H G) as ((Hc0 & Hf0) & Hcar).
  destruct (reopen_sel_rev_geo _ _ _ _ Hc0 Hf0 Hcar E) as (R1 & R2). split; assumption.
Qed.

Lemma drop_unselected_inv l : segs_inv l -> segs_inv (fst (drop_unselected l)).
Proof.
  induction l as [|g r IH]; intros H; [exact H|]. cbn [drop_unselected].
  destruct (status_geb (s_status g) SSelected); [exact H|]. cbn [fst]. apply IH. inversion H; assumption.
Qed.

Lemma clear_non_confirmed_inv c : cinv c -> cinv (fst (clear_non_confirmed c)).
Proof.
  intros H. unfold clear_non_confirmed. pose proof (drop_unselected_inv _ (cinv_segs c H)) as Hd.
  destruct (drop_unselected (sg_segs (cx_comp c))) as [l reverted] eqn:Ed. cbn [fst] in Hd.
  destruct reverted; [|exact H]. cbn [fst].
  apply (cinv_forward (ctx_with_comp c (sg_with_segs (cx_comp c) l))), cinv_comp; [exact H | exact Hd | reflexivity|].
  intros G. destruct (cinv_geo c H G) as ((Hc0 & Hf0) & _).
  pose proof (drop_unselected_geo _ _ Hc0 Hf0) as Dg. rewrite Ed in Dg. exact Dg.
Qed.

Lemma refresh_non_confirmed_inv c : cinv c -> cinv (fst (refresh_non_confirmed cfg translate c)).
Proof.
  intros H. unfold refresh_non_confirmed. pose proof (clear_non_confirmed_inv c H) as H1.
  destruct (clear_non_confirmed c) as [c1 reverted]. cbn [fst] in H1.
  destruct reverted; [|exact H]. apply compose_inv, cinv_cpre; exact H1.
Qed.

Lemma begin_editing_rev_inv l : segs_inv l -> segs_inv (begin_editing_rev l).
Proof.
  induction l as [|g r IH]; intros H; [exact H|]. inversion H; subst. cbn [begin_editing_rev].
  destruct (s_status g); try exact H; constructor; auto using seg_inv_tags; apply IH; assumption.
Qed.

Lemma begin_editing_inv c : cinv c -> cinv (begin_editing c).
Proof.
  intros H. unfold begin_editing. apply cinv_comp; [exact H| |reflexivity|]. apply begin_editing_rev_inv, H.
  intros G. destruct (cinv_geo c H G) as (Hgeo & _). destruct (begin_editing_rev_maps (sg_segs (cx_comp c))) as (M1 & M2).
  apply sgeo_same; assumption.
Qed.

Lemma seg_close_geo n g : seg_inv g -> GE -> seg_geo n g -> s_start (seg_close g) = s_start g /\ seg_geo n (seg_close g).
Proof.
  intros (_ & Hm) G (A & B). unfold seg_close. destruct (selected_cand g) as [c|] eqn:Ec; [|split; [reflexivity | split; assumption]].
  destruct (c_end c <? s_end g) eqn:E; [|split; [reflexivity | split; assumption]]. apply Nat.ltb_lt in E.
  split; [reflexivity|]. split; cbn; [|lia].
  unfold selected_cand, cand_at in Ec. destruct (s_menu g) as [m|] eqn:Em; [|discriminate].
  destruct (Hm m eq_refl) as (_ & _ & Hmp). unfold menu_at in Ec. destruct (menu_count m <=? s_sel g)%N; [discriminate|].
  apply nth_error_In in Ec. apply (HGE G _ m Hmp c Ec).
Qed.

Lemma highlight_inv c i : cinv c -> cinv (fst (highlight cfg translate c i)).
Proof using Hlen Hdel HMP HGE IP_nil IP_firstn IP_skipn IP_app IP_key.
  intros H. unfold highlight. destruct (sg_segs (cx_comp c)) as [|g r] eqn:E; [exact H|].
  destruct (s_menu g) as [m|] eqn:Em; [|exact H].
  set (requested := size_wrap (i + 1)).
  set (count := if (requested =? 0)%N then menu_count m else menu_prepare m requested).
  set (new_index := if (0 <? count)%N then N.min (count - 1) i else 0%N).
  destruct (s_sel g =? new_index)%N; [exact H|]. cbn [fst].
  apply compose_inv, cinv_cpre, (cinv_back_same c g r _ H E); [|reflexivity..].
  apply seg_inv_sel_at; [apply (back_inv c g r H E)|].
  intros m' Hm' Hne. rewrite Em in Hm'. injection Hm' as <-.
  assert (Hpos : (0 < menu_count m)%N) by (unfold menu_count; destruct m; [congruence | cbn; lia]).
  subst new_index count. unfold menu_prepare. destruct (requested =? 0)%N; destruct (0 <? _)%N eqn:Ec; lia.
Qed.

Lemma set_option_inv c n v : cinv c -> cinv (set_option cfg translate c n v).
Proof.
  intros H. unfold set_option. destruct (is_composing _); [|exact H].
  apply (refresh_non_confirmed_inv (ctx_with_opts c (opts_set (cx_opts c) n v))). exact H.
Qed.

Lemma sinv_with s c : cinv c -> sinv (st_with_ctx s c).
Proof. intros H; exact H. Qed.

Lemma commit_inv s : sinv s -> sinv (fst (commit cfg translate s)).
Proof.
  intros H. unfold commit. destruct (negb (is_composing (st_ctx s))); [exact H|].
  destruct (hist_push_comp (cf_hist_guard cfg) (cx_hist (st_ctx s)) (cx_comp (st_ctx s)) (cx_input (st_ctx s))) as [[h okh] live] eqn:Ehp.
  match goal with |- context [ctx_commit_text ?c] => destruct (ctx_commit_text c) as [text ok] end. cbn [fst]. apply sinv_with.
  apply clear_inv. cbn [st_ctx st_with_ctx sink]. apply cinv_check; [intros _; left; reflexivity|].
  apply cinv_check.
  { intros ->. right; left. split; [reflexivity|]. destruct (cf_hist_guard cfg) eqn:Eg; [|reflexivity].
    pose proof (hist_push_comp_live (cx_hist (st_ctx s)) (cx_comp (st_ctx s)) (cx_input (st_ctx s))) as X.
    rewrite Ehp in X. discriminate X. }
  apply cinv_check; [intros _; left; reflexivity|].
  apply cinv_hist. exact H.
Qed.

Lemma on_select_inv s : sinv s -> sg_segs (cx_comp (st_ctx s)) <> [] -> sinv (on_select cfg translate s).
Proof.
  intros H Hne. unfold on_select.
  match goal with |- sinv (mkSt (st_ctx ?x) _ _ _ _ _ _ _) => assert (Hx : sinv x); [|exact Hx] end.
  destruct (sg_segs (cx_comp (st_ctx s))) as [|g0 r] eqn:E; [congruence|].
  pose proof (seg_inv_close g0 (back_inv _ _ _ H E)) as Hg.
  assert (Hcg : forall x, s_start x = s_start (seg_close g0) -> s_end x = s_end (seg_close g0) ->
                          GE -> back_geo_ok (st_ctx s) x).
  { intros x X1 X2 G g1 r1 E1. rewrite E in E1. injection E1 as <- <-.
    destruct (cinv_geo _ H G) as ((_ & Hf) & _). rewrite E in Hf. inversion Hf as [|? ? Hgg _]; subst.
    destruct (seg_close_geo _ g0 (back_inv _ _ _ H E) G Hgg) as (C1 & (C2 & C3)).
    split; [congruence | split; lia]. }
  destruct (s_end (seg_close g0) =? length (cx_input (st_ctx s))).
  - set (c1 := ctx_with_comp (st_ctx s) (sg_set_back (cx_comp (st_ctx s)) (seg_with_status (seg_close g0) SConfirmed))).
    assert (H1 : cinv c1) by (apply cinv_set_back; [exact H | apply seg_inv_status, Hg | apply Hcg; reflexivity]).
    destruct (get_option c1 opt_auto_commit).
    + apply commit_inv. exact H1.
    + apply (cinv_forward c1 H1).
  - set (c0 := ctx_with_comp (st_ctx s) (sg_set_back (cx_comp (st_ctx s)) (seg_close g0))).
    assert (H0 : cinv c0) by (apply cinv_set_back; [exact H | exact Hg | apply Hcg; reflexivity]).
    pose proof (cinv_forward c0 H0) as H1.
    destruct (cx_caret (st_ctx s) <=? s_end (seg_close g0)); apply sinv_with;
      [apply set_caret_pos_inv | apply compose_inv, cinv_cpre]; exact H1.
Qed.

Lemma select_inv s i : sinv s -> sinv (fst (select cfg translate s i)).
Proof.
  intros H. unfold select. destruct (sg_segs (cx_comp (st_ctx s))) as [|g r] eqn:E; [exact H|].
  destruct (cand_at g i) as [cd|] eqn:Ec; [|exact H]. cbn [fst].
  apply on_select_inv; [|cbn; unfold sg_set_back; rewrite E; discriminate].
  apply sinv_with, (cinv_back_same _ g r _ H E); [|reflexivity..].
  apply seg_inv_status, seg_inv_sel_at; [apply (back_inv _ _ _ H E)|].
  intros m Hm _. apply (cand_at_some g i cd Ec m Hm).
Qed.

Lemma confirm_current_selection_inv s : sinv s -> sinv (fst (confirm_current_selection cfg translate s)).
Proof.
  intros H. unfold confirm_current_selection. destruct (sg_segs (cx_comp (st_ctx s))) as [|g r] eqn:E; [exact H|].
  cbv zeta. set (s1 := st_with_ctx s _).
  assert (H1 : sinv s1) by (apply (cinv_back_same _ g r _ H E); [apply seg_inv_status, (back_inv _ _ _ H E) | reflexivity..]).
  assert (Hne : sg_segs (cx_comp (st_ctx s1)) <> []) by (cbn; unfold sg_set_back; rewrite E; discriminate).
  destruct (selected_cand _); cbn [fst]; [apply on_select_inv; assumption|].
  destruct (_ =? _); cbn [fst]; [exact H1 | apply on_select_inv; assumption].
Qed.

Lemma delete_candidate_inv s i : sinv s -> sinv (fst (delete_candidate cfg s i)).
Proof.
  intros H. unfold delete_candidate. destruct (sg_segs (cx_comp (st_ctx s))) as [|g r] eqn:E; [exact H|].
  rewrite Hdel. destruct (cand_at g i) as [cd|] eqn:Ec; [|exact H]. cbn [fst].
  apply sinv_with, (cinv_back_same _ g r _ H E); [|reflexivity..]. apply seg_inv_sel_at; [apply (back_inv _ _ _ H E)|].
  intros m Hm _. apply (cand_at_some g i cd Ec m Hm).
Qed.

Lemma int_of_size_small n : (Z.of_N n < 2147483648)%Z -> int_of_size n = Z.of_N n.
Proof.
  intros H. unfold int_of_size. rewrite Z.mod_small by lia.
  replace (Z.of_N n <? 2147483648)%Z with true by (symmetry; apply Z.ltb_lt; lia). reflexivity.
Qed.
Lemma size_of_int_small z : (0 <= z < 18446744073709551616)%Z -> size_of_int z = Z.to_N z.
Proof. intros H. unfold size_of_int. now rewrite Z.mod_small by lia. Qed.
Lemma size_wrap_small n : (n < 18446744073709551616)%N -> size_wrap n = n.
Proof. intros H. unfold size_wrap. now rewrite N.mod_small. Qed.

Lemma with_back_inv c f : cinv c -> (forall g r, sg_segs (cx_comp c) = g :: r -> seg_inv g -> seg_inv (f g)) ->
  (forall g, s_start (f g) = s_start g /\ s_end (f g) = s_end g) ->
  cinv (with_back c f).
Proof.
  intros H Hf Hse. unfold with_back. destruct (sg_segs (cx_comp c)) as [|g r] eqn:E; [exact H|].
  apply (cinv_back_same c g r _ H E); [apply (Hf g r eq_refl), (back_inv c g r H E) | apply Hse | apply Hse].
Qed.

Lemma set_sel_paging_inv c g r z :
  cinv c -> sg_segs (cx_comp c) = g :: r ->
  (forall m, s_menu g = Some m -> m <> [] -> (0 <= z < Z.of_nat (length m))%Z) ->
  cinv (set_sel_paging c z).
Proof.
  intros H E Hz. unfold set_sel_paging. apply with_back_inv; [exact H| |intros g1; split; reflexivity].
  intros g1 r1 E1 Hg. rewrite E in E1. injection E1 as <- <-.
  apply seg_inv_tags, seg_inv_sel_at; [exact Hg|]. intros m Hm Hne.
  specialize (Hz m Hm Hne). destruct (proj2 Hg m Hm) as (Hb & _). unfold menu_bounded in Hb.
  rewrite size_of_int_small by lia. unfold menu_count. lia.
Qed.

Lemma back_sel_small c g r m :
  cinv c -> sg_segs (cx_comp c) = g :: r -> s_menu g = Some m -> m <> [] ->
  int_of_size (s_sel g) = Z.of_N (s_sel g) /\ (Z.of_N (s_sel g) < Z.of_nat (length m))%Z /\ menu_bounded m.
Proof.
  intros H E Hm Hne. destruct (proj2 (back_inv c g r H E) m Hm) as (Hb & Hs & _). specialize (Hs Hne).
  unfold menu_count in Hs. unfold menu_bounded in *. rewrite int_of_size_small; lia.
Qed.

Lemma sel_previous_page_inv c : cinv c -> cinv (fst (sel_previous_page cfg c)).
Proof.
  intros H. unfold sel_previous_page. destruct (sg_segs (cx_comp c)) as [|g r] eqn:E; [exact H|]. cbn [fst].
  apply (set_sel_paging_inv c g r _ H E). intros m Hm Hne.
  destruct (back_sel_small c g r m H E Hm Hne) as (-> & Hlt & Hb).
  destruct (Z.of_N (s_sel g) <? cf_page_size cfg)%Z eqn:El; lia.
Qed.

Lemma sel_next_page_inv c : cinv c -> cinv (fst (sel_next_page cfg c)).
Proof.
  intros H. unfold sel_next_page. destruct (sg_segs (cx_comp c)) as [|g r] eqn:E; [exact H|].
  destruct (s_menu g) as [m|] eqn:Em; [|exact H].
  assert (Hw : forall z, (m <> [] -> (0 <= z < Z.of_nat (length m))%Z) -> cinv (set_sel_paging c z)).
  { intros z Hz. apply (set_sel_paging_inv c g r _ H E). intros m' Hm'. rewrite Em in Hm'. injection Hm' as <-. exact Hz. }
  destruct m as [|c0 m0] eqn:Emm.
  { (* an empty menu: the index is irrelevant for the invariant *)
    destruct (_ <=? _)%Z; [destruct (cf_page_down_cycle cfg) | destruct (_ <=? _)%Z]; cbn [fst];
      try exact H; apply Hw; congruence. }
  rewrite <- Emm in *. assert (Hne : m <> []) by (rewrite Emm; discriminate).
  destruct (back_sel_small c g r m H E Em Hne) as (Hi & Hlt & Hb). unfold menu_bounded in Hb.
  set (ps := cf_page_size cfg) in *.
  assert (Hidx : int_of_size (size_wrap (s_sel g + size_of_int ps)) = (Z.of_N (s_sel g) + ps)%Z).
  { rewrite (size_of_int_small ps), size_wrap_small by lia. rewrite int_of_size_small; lia. }
  rewrite Hidx. set (index := (Z.of_N (s_sel g) + ps)%Z) in *.
  set (page_start := (Z.quot index ps * ps)%Z).
  assert (Hpg : (0 <= page_start <= index)%Z).
  { subst page_start. rewrite Z.quot_div_nonneg by lia. split; [apply Z.mul_nonneg_nonneg; [apply Z.div_pos|]; lia|].
    rewrite Z.mul_comm. apply Z.mul_div_le. lia. }
  assert (Hcnt : int_of_size (menu_prepare m (size_of_int (page_start + ps)))
                 = Z.min (page_start + ps) (Z.of_nat (length m))).
  { rewrite size_of_int_small by lia. unfold menu_prepare, menu_count. rewrite int_of_size_small; lia. }
  rewrite Hcnt.
  destruct (_ <=? page_start)%Z eqn:E1; [apply Z.leb_le in E1 | apply Z.leb_gt in E1].
  - destruct (cf_page_down_cycle cfg); cbn [fst]; [apply Hw; lia | exact H].
  - destruct (_ <=? index)%Z eqn:E2; [apply Z.leb_le in E2 | apply Z.leb_gt in E2]; cbn [fst]; apply Hw; lia.
Qed.

Lemma sel_previous_candidate_inv c : cinv c -> cinv (fst (sel_previous_candidate c)).
Proof.
  intros H. unfold sel_previous_candidate. destruct (is_linear_layout c && negb (caret_at_end_of_input c)); [exact H|].
  destruct (sg_segs (cx_comp c)) as [|g r] eqn:E; [exact H|].
  destruct (int_of_size (s_sel g) <=? 0)%Z eqn:E0; [exact H|]. cbn [fst].
  apply (set_sel_paging_inv c g r _ H E). intros m Hm Hne.
  destruct (back_sel_small c g r m H E Hm Hne) as (Hi & Hlt & Hb). rewrite Hi in *. lia.
Qed.

Lemma sel_next_candidate_inv c : cinv c -> cinv (fst (sel_next_candidate c)).
Proof.
  intros H. unfold sel_next_candidate. destruct (is_linear_layout c && negb (caret_at_end_of_input c)); [exact H|].
  destruct (sg_segs (cx_comp c)) as [|g r] eqn:E; [exact H|].
  destruct (s_menu g) as [m|] eqn:Em; [|exact H].
  destruct (_ <=? _)%Z eqn:E1; [exact H|]. cbn [fst].
  apply (set_sel_paging_inv c g r _ H E). intros m' Hm' Hne. rewrite Em in Hm'. injection Hm' as <-.
  destruct (back_sel_small c g r m H E Em Hne) as (Hi & Hlt & Hb). unfold menu_bounded in Hb.
  assert (Hidx : int_of_size (size_wrap (s_sel g + 1)) = (Z.of_N (s_sel g) + 1)%Z).
  { rewrite size_wrap_small by lia. rewrite int_of_size_small; lia. }
  rewrite Hidx in *. rewrite size_of_int_small in E1 by lia. unfold menu_prepare, menu_count in E1.
  rewrite int_of_size_small in E1 by lia. apply Z.leb_gt in E1. lia.
Qed.

Lemma sel_home_inv c : cinv c -> cinv (fst (sel_home c)).
Proof.
  intros H. unfold sel_home. destruct (sg_segs (cx_comp c)) as [|g r] eqn:E; [exact H|].
  destruct (0 <? s_sel g)%N; [|exact H]. cbn [fst]. apply with_back_inv; [exact H| |intros g1; split; reflexivity]. intros g' r' _ Hg.
  apply seg_inv_sel_at; [exact Hg|]. intros m _ Hne. unfold menu_count. destruct m; [congruence | cbn; lia].
Qed.

Lemma sel_end_inv c : cinv c -> cinv (fst (sel_end c)).
Proof. intros H. unfold sel_end. destruct (cx_caret c <? length (cx_input c)); [exact H | apply sel_home_inv, H]. Qed.

Lemma on_ctx_b_inv s f : sinv s -> (forall c, cinv c -> cinv (fst (f c))) -> sinv (fst (on_ctx_b s f)).
Proof. intros H Hf. unfold on_ctx_b. specialize (Hf _ H). destruct (f (st_ctx s)). exact Hf. Qed.
Lemma on_ctx_inv s f : sinv s -> (forall c, cinv c -> cinv (f c)) -> sinv (on_ctx s f).
Proof. intros H Hf. apply Hf, H. Qed.

Lemma run_sel_action_inv s a : sinv s -> sinv (fst (run_sel_action cfg s a)).
Proof.
  intros H. destruct a; cbn [run_sel_action]; try exact H; apply on_ctx_b_inv; try exact H; intros c Hc.
  - apply sel_previous_candidate_inv, Hc.
  - apply sel_next_candidate_inv, Hc.
  - apply sel_previous_page_inv, Hc.
  - apply sel_next_page_inv, Hc.
  - apply sel_home_inv, Hc.
  - apply sel_end_inv, Hc.
Qed.

Ltac case_if := match goal with |- sinv (fst (if ?b then _ else _)) => destruct b end.

Definition hd_map (f : segment -> segment) (l : list segment) : list segment :=
  match l with [] => [] | g :: r => f g :: r end.
Lemma map_front_eq f l : map_front f l = rev (hd_map f (rev l)).
Proof. unfold map_front. destruct (rev l); reflexivity. Qed.
Lemma map_front_Forall (P : segment -> Prop) f l : (forall g, P g -> P (f g)) -> Forall P l -> Forall P (map_front f l).
Proof.
  intros Hf H. rewrite map_front_eq. apply Forall_rev. apply Forall_rev in H. destruct (rev l) as [|g r]; [exact H|].
  cbn. inversion H; subst. constructor; [apply Hf|]; assumption.
Qed.
Lemma map_front_map {B} (p : segment -> B) f l : (forall g, p (f g) = p g) -> map p (map_front f l) = map p l.
Proof.
  intros Hf. rewrite map_front_eq, map_rev.
  assert (E : map p (hd_map f (rev l)) = map p (rev l)) by (destruct (rev l) as [|g r]; [reflexivity | cbn; rewrite Hf; reflexivity]).
  rewrite E, <- map_rev, rev_involutive. reflexivity.
Qed.

Lemma alternate_punct_inv c b d : cinv c -> cinv (fst (alternate_punct c b d)).
Proof using Hlen Hdel HMP HGE IP_firstn IP_skipn IP_app IP_key.
  intros H. unfold alternate_punct. destruct d; try exact H.
  destruct (sg_segs (cx_comp c)) as [|g r] eqn:E; [exact H|].
  destruct (negb (status_geb SVoid (s_status g)) && has_tag TPunct (s_tags g)); [|exact H].
  destruct (substr_se (cx_input c) (s_start g) (s_end g)) as [t ok].
  assert (H1 : cinv (ctx_check c ok ErrSubstr)) by (apply cinv_check; [intros _; left; reflexivity | exact H]).
  assert (E1 : sg_segs (cx_comp (ctx_check c ok ErrSubstr)) = g :: r) by (destruct ok; exact E).
  destruct (bytes_eqb [b] t); [|exact H1].
  destruct (s_menu g) as [m|] eqn:Em; [|exact H1].
  destruct (menu_prepare m (size_wrap (s_sel g + 2)) =? 0)%N eqn:Ez; [exact H1|]. cbn [fst].
  apply (cinv_back_same _ g r _ H1 E1); [|reflexivity..].
  apply seg_inv_status, seg_inv_sel_at; [apply (back_inv _ g r H1 E1)|].
  intros m' Hm' Hne. rewrite Em in Hm'. injection Hm' as <-. apply N.eqb_neq in Ez.
  pose proof (N.mod_lt (size_wrap (s_sel g + 1)) _ Ez) as Hlt. unfold menu_prepare in *. lia.
Qed.

Lemma pair_punct_inv s fs b : sinv s -> sinv (fst (pair_punct cfg translate s fs b)).
Proof.
  intros H. unfold pair_punct. destruct (sg_segs (cx_comp (st_ctx s))) as [|g r] eqn:E; [exact H|].
  destruct (negb (status_geb SVoid (s_status g)) && has_tag TPunct (s_tags g)); [|exact H].
  destruct (s_menu g) as [m|] eqn:Em; [|exact H].
  destruct (menu_prepare m 2 <? 2)%N eqn:E2; [exact H|]. cbn [fst].
  apply confirm_current_selection_inv. unfold sinv. cbn [st_ctx].
  apply (cinv_back_same _ g r _ H E); [|reflexivity..]. apply seg_inv_sel_at; [apply (back_inv _ g r H E)|].
  intros m' Hm' Hne. rewrite Em in Hm'. injection Hm' as <-. apply N.ltb_ge in E2. unfold menu_prepare in E2.
  match goal with |- (?x mod 2 < _)%N => pose proof (N.mod_lt x 2 ltac:(lia)) end. lia.
Qed.

Lemma reconvert_digit_separator_inv c b : cinv c -> cinv (fst (reconvert_digit_separator cfg translate c b)).
Proof.
  intros H. unfold reconvert_digit_separator.
  destruct (match cf_digit_seps cfg with [] => true | _ => false end); [exact H|].
  destruct (negb (bytes_eqb (cx_input c) [b])); [exact H|].
  destruct (segs_fwd (cx_comp c)) as [|g0 r0]; [exact H|].
  destruct (has_tag TPunctNumber (s_tags g0)); [|exact H]. cbn [fst].
  apply reopen_previous_segment_inv. apply cinv_comp; [exact H| |reflexivity|].
  - cbn [sg_segs sg_with_segs]. apply map_front_Forall; [|apply (cinv_segs c H)].
    intros g Hg. apply seg_inv_status, seg_inv_tags, Hg.
  - intros G. destruct (cinv_geo c H G) as (Hgeo & _). apply sgeo_same; [| |exact Hgeo]; cbn [sg_segs sg_with_segs];
      apply map_front_map; intros g; reflexivity.
Qed.

Lemma punctuator_process_inv s k : sinv s -> sinv (fst (punctuator_process cfg translate s k)).
Proof.
  intros H. unfold punctuator_process.
  destruct (k_release k || k_ctrl k || k_alt k || k_super k); [exact H|].
  destruct ((k_code k <? 32) || (127 <=? k_code k))%Z eqn:Er; [exact H|].
  apply orb_false_iff in Er as (E1 & E2). apply Z.ltb_ge in E1. apply Z.leb_gt in E2.
  cbv zeta. set (b := byte_of_N (Z.to_N (k_code k))).
  assert (Hpush : forall s0, sinv s0 -> sinv (on_ctx s0 (fun c => push_input cfg translate c b))).
  { intros s0 H0. apply (push_input_inv (st_ctx s0)); [exact H0 | apply IP_key; lia]. }
  clearbody b.
  destruct (get_option (st_ctx s) opt_ascii_punct); [exact H|].
  case_if; [cbn [fst]; apply commit_inv, Hpush, H|].
  case_if; [exact H|].
  case_if.
  { pose proof (Hpush s H) as H1.
    case_if; [|exact H1].
    destruct (cf_digit_sep_commit cfg); cbn [fst]; [apply commit_inv, H1 | apply (cinv_forward _ H1)]. }
  destruct (punct_lookup cfg (cx_opts (st_ctx s)) b) as [d|]; [|exact H].
  pose proof (alternate_punct_inv (st_ctx s) b d H) as Ha.
  destruct (alternate_punct (st_ctx s) b d) as [c1 alt]. cbn [fst] in Ha.
  destruct alt; [exact Ha|].
  pose proof (reconvert_digit_separator_inv c1 b Ha) as Hr.
  destruct (reconvert_digit_separator cfg translate c1 b) as [c2 rec]. cbn [fst] in Hr.
  match goal with |- context [punct_is_translated (st_ctx ?x) TPunct] => set (s1 := x) end.
  assert (H1 : sinv s1) by (subst s1; destruct rec; [exact Hr | apply Hpush; exact Ha]).
  clearbody s1. cbn [fst].
  destruct (punct_is_translated (st_ctx s1) TPunct); [|exact H1].
  destruct d as [v | l | [cm|] [pr|]]; try exact H1.
  - apply confirm_current_selection_inv, H1.
  - apply commit_inv, H1.
  - apply commit_inv, H1.
  - apply pair_punct_inv, H1.
Qed.

Lemma cinv_conn c b : cinv c -> cinv (ctx_with_conn c b).
Proof. intros H; exact H. Qed.

Lemma key_binder_process_inv R red s k :
  (forall f, R = Some f -> forall x tk, sinv x -> sinv (fst (f x tk))) ->
  (R = None -> red = true \/ cf_kb_guard cfg = false) ->
  sinv s -> sinv (fst (key_binder_process cfg translate R red s k)).
Proof using Hlen Hdel HMP HGE IP_nil IP_firstn IP_skipn IP_app IP_key.
  intros HR HN. apply (key_binder_process_keeps_of cfg translate sinv); [intros x v Hx; exact Hx | | |exact HR|].
  - intros x Hx. apply (push_input_inv (st_ctx x)); [exact Hx | apply IP_key; lia].
  - intros n v x Hx. apply (set_option_inv (st_ctx x)), Hx.
  - intros E. destruct (HN E) as [X | X]; [left; exact X | right].
    intros x Hx. apply (cinv_err (st_ctx x)); [right; right; left; split; [reflexivity | exact X] | exact Hx].
Qed.

Lemma sinv_kept : kept cfg translate sinv.
Proof.
  split; unfold keeps.
  - intros s s' E _ _ H. unfold sinv. rewrite E. exact H.
  - intros s t H. exact H.
  - intros z Hz s H. apply push_input_inv; [exact H | apply IP_key, Hz].
  - intros n s H. apply pop_input_inv, H.
  - intros n s H. apply delete_input_inv, H.
  - intros s H. apply clear_inv, H.
  - intros pos s H. apply set_caret_pos_inv, H.
  - intros s H. apply begin_editing_inv, H.
  - intros s H. apply reopen_previous_segment_inv, H.
  - intros s H. apply reopen_previous_selection_inv, H.
  - intros s H. apply clear_previous_segment_inv, H.
  - intros s H. apply clear_non_confirmed_inv, H.
  - intros s H. apply cinv_check; [intros _; left; reflexivity | exact H].
  - exact run_sel_action_inv.
  - exact select_inv.
  - exact confirm_current_selection_inv.
  - exact commit_inv.
  - exact delete_candidate_inv.
Qed.

Lemma sinv_kept_api : kept_api cfg translate sinv IP.
Proof.
  split; unfold keeps.
  - intros s v H. exact H.
  - intros n v s H. apply set_option_inv, H.
  - intros b s H. exact H.
  - intros h s H. exact H.
  - intros Hg s H. apply cinv_err; [right; right; left; split; [reflexivity | exact Hg] | exact H].
  - intros _. exact punctuator_process_inv.
  - intros v Hv s H. apply set_input_inv; assumption.
  - intros i s H. apply highlight_inv, H.
  - intros s H. apply with_back_inv; [exact H | intros g r _ Hg; apply seg_inv_tags, Hg | intros g; split; reflexivity].
Qed.

(** the re-entered ProcessKey: with the flag set during the replay (or when the source does not
    set it: the error is then an admitted one) every nesting depth keeps the invariant *)
Lemma process_key_n_inv fuel : forall red s k,
  (cf_kb_guard cfg = true -> red = true \/ fuel <> 0) ->
  sinv s -> sinv (fst (process_key_n cfg translate fuel red s k)).
Proof.
  intros red s k Hg. apply (process_key_n_keeps cfg translate sinv sinv_kept IP sinv_kept_api fuel).
  intros Eg. destruct (Hg Eg); auto.
Qed.

Lemma exec_inv s o : sinv s -> op_ok o -> sinv (fst (exec cfg translate s o)).
Proof.
  intros H Ho. apply (exec_keeps cfg translate sinv sinv_kept IP sinv_kept_api); [|intros _; exact H|exact H]. intros v ->. exact Ho.
Qed.

Lemma init_inv : sinv (init_state cfg).
Proof.
  split; [split; [cbn; lia|]; split; [constructor|]; split; [exact IP_nil|]; split; [exact IP_nil|]; split; [exact I|]|].
  - intros _. split; [split; constructor | discriminate].
  - cbn. split; [lia | intros _; lia].
Qed.

Ltac Zify.zify_post_hook ::= Z.div_mod_to_equations.

(** 2^64: no size_t wrap-around *)
Lemma create_page_inside m ps pn :
  (0 < ps)%N -> (ps * pn < menu_count m)%N -> (menu_count m + ps < 18446744073709551616)%N ->
  exists p, create_page m ps pn = (Some p, true) /\
            N.of_nat (length (pg_cands p)) = N.min ps (menu_count m - ps * pn).
Proof.
  intros H0 Hst Hb. unfold create_page, menu_count in *. rewrite (size_wrap_small (ps * pn)) by lia. rewrite size_wrap_small by lia.
  destruct (N.of_nat (length m) <? ps * pn + ps)%N eqn:E1.
  - apply N.ltb_lt in E1. replace (N.of_nat (length m) <=? ps * pn)%N with false by (symmetry; apply N.leb_gt; lia).
    eexists. split; [reflexivity|]. cbn [pg_cands]. rewrite skipn_length. lia.
  - apply N.ltb_ge in E1. replace (ps * pn + ps <=? ps * pn)%N with false by (symmetry; apply N.leb_gt; lia).
    eexists. split; [reflexivity|]. cbn [pg_cands]. rewrite firstn_length, skipn_length. lia.
Qed.

Lemma menu_view_cases c :
  cinv c ->
  menu_view cfg c = (None, true) \/
  exists g r p, sg_segs (cx_comp c) = g :: r /\
    let ps := cf_page_size cfg in let sel := Z.of_N (s_sel g) in
    menu_view cfg c = (Some (mkMenuObs ps (sel / ps) (pg_last p) (sel mod ps) (pg_cands p) (cf_select_keys cfg)), true) /\
    (sel mod ps < Z.of_nat (length (pg_cands p)) <= ps)%Z.
Proof.
  intros H. unfold menu_view. destruct (negb (has_menu c)) eqn:Ehm; [left; reflexivity|].
  destruct (sg_segs (cx_comp c)) as [|g r] eqn:E; [left; reflexivity|].
  destruct (s_menu g) as [m|] eqn:Em; [|left; reflexivity].
  assert (Hne : m <> []).
  { unfold has_menu, sg_back in Ehm. rewrite E in Ehm. cbn in Ehm. rewrite Em in Ehm. destruct m; discriminate. }
  destruct (back_sel_small c g r m H E Em Hne) as (Hi & Hlt & Hb). unfold menu_bounded in Hb.
  rewrite Hi. set (ps := cf_page_size cfg) in *. set (sel := Z.of_N (s_sel g)) in *.
  assert (Hsel0 : (0 <= sel)%Z) by (subst sel; lia).
  rewrite Z.quot_div_nonneg, Z.rem_mod_nonneg by lia.
  pose proof (Z.div_pos sel ps Hsel0 ltac:(lia)) as Hq.
  pose proof (Z.div_mod sel ps ltac:(lia)) as Hdm. pose proof (Z.mod_pos_bound sel ps ltac:(lia)) as Hm.
  rewrite (size_of_int_small ps), (size_of_int_small (sel / ps)) by nia.
  assert (Hst : (Z.to_N ps * Z.to_N (sel / ps))%N = Z.to_N (sel - sel mod ps))
    by (rewrite <- Z2N.inj_mul by lia; f_equal; lia).
  destruct (create_page_inside m (Z.to_N ps) (Z.to_N (sel / ps))) as (p & -> & Hp);
    rewrite ?Hst in *; unfold menu_count in *; [lia..|].
  right. exists g, r, p. split; [reflexivity|]. split; [reflexivity | fold sel; lia].
Qed.

Lemma menu_view_wf c mo :
  cinv c -> fst (menu_view cfg c) = Some mo ->
  wf_menub mo (match sg_segs (cx_comp c) with [] => None | g :: _ => Some (s_sel g) end) = true.
Proof.
  intros H Hmo. destruct (menu_view_cases c H) as [E | (g & r & p & E & Ev & Hp)]; rewrite ?E, ?Ev in *; [discriminate|].
  cbn [fst] in Hmo. injection Hmo as <-. unfold wf_menub. cbn [mo_hl mo_cands mo_page_size mo_page_no].
  pose proof (Z.div_pos (Z.of_N (s_sel g)) (cf_page_size cfg) ltac:(lia) ltac:(lia)). lia.
Qed.

Lemma menu_view_ok c : cinv c -> snd (menu_view cfg c) = true.
Proof. intros H. destruct (menu_view_cases c H) as [-> | (g & r & p & _ & -> & _)]; reflexivity. Qed.

Lemma view_err_ok s : sinv s -> match snd (view_of cfg s) with Some ErrSubstr | None => True | _ => False end.
Proof.
  intros H. unfold view_of. destruct (ctx_commit_text (st_ctx s)) as [pv ok2].
  pose proof (menu_view_ok (st_ctx s) H) as Hm. destruct (menu_view cfg (st_ctx s)) as [mv ok3]. cbn [snd] in *. subst ok3.
  destruct (is_composing (st_ctx s) && negb (pe_ok (ctx_preedit (st_ctx s)) && ok2)); exact I.
Qed.

Lemma view_wf s : sinv s -> wf_viewb (fst (view_of cfg s)) = true.
Proof.
  intros H. unfold view_of.
  destruct (ctx_commit_text (st_ctx s)) as [pv ok2].
  pose proof (menu_view_wf (st_ctx s)) as Hm. destruct (menu_view cfg (st_ctx s)) as [mv ok3]. cbn [fst] in *.
  unfold wf_viewb. cbn [v_caret v_input v_composing v_preedit v_menu v_sel].
  repeat (apply andb_true_iff; split).
  - apply Nat.leb_le, H.
  - destruct (is_composing (st_ctx s)) eqn:Ec; [reflexivity|]. cbn [orb].
    unfold is_composing in Ec. apply orb_false_iff in Ec as (E1 & E2).
    destruct (cx_input (st_ctx s)); [|discriminate]. cbn [andb].
    destruct mv as [mo|]; [|reflexivity]. exfalso.
    (* a menu needs a segment *)
    unfold sg_empty in E2. destruct (sg_segs (cx_comp (st_ctx s))) eqn:Es; [|discriminate].
    specialize (Hm mo H eq_refl). unfold wf_menub in Hm. rewrite !andb_false_r in Hm. discriminate.
  - destruct (is_composing (st_ctx s)); [|reflexivity]. unfold ctx_preedit. apply comp_preedit_wf.
  - destruct mv as [mo|]; [|reflexivity]. apply (Hm mo H eq_refl).
Qed.

Definition obs_from_inv (ob : obs) : Prop :=
  exists s, sinv s /\ match ob with
                      | ObsCrash e => cx_err (st_ctx s) = Some e
                      | Obs _ v => v = fst (view_of cfg s)
                      end.

Lemma step_inv s o :
  sinv s -> op_ok o -> sinv (fst (step cfg translate s o)) /\ obs_from_inv (snd (step cfg translate s o)).
Proof.
  intros H Ho. unfold step.
  destruct (cx_err (st_ctx s)) as [e|] eqn:Ee; [split; [exact H | exists s; split; [exact H | exact Ee]]|].
  pose proof (exec_inv s o H Ho) as H1. destruct (exec cfg translate s o) as [s1 r]. cbn [fst] in H1.
  pose proof (view_err_ok s1 H1) as Hv. destruct (view_of cfg s1) as [v ve] eqn:Ev. cbn [snd] in Hv.
  set (s2 := match ve with Some e => st_with_ctx s1 (ctx_fail (st_ctx s1) e) | None => s1 end).
  assert (H2 : sinv s2).
  { subst s2. destruct ve as [e|]; [|exact H1]. destruct e; try contradiction. apply (cinv_err (st_ctx s1)); [left; reflexivity | exact H1]. }
  destruct (cx_err (st_ctx s2)) as [e|] eqn:E2; cbn [fst snd]; (split; [exact H2|]).
  - exists s2. split; assumption.
  - exists s1. split; [exact H1 | rewrite Ev; reflexivity].
Qed.

Lemma run_from_inv ops : forall s, sinv s -> Forall op_ok ops ->
  sinv (fst (run_from cfg translate s ops)) /\ Forall obs_from_inv (snd (run_from cfg translate s ops)).
Proof.
  induction ops as [|o r IH]; intros s H Hops; [split; [exact H | constructor]|]. cbn [run_from].
  inversion Hops as [|? ? Ho Hr]; subst. destruct (step_inv s o H Ho) as (Hi & Hw).
  destruct (step cfg translate s o) as [s1 ob]. cbn [fst snd] in *.
  destruct (IH s1 Hi Hr) as (I1 & I2). destruct (run_from cfg translate s1 r) as [s2 obs]. cbn [fst snd] in *.
  split; [exact I1 | constructor; assumption].
Qed.

Theorem reachable_inv ops :
  Forall op_ok ops -> sinv (fst (run cfg translate ops)) /\ Forall obs_from_inv (snd (run cfg translate ops)).
Proof. apply run_from_inv, init_inv. Qed.

Theorem wf_reported_gen ops : Forall op_ok ops -> forallb wf_obsb (snd (run cfg translate ops)) = true.
Proof.
  intros Hops. apply forallb_forall. intros ob Hin.
  apply (proj1 (Forall_forall _ _) (proj2 (reachable_inv ops Hops))) in Hin as (s & Hs & Hob).
  destruct ob as [e|r v]; [reflexivity|]. subst v. apply view_wf, Hs.
Qed.

Definition obs_err_ok (o : obs) : Prop := match o with ObsCrash e => err_ok (Some e) | Obs _ _ => True end.

Theorem crash_kinds_gen ops : Forall op_ok ops -> Forall obs_err_ok (snd (run cfg translate ops)).
Proof.
  intros Hops. eapply Forall_impl; [|apply (reachable_inv ops Hops)].
  intros [e|r v] (s & Hs & Hob); [|exact I]. unfold obs_err_ok. rewrite <- Hob. apply Hs.
Qed.

(** the UTF-8 clause: with [IP] = ASCII and [MP] = clean candidates the
    reported preedit positions are character boundaries *)
Section Utf8.
Hypothesis IP_ascii : forall l, IP l -> all_ascii l.
Hypothesis MP_clean : forall st m, MP st m -> Forall (fun c => cand_clean c = true) m.

Lemma seg_inv_clean g : seg_inv g -> seg_clean g.
Proof.
  intros (_ & H) cd Hcd. unfold selected_cand, cand_at in Hcd. destruct (s_menu g) as [m|] eqn:Em; [|discriminate].
  destruct (H m eq_refl) as (_ & _ & Hmp). unfold menu_at in Hcd.
  destruct (menu_count m <=? s_sel g)%N; [discriminate|]. apply nth_error_In in Hcd.
  apply (proj1 (Forall_forall _ _) (MP_clean _ m Hmp) cd Hcd).
Qed.

Lemma view_utf8 s : sinv s -> wf_view_utf8b (fst (view_of cfg s)) = true.
Proof.
  intros ((Hc & Hs & Hi & Hci) & _). unfold view_of.
  destruct (ctx_commit_text (st_ctx s)) as [pv ok2]. destruct (menu_view cfg (st_ctx s)) as [mv ok3]. cbn [fst].
  unfold wf_view_utf8b. cbn [v_preedit]. destruct (is_composing (st_ctx s)); [|reflexivity].
  unfold ctx_preedit. apply comp_preedit_utf8.
  - apply IP_ascii, Hci.
  - apply IP_ascii, Hi.
  - apply Forall_forall. intros g Hg. apply seg_inv_clean. apply (proj1 (Forall_forall _ _) Hs g Hg).
  - assert (Hp : comp_prompt (cx_comp (st_ctx s)) = []).
    { unfold comp_prompt, sg_back. destruct (sg_segs (cx_comp (st_ctx s))) as [|g r] eqn:E; [reflexivity|].
      cbn. inversion Hs as [|? ? Hg _]. apply Hg. }
    rewrite Hp. destruct (get_option (st_ctx s) opt_soft_cursor); reflexivity.
Qed.

Theorem wf_reported_utf8_gen ops :
  Forall op_ok ops -> forallb wf_obs_utf8b (snd (run cfg translate ops)) = true.
Proof.
  intros Hops. apply forallb_forall. intros ob Hin.
  apply (proj1 (Forall_forall _ _) (proj2 (reachable_inv ops Hops))) in Hin as (s & Hs & Hob).
  destruct ob as [e|r v]; [reflexivity|]. subst v. apply view_utf8, Hs.
Qed.
End Utf8.

End Wf.

Lemma op_ok_True ops : Forall (op_ok (fun _ => True)) ops.
Proof. apply Forall_forall. intros o _. destruct o; exact I. Qed.

Theorem wf_reported (cfg : config) (translate : bytes -> seginfo -> list cand) :
  (1 <= cf_page_size cfg)%Z ->
  (forall i s, (Z.of_nat (length (translate i s)) + cf_page_size cfg < 2147483648)%Z) ->
  cf_del_checked cfg = true ->
  forall ops, forallb wf_obsb (snd (run cfg translate ops)) = true.
Proof.
  intros Hps Hlen Hdel ops.
  eapply wf_reported_gen with (MP := fun _ _ => True) (IP := fun _ => True) (GE := False); eauto; try tauto.
  apply op_ok_True.
Qed.

Theorem reachable_comp_input_le (cfg : config) (translate : bytes -> seginfo -> list cand) :
  (1 <= cf_page_size cfg)%Z ->
  (forall i s, (Z.of_nat (length (translate i s)) + cf_page_size cfg < 2147483648)%Z) ->
  cf_del_checked cfg = true ->
  forall ops, let c := st_ctx (fst (run cfg translate ops)) in
              length (sg_input (cx_comp c)) <= length (cx_input c) /\ cx_caret c <= length (cx_input c).
Proof.
  intros Hps Hlen Hdel ops.
  assert (H : sinv cfg (fun _ _ => True) (fun _ => True) False (fst (run cfg translate ops))).
  { eapply reachable_inv; eauto; try tauto. apply op_ok_True. }
  cbv zeta. destruct H as ((Hc & _) & Hr & _). split; assumption.
Qed.

(** which kinds of crash a history can report at all: never a null dereference or an invalid page
    range; the commit history's dangling [last] and the key binder's unbounded re-entry only for
    the source shapes without the respective guard *)
Definition crash_kind_ok (cfg : config) (o : obs) : Prop :=
  match o with
  | ObsCrash ErrNullDeref | ObsCrash ErrBadRange => False
  | ObsCrash ErrDangling => cf_hist_guard cfg = false
  | ObsCrash ErrRecursion => cf_kb_guard cfg = false
  | _ => True
  end.

Theorem crash_kinds (cfg : config) (translate : bytes -> seginfo -> list cand) :
  (1 <= cf_page_size cfg)%Z ->
  (forall i s, (Z.of_nat (length (translate i s)) + cf_page_size cfg < 2147483648)%Z) ->
  cf_del_checked cfg = true ->
  forall ops, Forall (crash_kind_ok cfg) (snd (run cfg translate ops)).
Proof.
  intros Hps Hlen Hdel ops.
  assert (H : Forall (obs_err_ok cfg) (snd (run cfg translate ops))).
  { eapply crash_kinds_gen with (MP := fun _ _ => True) (IP := fun _ => True) (GE := False); eauto; try tauto.
    apply op_ok_True. }
  eapply Forall_impl; [|exact H]. intros o Ho. destruct o as [e|]; [|exact I]. destruct e; exact Ho.
Qed.

(** in particular, over all histories the modelled core never dereferences a null candidate
    and never builds an invalid page range *)
Definition obs_ok (o : obs) : Prop :=
  match o with ObsCrash ErrNullDeref | ObsCrash ErrBadRange => False | _ => True end.

Theorem no_null_no_bad_range (cfg : config) (translate : bytes -> seginfo -> list cand) :
  (1 <= cf_page_size cfg)%Z ->
  (forall i s, (Z.of_nat (length (translate i s)) + cf_page_size cfg < 2147483648)%Z) ->
  cf_del_checked cfg = true ->
  forall ops, Forall obs_ok (snd (run cfg translate ops)).
Proof.
  intros Hps Hlen Hdel ops. eapply Forall_impl; [|apply (crash_kinds cfg translate Hps Hlen Hdel ops)].
  intros [e|] H; [|exact I]. destruct e; try exact I; exact H.
Qed.

(** with candidates that end at or after the start of their segment: over all
    histories the only undefined operation the modelled core can still reach is
    std::string::substr with pos > size (ErrSubstr) – no null dereference, no
    invalid page range, and CalculateSegmentation always finishes within its
    |input| + 1 rounds (no ErrFuel); the source fact [cf_hist_guard] excludes the
    dangling [last] of CommitHistory::Push (see [commit_history_dangling] in PunctProofs.v
    for the source shape without the reset) *)
Definition obs_only_substr (o : obs) : Prop :=
  match o with ObsCrash ErrSubstr | Obs _ _ => True | ObsCrash _ => False end.

Theorem only_substr_can_fail (cfg : config) (translate : bytes -> seginfo -> list cand) :
  (1 <= cf_page_size cfg)%Z ->
  (forall i s, (Z.of_nat (length (translate i s)) + cf_page_size cfg < 2147483648)%Z) ->
  cf_del_checked cfg = true ->
  cf_hist_guard cfg = true ->
  cf_kb_guard cfg = true ->
  (forall i s c, In c (translate i s) -> si_start s <= c_end c) ->
  forall ops, Forall obs_only_substr (snd (run cfg translate ops)).
Proof.
  intros Hps Hlen Hdel Hhg Hkg Hce ops.
  set (MPg := fun (st : nat) (m : menu) => forall c, In c m -> st <= c_end c).
  assert (H : Forall (obs_from_inv cfg MPg (fun _ => True) True) (snd (run cfg translate ops))).
  { eapply reachable_inv; eauto; try tauto.
    - intros i sg _ c Hc. apply (Hce i sg c Hc).
    - apply op_ok_True. }
  eapply Forall_impl; [|exact H]. intros [e|r v] (s & ((_ & _ & _ & _ & Hok & Hg) & _) & Hob); [|exact I].
  destruct (Hg I) as (_ & Hnf). rewrite Hob in Hok, Hnf.
  destruct e; cbn in Hok; try contradiction; try exact I; congruence.
Qed.

Definition op_ascii (o : op) : Prop := match o with OpSetInput v => all_ascii v | _ => True end.

Lemma ascii_key z : (32 <= z < 128)%Z -> all_ascii [byte_of_N (Z.to_N z)].
Proof.
  intros H. constructor; [|constructor]. unfold is_ascii, byte_of_N, N_of_byte.
  destruct (Byte.of_N (Z.to_N z)) as [b|] eqn:E; [|reflexivity].
  apply Byte.to_of_N in E. rewrite E. apply N.ltb_lt. lia.
Qed.

Theorem wf_reported_utf8 (cfg : config) (translate : bytes -> seginfo -> list cand) :
  (1 <= cf_page_size cfg)%Z ->
  (forall i s, (Z.of_nat (length (translate i s)) + cf_page_size cfg < 2147483648)%Z) ->
  cf_del_checked cfg = true ->
  (forall i s, all_ascii i -> Forall (fun c => cand_clean c = true) (translate i s)) ->
  forall ops, Forall op_ascii ops -> forallb wf_obs_utf8b (snd (run cfg translate ops)) = true.
Proof.
  intros Hps Hlen Hdel Hclean ops Hops.
  eapply wf_reported_utf8_gen with (MP := fun _ => Forall (fun c => cand_clean c = true)) (IP := all_ascii) (GE := False); eauto; try tauto.
  all: try (intros; apply Hclean; assumption).
  - constructor.
  - intros n l; apply all_ascii_firstn.
  - intros n l; apply all_ascii_skipn.
  - intros a b Ha Hb. apply Forall_app; split; assumption.
  - apply ascii_key.
Qed.
