(** Eng/WfView.v – C02: the positions Composition::GetPreedit reports.

    GetPreedit builds its text by appending whole pieces (candidate texts,
    candidate preedits cut at the tab, stretches of the two inputs) and every
    position it reports (sel_start, sel_end, cursor) was the length of the text
    at some moment.  So a property [B t p] of positions that holds of
    [length t] and survives appending a piece holds of all three, whatever the
    composition, input, caret and prompt.  With "p <= |t|" this is the clause
    on ordered ranges ([comp_preedit_wf]); with "p is a character boundary"
    and pieces that start clean it is the UTF-8 clause (Utf8Proofs.v). *)
From Coq Require Import List Arith NArith ZArith Bool Lia.
From Coq.Strings Require Import Byte.
From RimeV Require Import Base.Bytes Base.ListX Eng.Keys Eng.Cand Eng.Menu Eng.Segm Eng.Ctx Eng.Engine Eng.Procs
     Eng.Api Eng.Spec.
Import ListNotations.

Lemma find_byte_lt b l p : find_byte b l = Some p -> p < length l.
Proof.
  revert p. induction l as [|x r IH]; intros p H; [discriminate|]. cbn [find_byte] in H.
  destruct (Byte.eqb x b); [injection H as <-; cbn; lia|].
  destruct (find_byte b r) as [q|]; [|discriminate]. injection H as <-. specialize (IH q eq_refl). cbn. lia.
Qed.

Section Junctions.
Variable B : bytes -> nat -> Prop.   (* [p] is an admissible position of the text *)
Variable G : bytes -> Prop.          (* a piece that may be appended *)
Hypothesis B_end : forall t, B t (length t).
Hypothesis B_app : forall t u p, B t p -> G u -> B (t ++ u) p.
Hypothesis B_insert : forall t pr c p, B t c -> B t p -> G pr -> pr <> [] ->
  B (firstn c t ++ pr ++ skipn c t) (if c <? p then p + length pr else p).

Definition pos_ok (t : bytes) (cp : option nat) (ss : nat) (se : option nat) : Prop :=
  B t ss /\ (exists e, se = Some e /\ ss <= e /\ B t e) /\ forall p, cp = Some p -> B t p.
Definition pacc_pos (a : pacc) : Prop := pos_ok (pa_text a) (pa_caret a) (pa_sel_start a) (pa_sel_end a).

Lemma pos_app t u cp ss se : G u -> pos_ok t cp ss se -> pos_ok (t ++ u) cp ss se.
Proof.
  intros Hu (Hs & (e & Ee & Hle & He) & Hc).
  split; [auto|]. split; [exists e; auto | auto].
Qed.

(** the highlighted segment: the selection is the piece appended now *)
Lemma pos_select t u cp :
  G u -> (forall p, cp = Some p -> B t p) -> pos_ok (t ++ u) cp (length t) (Some (length (t ++ u))).
Proof.
  intros Hu Hc. split; [auto|]. split; [|auto].
  exists (length (t ++ u)). split; [reflexivity|]. split; [rewrite app_length; lia | apply B_end].
Qed.

(** the highlighted candidate's preedit [u ++ tab ++ v] with the caret at the tab *)
Lemma pos_tab t u v : G u -> G v ->
  pos_ok ((t ++ u) ++ v) (Some (length (t ++ u))) (length t) (Some (length (t ++ u))).
Proof.
  intros Hu Hv. assert (Htab : B ((t ++ u) ++ v) (length (t ++ u))) by auto.
  split; [auto|]. split.
  - exists (length (t ++ u)). split; [reflexivity|]. split; [rewrite app_length; lia | exact Htab].
  - intros p E. injection E as <-. exact Htab.
Qed.

Definition seg_pieces (g : segment) : Prop :=
  forall c, selected_cand g = Some c ->
    G (c_text c) /\ G (c_preedit c) /\
    forall p, find_byte byte_tab (c_preedit c) = Some p -> G (firstn p (c_preedit c)) /\ G (skipn (S p) (c_preedit c)).

Section Loop.
Variable ci : bytes.
Hypothesis G_sub : forall s e, G (fst (substr_se ci s e)).

Lemma preedit_step_pos fi caret is_last a g :
  seg_pieces g -> pacc_pos a -> pacc_pos (preedit_step ci fi caret is_last a g).
Proof.
  intros Hg H. unfold preedit_step. cbv zeta.
  (* the caret mark: the current length of the text *)
  set (a1 := if caret =? pa_end a then _ else a).
  assert (H1 : pacc_pos a1).
  { subst a1. destruct (caret =? pa_end a); [|exact H]. destruct H as (Hs & He & _).
    split; [exact Hs|]. split; [exact He|]. intros p E. injection E as <-. apply B_end. }
  clearbody a1. clear H.
  pose proof (G_sub (pa_end a) (s_end g)) as Hsub.
  destruct (substr_se ci (pa_end a) (s_end g)) as [sub oks]. cbn [fst] in Hsub.
  destruct a1 as [t cp ss se en ok]. unfold pacc_pos in *.
  cbn [pa_text pa_caret pa_sel_start pa_sel_end pa_end pa_ok] in *.
  assert (Hc : forall p, cp = Some p -> B t p) by apply H1.
  destruct (selected_cand g) as [c|] eqn:Ec.
  - destruct (Hg c Ec) as (Gt & Gp & Gtab). destruct is_last; cbn [negb].
    + destruct (c_preedit c) as [|x r].
      * cbn [pa_text pa_caret pa_sel_start pa_sel_end]. apply pos_select; assumption.
      * destruct (find_byte byte_tab (x :: r)) as [p|] eqn:Ef.
        -- destruct (Gtab p eq_refl) as (G1 & G2).
           destruct ((caret =? c_end c) && (c_end c =? length fi)); cbn [pa_text pa_caret pa_sel_start pa_sel_end].
           ++ replace (length t + p) with (length (t ++ firstn p (x :: r))).
              ** apply pos_tab; assumption.
              ** rewrite app_length, firstn_length_le; [reflexivity|]. apply Nat.lt_le_incl, (find_byte_lt _ _ _ Ef).
           ++ apply pos_select; assumption.
        -- cbn [pa_text pa_caret pa_sel_start pa_sel_end]. apply pos_select; assumption.
    + cbn [pa_text pa_caret pa_sel_start pa_sel_end]. apply pos_app; assumption.
  - destruct is_last; cbn [negb pa_text pa_caret pa_sel_start pa_sel_end].
    + apply pos_select; assumption.
    + destruct (has_tag TPhony (s_tags g)); cbn [pa_text pa_caret pa_sel_start pa_sel_end];
        [exact H1 | apply pos_app; assumption].
Qed.

Lemma preedit_loop_pos fi caret segs a :
  Forall seg_pieces segs -> pacc_pos a -> pacc_pos (preedit_loop ci fi caret segs a).
Proof.
  intros Hs. revert a. induction Hs as [|g r Hg _ IH]; intros a H; [exact H|].
  cbn [preedit_loop]. apply IH, preedit_step_pos; assumption.
Qed.
End Loop.

Definition preedit_pos (p : preedit) : Prop :=
  B (pe_text p) (pe_sel_start p) /\ B (pe_text p) (pe_sel_end p) /\ B (pe_text p) (pe_caret p) /\
  pe_sel_start p <= pe_sel_end p.

(** after the loop: the rest of the two inputs is appended, then the prompt is inserted at the cursor *)
Lemma comp_preedit_pos sg fi caret cs :
  (forall s e, G (fst (substr_se (sg_input sg) s e))) -> (forall n, G (skipn n (sg_input sg))) ->
  (forall n, G (skipn n fi)) -> Forall seg_pieces (sg_segs sg) -> G (cs ++ comp_prompt sg) ->
  preedit_pos (comp_preedit sg fi caret cs).
Proof.
  intros Gsub Gci Gfi Hs Gpr. unfold comp_preedit. cbv zeta.
  assert (H : pacc_pos (preedit_loop (sg_input sg) fi caret (segs_fwd sg) (mkPacc [] None 0 (Some 0) 0 true))).
  { apply preedit_loop_pos; [exact Gsub | apply Forall_rev, Hs |].
    split; [apply (B_end [])|]. split; [exists 0; split; [reflexivity|]; split; [apply le_n | apply (B_end [])] | discriminate]. }
  set (a0 := preedit_loop _ _ _ _ _) in *. clearbody a0.
  set (a1 := if pa_end a0 <? length (sg_input sg) then _ else a0).
  assert (H1 : pacc_pos a1) by (subst a1; destruct (_ <? _); [apply pos_app; [apply Gci | exact H] | exact H]).
  clearbody a1. clear H a0. destruct a1 as [t cp ss se en ok]. unfold pacc_pos in H1.
  cbn [pa_text pa_caret pa_sel_start pa_sel_end pa_end pa_ok] in *.
  destruct H1 as (Hss & (e & -> & Hle & He) & Hcp).
  set (cpos := match cp with Some p => p | None => length t end).
  assert (Hc : B t cpos) by (subst cpos; destruct cp; [apply Hcp; reflexivity | apply B_end]).
  clearbody cpos.
  set (text := if en <? length fi then t ++ skipn en fi else t).
  assert (Ht : forall p, B t p -> B text p) by (intros p Hp; subst text; destruct (_ <? _); auto).
  clearbody text. unfold preedit_pos.
  destruct (cs ++ comp_prompt sg) as [|x r] eqn:Epr; cbn [pe_text pe_caret pe_sel_start pe_sel_end].
  - auto.
  - rewrite <- Epr in *. assert (Hne : cs ++ comp_prompt sg <> []) by (rewrite Epr; discriminate).
    split; [auto|]. split; [auto|]. split.
    + pose proof (B_insert text _ cpos cpos (Ht _ Hc) (Ht _ Hc) Gpr Hne) as X. rewrite Nat.ltb_irrefl in X. exact X.
    + destruct (Nat.ltb_spec cpos ss); destruct (Nat.ltb_spec cpos e); lia.
Qed.
End Junctions.

Lemma comp_preedit_wf sg fi caret cs : wf_preeditb (comp_preedit sg fi caret cs) = true.
Proof.
  destruct (comp_preedit_pos (fun t p => p <= length t) (fun _ => True)) with (sg := sg) (fi := fi) (caret := caret) (cs := cs)
    as (H1 & H2 & H3 & H4); auto.
  - intros t u p H _. rewrite app_length. lia.
  - intros t pr c p Hc Hp _ _. rewrite !app_length, firstn_length, skipn_length. destruct (c <? p); lia.
  - apply Forall_forall. intros g _ c _. auto.
  - unfold wf_preeditb. rewrite !andb_true_iff, !Nat.leb_le. auto.
Qed.
