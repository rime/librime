(** Eng/TransProofs.v – facts about the merged translations of Trans.v: every
    candidate of a menu comes from one of the translators, the menu is no longer
    than the translations together, a single translator's list is the menu. *)
From Coq Require Import List Arith NArith ZArith Bool Lia Permutation.
From Coq.Strings Require Import Byte.
From RimeV Require Import Base.Bytes Eng.Keys Eng.Cand Eng.Menu Eng.Segm Eng.Ctx Eng.Engine Eng.Trans.
Import ListNotations.

Lemma take_at_perm k : forall ts c ts', take_at k ts = Some (c, ts') -> Permutation (concat ts) (c :: concat ts').
Proof.
  induction k as [|k IH]; intros [|t r] c ts' H; cbn [take_at] in H; try discriminate.
  - destruct t as [|c0 [|c1 t1]]; [discriminate | |]; injection H as <- <-; reflexivity.
  - destruct (take_at k r) as [[c1 r']|] eqn:E; [|discriminate]. injection H as <- <-. cbn [concat].
    rewrite (IH r c1 r' E). symmetry. apply Permutation_middle.
Qed.

Lemma merge_loop_perm fuel : forall ts, exists rest, Permutation (concat ts) (merge_loop fuel ts ++ rest).
Proof.
  induction fuel as [|f IH]; intros ts; [exists (concat ts); reflexivity|]. cbn [merge_loop].
  destruct (take_at (elect ts) ts) as [[c ts']|] eqn:E; [|exists (concat ts); reflexivity].
  destruct (IH ts') as (rest & Hp). exists rest. now rewrite (take_at_perm _ _ _ _ E), Hp.
Qed.

Lemma concat_filter_nonempty (ts : list (list cand)) : concat (filter nonempty ts) = concat ts.
Proof. induction ts as [|[|c t] r IH]; cbn; now rewrite ?IH. Qed.

Lemma total_len_concat ts : total_len ts = length (concat ts).
Proof. induction ts as [|t r IH]; [reflexivity|]. cbn [concat]. rewrite app_length, <- IH. reflexivity. Qed.

Lemma merge_translations_perm ts : exists rest, Permutation (concat ts) (merge_translations ts ++ rest).
Proof. unfold merge_translations. rewrite <- (concat_filter_nonempty ts). apply merge_loop_perm. Qed.

Lemma merge_translations_In ts c : In c (merge_translations ts) -> exists t, In t ts /\ In c t.
Proof.
  intros H. destruct (merge_translations_perm ts) as (rest & Hp). apply in_concat.
  apply (Permutation_in c (Permutation_sym Hp)), in_or_app. left; exact H.
Qed.
Lemma merge_translations_length ts : length (merge_translations ts) <= total_len ts.
Proof.
  destruct (merge_translations_perm ts) as (rest & Hp). rewrite total_len_concat, (Permutation_length Hp), app_length. lia.
Qed.

Lemma merge_loop_single l : forall fuel, length l <= fuel -> l <> [] -> merge_loop fuel [l] = l.
Proof.
  induction l as [|c r IH]; intros fuel Hf Hne; [congruence|]. destruct fuel as [|f]; [cbn in Hf; lia|].
  cbn [merge_loop elect take_at]. destruct r as [|c1 r1]; [destruct f; reflexivity|].
  f_equal. apply IH; [cbn in *; lia | discriminate].
Qed.
Lemma merge_translations_single l : merge_translations [l] = l.
Proof.
  unfold merge_translations. cbn [filter]. destruct l as [|c r]; [reflexivity|]. cbn [nonempty].
  apply merge_loop_single; [unfold total_len; cbn; lia | discriminate].
Qed.

Section AllTranslate.
Variable cfg : config.
Variable main : bytes -> seginfo -> list cand.

Lemma all_translate_In i s c :
  In c (all_translate cfg main i s) -> In c (punct_translate cfg i s) \/ In c (main i s).
Proof.
  unfold all_translate. intros H. destruct (merge_translations_In _ _ H) as (t & Ht & Hc).
  apply in_map_iff in Ht as (tr & <- & _). destruct tr; [left | right]; exact Hc.
Qed.

Lemma all_translate_main_only i s : cf_translators cfg = [TrMain] -> all_translate cfg main i s = main i s.
Proof. intros E. unfold all_translate. rewrite E. cbn [map translator_query]. apply merge_translations_single. Qed.

Lemma all_translate_length2 i s :
  cf_translators cfg = [TrPunct; TrMain] ->
  length (all_translate cfg main i s) <= length (punct_translate cfg i s) + length (main i s).
Proof.
  intros E. unfold all_translate. rewrite E. cbn [map translator_query].
  pose proof (merge_translations_length [punct_translate cfg i s; main i s]) as H.
  assert (E2 : total_len [punct_translate cfg i s; main i s] = length (punct_translate cfg i s) + length (main i s))
    by (unfold total_len; cbn [fold_right]; lia).
  rewrite E2 in H. exact H.
Qed.

Lemma punct_translate_span i s c : In c (punct_translate cfg i s) -> c_start c = si_start s /\ c_end c = si_end s /\ i <> [].
Proof.
  unfold punct_translate. destruct (has_tag TPunctNumber (si_tags s)).
  - destruct i as [|b r]; [intros []|]. intros [<- | []]. repeat split; discriminate.
  - destruct (negb (has_tag TPunct (si_tags s))); [intros []|].
    destruct i as [|b [|b2 r]]; [intros [] | | intros []].
    assert (Hm : forall l, In c (map (fun t => punct_cand t s) l) -> c_start c = si_start s /\ c_end c = si_end s /\ [b] <> [])
      by (intros l Hl; apply in_map_iff in Hl as (t & <- & _); repeat split; discriminate).
    assert (H1 : forall v, In c [punct_cand v s] -> c_start c = si_start s /\ c_end c = si_end s /\ [b] <> [])
      by (intros v [<- | []]; repeat split; discriminate).
    destruct (punct_lookup cfg (si_opts s) b) as [[v | l | [cm|] [pr|]]|].
    + apply H1.
    + apply Hm.
    + apply H1.
    + apply H1.
    + destruct (length pr =? 2); [apply Hm | intros []].
    + intros [].
    + intros [].
Qed.

(** number of candidates punct_translator can yield: the longest list of the two mappings (at least 1) *)
Definition pdef_width (d : pdef) : nat :=
  match d with PdValue _ => 1 | PdList l => length l | PdMap (Some _) _ => 1 | PdMap None (Some l) => length l | PdMap None None => 0 end.
Definition punct_width : nat :=
  fold_right (fun (kd : byte * pdef) n => Nat.max (pdef_width (snd kd)) n) 1 (cf_punct_half cfg ++ cf_punct_full cfg).

Lemma pd_assoc_in l b d : pd_assoc l b = Some d -> In d (map snd l).
Proof.
  induction l as [|[k d0] r IH]; [discriminate|]. cbn [pd_assoc]. destruct (Byte.eqb k b).
  - intros H; injection H as <-. left; reflexivity.
  - intros H. right. apply IH, H.
Qed.
Lemma width_ge l d : In d (map snd l) -> pdef_width d <= fold_right (fun (kd : byte * pdef) n => Nat.max (pdef_width (snd kd)) n) 1 l.
Proof.
  induction l as [|[k d0] r IH]; [intros []|]. cbn [map fold_right snd]. intros [<- | H]; [lia|]. specialize (IH H). lia.
Qed.
Lemma punct_translate_length i s : length (punct_translate cfg i s) <= punct_width.
Proof.
  assert (H1 : 1 <= punct_width) by (unfold punct_width; induction (cf_punct_half cfg ++ cf_punct_full cfg) as [|x r IH]; cbn; lia).
  unfold punct_translate. destruct (has_tag TPunctNumber (si_tags s)); [destruct i; cbn; lia|].
  destruct (negb (has_tag TPunct (si_tags s))); [cbn; lia|].
  destruct i as [|b [|b2 r]]; try (cbn; lia).
  destruct (punct_lookup cfg (si_opts s) b) as [d|] eqn:E; [|cbn; lia].
  assert (Hw : pdef_width d <= punct_width).
  { unfold punct_lookup in E. unfold punct_width. apply width_ge. rewrite map_app. apply in_or_app.
    destruct (opts_get (si_opts s) opt_full_shape); [right | left]; eapply pd_assoc_in; exact E. }
  destruct d as [v | l | [cm|] [pr|]]; cbn [pdef_width] in Hw; cbn [length]; rewrite ?map_length; try lia.
  destruct (length pr =? 2); [rewrite map_length; lia | cbn; lia].
Qed.

End AllTranslate.
