(** Eng/CommitFrame.v – predicates on states that read only the commit text and KeyBinder::last_key_.

    Every function of Engine.v and Procs.v except KeyBinder's changes a state only by replacing the context, the
    navigator's fields, the punctuator's oddness map or the ascii composer's flags, and by appending to the commit
    text through [Engine.sink]; KeyBinder::last_key_ is not written (the clock only by [Api.exec]).  A predicate on
    states is [stable] when it survives these two kinds of update and a change of the clock.  "Only ever appends to
    the commit text" (C03, CommitProofs.v) and "last_key_ is still v" (C05, KbFrame.v) are the instances.  A stable
    predicate is kept by every operation TotalLift.v asks for ([stable_kept]; [stable_kept_api] when it ignores
    last_key_ too), so the processors, ProcessKey and the API calls carry it by the theorems there.  What has to be
    shown here is that the session-level operations (Commit, Select with OnSelect, ...) and the punctuator keep it.
    Each of these proofs has the same reason: the function is a case distinction whose branches compose the two
    updates and functions treated before; so each unfolds the function, splits on what it inspects ([case_state]) and
    closes the branches from the hint base [frame], which collects the lemmas as they are proved. *)
From Coq Require Import List ZArith.
From RimeV Require Import Base.Bytes Eng.Cand Eng.Ctx Eng.Engine Eng.Procs Eng.Api Eng.TotalLift.
Import ListNotations.

Record stable (P : state -> Prop) : Prop := {
  stable_upd : forall s c i sp o a clk, P s -> P (mkSt c i sp (st_commit s) o (st_kb_last s) a clk);
  stable_sink : forall s t, P s -> P (sink s t)
}.

(** The state in the goal is computed by a case distinction: split on what is inspected.  A pair taken apart by [let]
    is replaced by its projections, so that what is known of [fst (f s)] still applies. *)
Ltac case_state :=
  match goal with
  | |- _ (fst (let (_, _) := ?x in _)) => rewrite (surjective_pairing x); cbv beta iota
  | |- _ (let (_, _) := ?x in _) => rewrite (surjective_pairing x); cbv beta iota
  | |- _ (fst (match ?x with _ => _ end)) => destruct x
  | |- _ (match ?x with _ => _ end) => destruct x
  end; cbn [fst].

Create HintDb frame discriminated.

Section Frame.
Variable cfg : config.
Variable translate : bytes -> seginfo -> list cand.
Variable P : state -> Prop.
Hypothesis HP : stable P.

Lemma with_ctx_stable s c : P s -> P (st_with_ctx s c).
Proof. apply (stable_upd P HP). Qed.
Lemma on_ctx_stable s f : P s -> P (on_ctx s f).
Proof. apply with_ctx_stable. Qed.
Lemma on_ctx_b_stable s f : P s -> P (fst (on_ctx_b s f)).
Proof. intros H. unfold on_ctx_b. case_state. apply with_ctx_stable, H. Qed.
Lemma sink_stable s t : P s -> P (sink s t).
Proof. apply (stable_sink P HP). Qed.
Lemma if_stable (b : bool) s1 s2 : P s1 -> P s2 -> P (if b then s1 else s2).
Proof. destruct b; auto. Qed.
Hint Resolve with_ctx_stable on_ctx_stable on_ctx_b_stable sink_stable if_stable : frame.

Lemma commit_stable s : P s -> P (fst (commit cfg translate s)).
Proof. intros H. unfold commit. repeat case_state; auto 6 with frame. Qed.
Hint Resolve commit_stable : frame.

Lemma on_select_stable s : P s -> P (on_select cfg translate s).
Proof. intros H. unfold on_select. apply (stable_upd P HP). repeat case_state; auto with frame. Qed.
Hint Resolve on_select_stable : frame.

Lemma select_stable s i : P s -> P (fst (select cfg translate s i)).
Proof. intros H. unfold select. repeat case_state; auto with frame. Qed.
Lemma confirm_stable s : P s -> P (fst (confirm_current_selection cfg translate s)).
Proof. intros H. unfold confirm_current_selection. repeat case_state; auto with frame. Qed.
Lemma delete_candidate_stable s i : P s -> P (fst (delete_candidate cfg s i)).
Proof. intros H. unfold delete_candidate. repeat case_state; auto with frame. Qed.
Hint Resolve select_stable confirm_stable delete_candidate_stable : frame.
Lemma run_sel_action_stable s a : P s -> P (fst (run_sel_action cfg s a)).
Proof. intros H. destruct a; cbn [run_sel_action fst]; auto with frame. Qed.

Lemma stable_kept : kept cfg translate P.
Proof.
  split; unfold keeps; try (intros; apply on_ctx_stable; assumption).
  - intros s [c i sp t o v a clk] _ Ev Et H. cbn [st_kb_last st_commit] in Ev, Et. subst t v. apply (stable_upd P HP), H.
  - exact sink_stable.
  - exact run_sel_action_stable.
  - exact select_stable.
  - exact confirm_stable.
  - exact commit_stable.
  - exact delete_candidate_stable.
Qed.

Lemma pair_punct_stable s fs b : P s -> P (fst (pair_punct cfg translate s fs b)).
Proof.
  intros H. unfold pair_punct. repeat case_state; auto. apply confirm_stable, (stable_upd P HP), H.
Qed.
Hint Resolve pair_punct_stable : frame.
Lemma punctuator_stable s k : P s -> P (fst (punctuator_process cfg translate s k)).
Proof. intros H. unfold punctuator_process. cbv zeta. repeat case_state; auto 7 with frame. Qed.

Hypothesis HL : forall s v, P s -> P (mkSt (st_ctx s) (st_nav_input s) (st_spans s) (st_commit s) (st_odd s) v (st_ac s) (st_clock s)).

Lemma stable_kept_api : kept_api cfg translate P (fun _ => True).
Proof.
  split; unfold keeps; try (intros; apply on_ctx_stable; assumption).
  - exact HL.
  - intros _. exact punctuator_stable.
Qed.

End Frame.
