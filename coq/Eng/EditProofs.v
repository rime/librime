(** Eng/EditProofs.v – C05: the editing keys refine a text buffer with a caret.

    Simulation invariant [ctx_ok] ([good] adds: the input and caret are the buffer's, nothing is committed): the
    context has no error, the input consists of spelling letters, the caret is inside it, the options are the initial
    ones, and the composition is either empty (iff the input is empty) or ONE unselected segment starting at 0 with
    selected_index 0.  Under it
      - Selector::Home/End fall through, the selector has no other binding;
      - ReopenPreviousSelection / ReopenPreviousSegment are no-ops, so both BackSpace bindings reduce to PopInput;
      - Navigator::GoHome lands on 0;
      - CancelComposition = ClearPreviousSegment with back().start = 0: the input becomes empty.
    Compose re-establishes the invariant ([compose_ok]); every editing member of Context ends in it.
    The translator is arbitrary (a Section variable without hypotheses). *)
From Coq Require Import List Arith NArith ZArith Bool Lia.
From Coq.Strings Require Import Byte.
From RimeV Require Import Base.Bytes Base.ListX Eng.Keys Eng.Cand Eng.Menu Eng.Segm Eng.Ctx Eng.Engine Eng.Procs
     Eng.Api Eng.Oracle Eng.Spec Eng.TotalLift Eng.CommitFrame Eng.KbFrame Gen.Keymaps.
Import ListNotations.

Definition letter (b : byte) : Prop := mem_byte b lower_alphabet = true.

Lemma letter_forallb (p : byte -> bool) : forallb p lower_alphabet = true -> forall b, letter b -> p b = true.
Proof.
  intros Hp b Hb. apply existsb_exists in Hb as (x & Hx & E). apply Byte.byte_dec_bl in E. subst x.
  exact (proj1 (forallb_forall p lower_alphabet) Hp b Hx).
Qed.

Lemma letter_code b : letter b -> (97 <= Z.of_N (N_of_byte b) <= 122)%Z.
Proof.
  intros H. apply (letter_forallb (fun b => (97 <=? Z.of_N (N_of_byte b)) && (Z.of_N (N_of_byte b) <=? 122))%Z eq_refl) in H.
  apply andb_prop in H. split; apply Z.leb_le, H.
Qed.

Lemma letter_not_delim b : letter b -> mem_byte b [x20; x27] = false.
Proof. intros H. apply negb_true_iff. exact (letter_forallb (fun b => negb (mem_byte b [x20; x27])) eq_refl b H). Qed.

Lemma letter_printable b : letter b -> printable b = true.
Proof. exact (letter_forallb printable eq_refl b). Qed.

Lemma byte_of_code b : byte_of_N (Z.to_N (Z.of_N (N_of_byte b))) = b.
Proof. rewrite N2Z.id. apply byte_of_N_of_byte. Qed.

Lemma st_with_ctx_id s : st_with_ctx s (st_ctx s) = s.
Proof. destruct s; reflexivity. Qed.

Lemma common_prefix_le a b : common_prefix a b <= length b.
Proof.
  revert b. induction a as [|x a IH]; intros [|y b]; cbn [common_prefix length]; try lia.
  destruct (Byte.eqb x y); [specialize (IH b)|]; lia.
Qed.

Lemma substr_se_0 ci en : snd (substr_se ci 0 en) = true.
Proof. unfold substr_se. cbn [Nat.ltb Nat.leb]. reflexivity. Qed.

(** one iteration of GetPreedit's loop reads one substring, from the end it has reached to the end of the segment *)
Lemma preedit_step_ok ci fi caret il a g :
  snd (substr_se ci (pa_end a) (s_end g)) = true -> pa_ok (preedit_step ci fi caret il a g) = pa_ok a.
Proof.
  intros H. destruct a as [tx ca ss se en ok]. unfold preedit_step.
  cbn [pa_end pa_text pa_caret pa_sel_start pa_sel_end pa_ok] in *.
  destruct (caret =? en); cbn [pa_end pa_text pa_caret pa_sel_start pa_sel_end pa_ok];
    destruct (substr_se ci en (s_end g)) as [t ok']; cbn [snd] in H; subst ok';
    repeat match goal with
           | |- context [match ?x with _ => _ end] =>
             destruct x; cbn [pa_end pa_text pa_caret pa_sel_start pa_sel_end pa_ok negb]
           end;
    rewrite ?andb_true_r; reflexivity.
Qed.

Lemma comp_preedit_ok sg fi caret cs :
  pe_ok (comp_preedit sg fi caret cs)
  = pa_ok (preedit_loop (sg_input sg) fi caret (segs_fwd sg) (mkPacc [] None 0 (Some 0) 0 true)).
Proof.
  unfold comp_preedit. cbv zeta.
  set (a := preedit_loop (sg_input sg) fi caret (segs_fwd sg) (mkPacc [] None 0 (Some 0) 0 true)).
  destruct (pa_end a <? length (sg_input sg)); cbn [pa_ok pa_end pa_text pa_caret pa_sel_start pa_sel_end];
    destruct (cs ++ comp_prompt sg); reflexivity.
Qed.

(** Compose leaves AsciiComposer's connection alone, and while that is not connected the update notifier has no other slot *)
Lemma compose_unhooked cfg translate c : cx_conn c = false -> compose cfg translate c = compose_core cfg translate c.
Proof.
  intros Hconn. unfold compose, ac_on_update.
  replace (cx_conn (compose_core cfg translate c)) with (cx_conn c); [rewrite Hconn; reflexivity|].
  unfold compose_core. repeat match goal with |- context [let (_, _) := ?x in _] => destruct x end.
  unfold ctx_check. repeat match goal with |- context [if ?b then _ else _] => destruct b end; reflexivity.
Qed.

Lemma skip_declining {A} (f : A -> state -> key -> state * presult) (b : bool) x rest s s1 k :
  (b = true -> f x s k = (s1, PNoop)) ->
  run_processors (map f ((if b then [x] else []) ++ rest)) s k = run_processors (map f rest) (if b then s1 else s) k.
Proof. intros H. destruct b; [|reflexivity]. cbn [app map run_processors]. rewrite (H eq_refl). reflexivity. Qed.

(** the configurations of this file: the speller settings of the synthetic schemas (alphabet a-z,
    delimiters blank and apostrophe, no use_space), page size 5, and one of the two chains
      [speller, selector, navigator, editor] / [abc_segmentor, fallback_segmentor]
      [speller, punctuator, selector, navigator, editor] / [abc_segmentor, punct_segmentor, fallback_segmentor]
    the second under the hypothesis that no spelling letter is a key of the punctuation tables;
    everything else (editor flavour, punctuation tables, translators, source facts) is arbitrary *)
Definition no_letter_punct (cfg : config) : Prop :=
  forall b, letter b -> pd_assoc (cf_punct_half cfg) b = None /\ pd_assoc (cf_punct_full cfg) b = None.
(** each chain may carry ascii_composer in front of the processors and ascii_segmentor in front of the
    segmentors (their stock positions); [has_ac] / [has_as] say whether they do *)
Definition has_ac (cfg : config) : bool := match cf_processors cfg with PAsciiComposer :: _ => true | _ => false end.
Definition has_as (cfg : config) : bool := match cf_segmentors cfg with SgAscii :: _ => true | _ => false end.
Definition ac_pre (cfg : config) : list proc_id := if has_ac cfg then [PAsciiComposer] else [].
Definition as_pre (cfg : config) : list segm_id := if has_as cfg then [SgAscii] else [].
(** ... and key_binder between ascii_composer and the speller (the stock order), under the hypothesis that no binding
    accepts a key of the alphabet ([no_alphabet_binding]) *)
Definition is_kb (p : proc_id) : bool := match p with PKeyBinder => true | _ => false end.
Definition has_kb (cfg : config) : bool := existsb is_kb (cf_processors cfg).
Definition kb_pre (cfg : config) : list proc_id := if has_kb cfg then [PKeyBinder] else [].
Definition c05_code (code : Z) : Prop :=
  (97 <= code <= 122)%Z \/ In code [XK_BackSpace; XK_Delete; XK_KP_Left; XK_KP_Right; XK_Home; XK_End; XK_Escape].
Definition no_alphabet_binding (cfg : config) : Prop :=
  forall code, c05_code code -> kb_vector cfg (mkKey code 0) = [].
Definition edit_chain (cfg : config) : Prop :=
  (cf_processors cfg = ac_pre cfg ++ kb_pre cfg ++ [PSpeller; PSelector; PNavigator; PEditor] /\ cf_segmentors cfg = as_pre cfg ++ [SgAbc; SgFallback]) \/
  (cf_processors cfg = ac_pre cfg ++ kb_pre cfg ++ [PSpeller; PPunctuator; PSelector; PNavigator; PEditor] /\
   cf_segmentors cfg = as_pre cfg ++ [SgAbc; SgPunct; SgFallback] /\ no_letter_punct cfg).
Definition edit_cfg (cfg : config) : Prop :=
  cf_alphabet cfg = lower_alphabet /\ cf_delims cfg = [x20; x27] /\ cf_initials cfg = lower_alphabet /\
  cf_finals cfg = [] /\ cf_use_space cfg = false /\ cf_page_size cfg = 5%Z /\ cf_select_keys cfg = [] /\
  (has_kb cfg = true -> no_alphabet_binding cfg) /\
  edit_chain cfg.

Definition c05_codeb (code : Z) : bool :=
  ((97 <=? code) && (code <=? 122))%Z ||
  existsb (Z.eqb code) [XK_BackSpace; XK_Delete; XK_KP_Left; XK_KP_Right; XK_Home; XK_End; XK_Escape].
Lemma c05_codeb_spec code : c05_code code -> c05_codeb code = true.
Proof.
  intros [H | H]; unfold c05_codeb.
  - replace ((97 <=? code) && (code <=? 122))%Z with true; [reflexivity|]. symmetry. apply andb_true_iff. split; apply Z.leb_le; lia.
  - apply orb_true_iff. right. apply existsb_exists. exists code. split; [exact H | apply Z.eqb_refl].
Qed.
Lemma c05_code_neq code x : c05_code code -> c05_codeb x = false -> (code =? x)%Z = false.
Proof. intros Hc Hx. apply Z.eqb_neq. intros ->. apply c05_codeb_spec in Hc. congruence. Qed.

Lemma no_letter_punct_dec cfg :
  forallb (fun b => match pd_assoc (cf_punct_half cfg) b, pd_assoc (cf_punct_full cfg) b with None, None => true | _, _ => false end)
          lower_alphabet = true ->
  no_letter_punct cfg.
Proof.
  intros H b Hb. apply (letter_forallb _ H) in Hb.
  destruct (pd_assoc (cf_punct_half cfg) b), (pd_assoc (cf_punct_full cfg) b); try discriminate Hb. split; reflexivity.
Qed.

Section Edit.
Variable cfg : config.
Variable translate : bytes -> seginfo -> list cand.
Hypothesis Hcfg : edit_cfg cfg.
Local Notation fluid := (cf_fluid cfg).
Let Halpha : cf_alphabet cfg = lower_alphabet := proj1 Hcfg.
Let Hdelims : cf_delims cfg = [x20; x27] := proj1 (proj2 Hcfg).
Let Hinitials : cf_initials cfg = lower_alphabet := proj1 (proj2 (proj2 Hcfg)).
Let Hfinals : cf_finals cfg = [] := proj1 (proj2 (proj2 (proj2 Hcfg))).
Let Husp : cf_use_space cfg = false := proj1 (proj2 (proj2 (proj2 (proj2 Hcfg)))).
Let Hpsz : cf_page_size cfg = 5%Z := proj1 (proj2 (proj2 (proj2 (proj2 (proj2 Hcfg))))).
Let Hsk : cf_select_keys cfg = [] := proj1 (proj2 (proj2 (proj2 (proj2 (proj2 (proj2 Hcfg)))))).
Let Hnab : has_kb cfg = true -> no_alphabet_binding cfg := proj1 (proj2 (proj2 (proj2 (proj2 (proj2 (proj2 (proj2 Hcfg))))))).
Let Hchain : edit_chain cfg := proj2 (proj2 (proj2 (proj2 (proj2 (proj2 (proj2 (proj2 Hcfg))))))).

Definition seg_ok (g : segment) : Prop :=
  s_start g = 0 /\ 0 < s_end g /\ s_status g = SGuess /\ s_sel g = 0%N.
Definition segs_ok (l : list segment) : Prop := l = [] \/ exists g, l = [g] /\ seg_ok g.

Definition init_opts : list (bytes * bool) := [(opt_auto_commit, negb fluid)].

Definition ctx_ok (c : context) : Prop :=
  cx_err c = None /\ Forall letter (cx_input c) /\ cx_caret c <= length (cx_input c)
  /\ cx_opts c = init_opts /\ segs_ok (sg_segs (cx_comp c))
  /\ (sg_segs (cx_comp c) = [] <-> cx_input c = []) /\ cx_conn c = false.

Lemma abc_scan_letters l : Forall letter l -> forall first e, abc_scan cfg l first e = length l.
Proof.
  induction 1 as [|b l Hb Hl IH]; intros first e; [reflexivity|].
  cbn [abc_scan length]. rewrite Halpha, Hdelims, Hinitials, Hfinals.
  rewrite Hb. rewrite (letter_not_delim b Hb). cbn [mem_byte existsb negb andb orb].
  rewrite !andb_false_r. cbn [negb andb orb].
  now rewrite IH.
Qed.

(** the shape Reset leaves and CalculateSegmentation starts from *)
Definition segs_upto (n : nat) (l : list segment) : Prop := l = [] \/ exists g, l = [g] /\ seg_ok g /\ s_end g <= n.

Lemma segs_upto_ok n l : segs_upto n l -> segs_ok l.
Proof. intros [-> | (g & -> & Hg & _)]; [left | right; exists g]; auto. Qed.

Lemma segs_upto_start n X l : segs_upto n l -> cur_start (mkSegm X l) = 0.
Proof. intros [-> | (g & -> & (H0 & _) & _)]; [reflexivity | exact H0]. Qed.

Lemma reset_input_segs sg ni :
  segs_ok (sg_segs sg) -> exists l, reset_input sg ni = mkSegm ni l /\ segs_upto (length ni) l.
Proof.
  intros [Hnil | (g & Hg & Hok)]; unfold reset_input; rewrite ?Hnil, ?Hg; cbn [dispose].
  - exists []. split; [reflexivity | left; reflexivity].
  - destruct (common_prefix (sg_input sg) ni <? s_end g) eqn:E; cbn.
    + exists []. split; [reflexivity | left; reflexivity].
    + exists [g]. split; [reflexivity|]. right. exists g. split; [reflexivity|]. split; [exact Hok|].
      apply Nat.ltb_ge in E. pose proof (common_prefix_le (sg_input sg) ni). lia.
Qed.

(** what CalculateSegmentation leaves of a letters-only input [X]: no segment if it is empty, else one segment over all
    of it, the kept one (Guess) or a new one (Void) *)
Definition covering (X : bytes) (l : list segment) : Prop :=
  match X with
  | [] => l = []
  | _ :: _ => exists g, l = [g] /\ s_start g = 0 /\ s_end g = length X
                        /\ (s_status g = SGuess \/ s_status g = SVoid) /\ s_sel g = 0%N
  end.

Definition fresh_seg (n : nat) : segment := seg_with_tags (new_segment 0 n) [TAbc].

Lemma abc_proceed_letters X l :
  Forall letter X -> segs_upto (length X) l -> has_finished (mkSegm X l) = false ->
  abc_proceed cfg (mkSegm X l) = mkSegm X [fresh_seg (length X)].
Proof.
  intros Hl Hs Hf. apply Nat.leb_gt in Hf. cbn [sg_input] in Hf.
  unfold abc_proceed, add_segment. rewrite (segs_upto_start _ X l Hs). cbn [skipn sg_input].
  rewrite (abc_scan_letters X Hl). cbn [Nat.add]. fold (fresh_seg (length X)).
  replace (0 <? length X) with true by (symmetry; apply Nat.ltb_lt; lia).
  destruct Hs as [-> | (g & -> & _ & Hle)]; [reflexivity|]. cbn [cur_end sg_segs] in Hf.
  cbn [fresh_seg seg_with_tags new_segment s_start s_end Nat.eqb negb sg_segs fst].
  replace (length X <? s_end g) with false by (symmetry; apply Nat.ltb_ge; lia).
  replace (s_end g <? length X) with true by (symmetry; apply Nat.ltb_lt; lia).
  reflexivity.
Qed.

Lemma punct_lookup_letter o b : no_letter_punct cfg -> letter b -> punct_lookup cfg o b = None.
Proof. intros Hn Hb. unfold punct_lookup. destruct (Hn b Hb) as (A & B). destruct (opts_get o opt_full_shape); assumption. Qed.

(** one round of the segmentors over an all-letters input that is not yet covered: the ascii segmentor passes (ascii_mode
    is off), abc takes everything, the punct segmentor has no entry for a letter, the fallback segmentor finds the
    segment non-empty *)
Lemma round_letters o h X l :
  opts_get o opt_ascii_mode = false -> Forall letter X -> segs_upto (length X) l -> has_finished (mkSegm X l) = false ->
  seg_round cfg o h (mkSegm X l) = mkSegm X [fresh_seg (length X)].
Proof.
  intros Hoa Hl Hs Hf.
  assert (HX : 0 < length X) by (apply Nat.leb_gt in Hf; cbn [sg_input] in Hf; lia).
  assert (Hfb : fallback_proceed (mkSegm X [fresh_seg (length X)]) = mkSegm X [fresh_seg (length X)]).
  { unfold fallback_proceed. cbn [cur_len sg_segs fresh_seg seg_with_tags new_segment s_end s_start]. rewrite Nat.sub_0_r.
    replace (0 <? length X) with true by (symmetry; apply Nat.ltb_lt; lia). reflexivity. }
  assert (Has : forall rest sg, run_segmentors cfg o h (as_pre cfg ++ rest) sg = run_segmentors cfg o h rest sg).
  { intros rest sg. unfold as_pre. destruct (has_as cfg); [|reflexivity].
    cbn [app run_segmentors segmentor_proceed]. unfold ascii_proceed. rewrite Hoa. reflexivity. }
  unfold seg_round. destruct Hchain as [(_ & ->) | (_ & -> & Hn)]; rewrite Has; cbn [run_segmentors segmentor_proceed];
    rewrite (abc_proceed_letters X l Hl Hs Hf); [exact Hfb|].
  unfold punct_proceed. cbn [cur_start sg_segs sg_input fresh_seg seg_with_tags new_segment s_start].
  destruct Hl as [|b X' Hb _]; [cbn in HX; lia|]. cbn [nth_error].
  rewrite (letter_printable b Hb), (punct_lookup_letter o b Hn Hb). exact Hfb.
Qed.

Lemma calc_loop_finished o h fuel caret sg : has_finished sg = true -> calc_loop cfg o h fuel caret sg = (sg, true).
Proof. intros H. destruct fuel; cbn [calc_loop]; rewrite H; reflexivity. Qed.

Lemma calc_loop_letters o h fuel caret X l :
  opts_get o opt_ascii_mode = false -> Forall letter X -> segs_upto (length X) l ->
  exists l', calc_loop cfg o h (S fuel) caret (mkSegm X l) = (mkSegm X l', true) /\ covering X l'.
Proof.
  intros Hoa Hl Hs. destruct (has_finished (mkSegm X l)) eqn:Ef.
  - (* already covered: the kept segment, if any *)
    exists l. split; [apply calc_loop_finished, Ef|]. apply Nat.leb_le in Ef. cbn [sg_input] in Ef.
    destruct Hs as [-> | (g & -> & (H0 & H1 & H2 & H3) & Hle)]; cbn [cur_end sg_segs] in Ef.
    + destruct X; [reflexivity | cbn in Ef; lia].
    + destruct X; [cbn in Hle; lia|]. exists g. repeat split; auto. lia.
  - (* one round covers it; a second look finds it finished *)
    exists [fresh_seg (length X)]. cbn [calc_loop]. rewrite Ef. cbv zeta.
    rewrite (round_letters o h X l Hoa Hl Hs Ef), (segs_upto_start _ X l Hs).
    assert (Hfin : has_finished (mkSegm X [fresh_seg (length X)]) = true) by apply Nat.leb_refl.
    destruct X as [|b X']; [discriminate Ef|]. split; [|eexists; repeat split; auto].
    rewrite Hfin, (calc_loop_finished _ _ _ _ _ Hfin). now destruct (caret <=? 0).
Qed.

Lemma calc_segmentation_letters o h caret X l :
  opts_get o opt_ascii_mode = false -> Forall letter X -> segs_upto (length X) l ->
  exists l', calc_segmentation cfg o h caret (mkSegm X l) = (mkSegm X l', true) /\ covering X l'.
Proof.
  intros Hoa Hl Hs. unfold calc_segmentation. cbn [sg_input].
  destruct (calc_loop_letters o h (length X) caret X l Hoa Hl Hs) as (l' & -> & Hc). exists l'. split; [|exact Hc].
  destruct X; cbn [covering] in Hc; [subst l'; reflexivity|]. destruct Hc as (g & -> & H0 & H1 & H2 & _).
  (* neither Trim nor Forward applies: the segment is non-empty and not selected *)
  cbn [sg_segs]. unfold trim. cbn [sg_segs]. rewrite H0, H1. cbn [length Nat.eqb].
  assert (Hst : status_geb (s_status g) SSelected = false) by (destruct H2 as [-> | ->]; reflexivity).
  destruct (has_tag TPlaceholder (s_tags g)); cbn [fst sg_segs]; rewrite Hst; reflexivity.
Qed.

Lemma confirmed_pos_segs_ok l : segs_ok l -> confirmed_pos_rev l = 0.
Proof. intros [-> | (g & -> & (_ & _ & H & _))]; cbn; [reflexivity|]. now rewrite H. Qed.

Lemma Forall_firstn_letter n l : Forall letter l -> Forall letter (firstn n l).
Proof. intros H. revert n. induction H; intros [|n]; cbn; constructor; auto. Qed.

Lemma translate_segs_covering o X l :
  covering X l ->
  exists l', translate_segs translate o (mkSegm X l) = (mkSegm X l', true) /\ segs_ok l' /\ (l' = [] <-> X = []).
Proof.
  destruct X as [|b X']; cbn [covering].
  - intros ->. exists []. split; [reflexivity|]. split; [left; reflexivity | tauto].
  - intros (g & -> & H0 & H1 & H2 & H3). unfold translate_segs. cbn [sg_input sg_segs translate_list]. unfold translate_one.
    assert (Hok : forall g', s_start g' = 0 -> s_end g' = S (length X') -> s_status g' = SGuess -> s_sel g' = 0%N ->
                             segs_ok [g'] /\ ([g'] = [] <-> b :: X' = []))
      by (intros g' G0 G1 G2 G3; split; [right; exists g'; repeat split; auto; lia | split; discriminate]).
    destruct H2 as [H2 | H2]; rewrite H2; cbn [status_geb status_rank Nat.leb].
    + exists [g]. split; [reflexivity | apply Hok; assumption].
    + unfold substr_se. rewrite H0, H1. cbn [length Nat.ltb Nat.leb andb sg_with_segs].
      eexists. split; [reflexivity | apply Hok; assumption || reflexivity].
Qed.

Lemma compose_ok c :
  cx_err c = None -> Forall letter (cx_input c) -> cx_caret c <= length (cx_input c) ->
  cx_opts c = init_opts -> segs_ok (sg_segs (cx_comp c)) -> cx_conn c = false ->
  ctx_ok (compose cfg translate c) /\ cx_input (compose cfg translate c) = cx_input c
  /\ cx_caret (compose cfg translate c) = cx_caret c.
Proof.
  intros Herr Hl Hc Ho Hs Hconn.
  rewrite (compose_unhooked cfg translate c Hconn). unfold compose_core.
  set (active := firstn (cx_caret c) (cx_input c)).
  destruct (reset_input_segs (cx_comp c) active Hs) as (l1 & -> & Hs1).
  replace (confirmed_pos (mkSegm active l1)) with 0 by (symmetry; apply confirmed_pos_segs_ok, (segs_upto_ok _ _ Hs1)).
  (* X: the input of the composition after the Reset(s) *)
  assert (HX : exists X l, (if (cx_caret c <? length (cx_input c)) && (cx_caret c =? 0)
                            then reset_input (mkSegm active l1) (cx_input c) else mkSegm active l1) = mkSegm X l
                           /\ Forall letter X /\ (X = [] <-> cx_input c = []) /\ segs_upto (length X) l).
  { destruct ((cx_caret c <? length (cx_input c)) && (cx_caret c =? 0)) eqn:E.
    - destruct (reset_input_segs (mkSegm active l1) (cx_input c) (segs_upto_ok _ _ Hs1)) as (l2 & -> & Hs2).
      exists (cx_input c), l2. repeat split; auto.
    - exists active, l1. split; [reflexivity|]. split; [apply Forall_firstn_letter; assumption|]. split; [|assumption].
      subst active. split; [|intros ->; apply firstn_nil].
      intros Hnil. destruct (cx_input c) as [|b r]; [reflexivity|]. destruct (cx_caret c); discriminate. }
  destruct HX as (X & l & -> & HlX & HXnil & Hl1).
  assert (Hoa : opts_get (cx_opts c) opt_ascii_mode = false) by (rewrite Ho; reflexivity).
  destruct (calc_segmentation_letters (cx_opts c) (cx_hist c) (cx_caret c) X l Hoa HlX Hl1) as (l2 & -> & Hr).
  destruct (translate_segs_covering (cx_opts c) X l2 Hr) as (l3 & -> & Hs3 & Hnil3).
  cbn [ctx_check]. unfold ctx_ok. cbn [ctx_with_comp cx_err cx_input cx_caret cx_opts cx_comp cx_conn sg_segs].
  pose proof (iff_trans Hnil3 HXnil) as Hnil. split; [|split; reflexivity]. repeat (split; [assumption|]). exact Hconn.
Qed.

Lemma Forall_skipn_letter n l : Forall letter l -> Forall letter (skipn n l).
Proof. intros H. revert n. induction H; intros [|n]; cbn; auto. Qed.

Lemma begin_editing_ok c : segs_ok (sg_segs (cx_comp c)) -> begin_editing c = c.
Proof.
  intros Hs. unfold begin_editing. destruct c as [i k [ci l] o e]. cbn in *.
  destruct Hs as [-> | (g & -> & (_ & _ & H & _))]; cbn; [reflexivity|]. now rewrite H.
Qed.

Definition ctx_is (c : context) (inp : bytes) (car : nat) : Prop :=
  ctx_ok c /\ cx_input c = inp /\ cx_caret c = car.
Definition ctx_buf (c : context) (b : buf) : Prop := ctx_is c (b_text b) (b_caret b).
Definition good (s : state) (b : buf) : Prop :=
  ctx_is (st_ctx s) (b_text b) (b_caret b) /\ st_commit s = [].

Lemma with_ctx_good s b c b' : good s b -> ctx_buf c b' -> good (st_with_ctx s c) b'.
Proof. intros (_ & Hm) Hc. split; assumption. Qed.

Lemma with_input_ok c i k :
  ctx_ok c -> Forall letter i -> k <= length i -> ctx_is (compose cfg translate (ctx_with_input c i k)) i k.
Proof. intros (He & _ & _ & Ho & Hs & _ & Hn) Hl Hk. apply (compose_ok (ctx_with_input c i k)); assumption. Qed.

Lemma push_input_ok c b ch :
  ctx_buf c b -> letter ch -> ctx_buf (push_input cfg translate c ch) (buf_step b (EkLetter ch)).
Proof.
  destruct b as [t n]. intros (Hok & Hi & Hn) Hch. cbn [b_text b_caret] in Hi, Hn. subst t n.
  pose proof Hok as (_ & Hl & Hc & _).
  assert (E : push_input cfg translate c ch
              = compose cfg translate (ctx_with_input c (firstn (cx_caret c) (cx_input c) ++ ch :: skipn (cx_caret c) (cx_input c))
                                                      (S (cx_caret c)))).
  { unfold push_input. destruct (length (cx_input c) <=? cx_caret c) eqn:E; [|reflexivity].
    apply Nat.leb_le in E. replace (cx_caret c) with (length (cx_input c)) by lia. now rewrite firstn_all, skipn_all. }
  rewrite E. unfold ctx_buf. cbn [buf_step b_text b_caret]. apply with_input_ok; [exact Hok | |].
  - apply Forall_app. split; [apply Forall_firstn_letter | constructor; [|apply Forall_skipn_letter]]; assumption.
  - rewrite app_length, firstn_length. cbn [length]. rewrite skipn_length. lia.
Qed.

(** PopInput and DeleteInput cut [k, j) out of the input and leave the caret at [k] *)
Lemma cut_input_ok c k j :
  ctx_ok c -> k <= length (cx_input c) ->
  ctx_is (compose cfg translate (ctx_with_input c (firstn k (cx_input c) ++ skipn j (cx_input c)) k))
         (firstn k (cx_input c) ++ skipn j (cx_input c)) k.
Proof.
  intros Hok Hk. pose proof Hok as (_ & Hl & _). apply with_input_ok; [exact Hok | |].
  - apply Forall_app. split; [apply Forall_firstn_letter | apply Forall_skipn_letter]; assumption.
  - rewrite app_length, firstn_length. lia.
Qed.

Lemma pop_input_ok c b : ctx_buf c b -> ctx_buf (fst (pop_input cfg translate c 1)) (buf_step b EkBackSpace).
Proof.
  destruct b as [t n]. intros (Hok & Hi & Hn). cbn [b_text b_caret] in Hi, Hn. subst t n.
  pose proof Hok as (_ & _ & Hc & _). unfold pop_input, buf_step. cbn [b_text b_caret].
  destruct (cx_caret c) as [|n] eqn:En; [exact (conj Hok (conj eq_refl En))|].
  cbn [Nat.ltb Nat.leb Nat.eqb Nat.sub fst]. rewrite Nat.sub_0_r, Nat.add_1_r. apply cut_input_ok; [exact Hok | cbn [b_caret]; lia].
Qed.

Lemma delete_input_ok c b : ctx_buf c b -> ctx_buf (fst (delete_input cfg translate c 1)) (buf_step b EkDelete).
Proof.
  destruct b as [t n]. intros (Hok & Hi & Hn). cbn [b_text b_caret] in Hi, Hn. subst t n.
  pose proof Hok as (_ & _ & Hc & _). unfold delete_input, buf_step. cbn [b_text b_caret].
  destruct (cx_caret c <? length (cx_input c)) eqn:E; [apply Nat.ltb_lt in E | apply Nat.ltb_ge in E].
  - replace (length (cx_input c) <? cx_caret c + 1) with false by (symmetry; apply Nat.ltb_ge; lia).
    rewrite Nat.add_1_r. apply cut_input_ok; [exact Hok | exact Hc].
  - replace (length (cx_input c) <? cx_caret c + 1) with true by (symmetry; apply Nat.ltb_lt; lia).
    exact (conj Hok (conj eq_refl eq_refl)).
Qed.

Lemma set_caret_pos_ok c b pos :
  ctx_buf c b -> pos <= length (b_text b) -> ctx_buf (set_caret_pos cfg translate c pos) (mkBuf (b_text b) pos).
Proof.
  intros (Hok & <- & _) Hp. unfold set_caret_pos.
  replace (length (cx_input c) <? pos) with false by (symmetry; apply Nat.ltb_ge; lia).
  apply with_input_ok; [exact Hok | apply Hok | exact Hp].
Qed.

Lemma set_input_nil_ok c : ctx_ok c -> ctx_buf (set_input cfg translate c []) buf_empty.
Proof. intros Hok. apply (with_input_ok c [] 0 Hok); [constructor | apply Nat.le_refl]. Qed.

Definition special (code : Z) : Prop :=
  In code [XK_BackSpace; XK_Delete; XK_KP_Left; XK_KP_Right; XK_Home; XK_End; XK_Escape].

Lemma nonletter_code k : ekey_is_letter k = false -> (127 <= key_code_of k)%Z.
Proof. destruct k; intros H; try discriminate H; vm_compute; discriminate. Qed.

Lemma speller_nonletter s code : (127 <= code)%Z -> speller_process cfg translate s (mkKey code 0) = (s, PNoop).
Proof.
  intros H. unfold speller_process. cbn [k_release k_ctrl k_alt k_super k_mod k_code Z.testbit orb].
  replace (127 <=? code)%Z with true by (symmetry; apply Z.leb_le; assumption).
  now rewrite orb_true_r.
Qed.

Lemma speller_letter s b :
  letter b ->
  speller_process cfg translate s (mkKey (Z.of_N (N_of_byte b)) 0)
  = (on_ctx s (fun c => begin_editing (push_input cfg translate c b)), PAccepted).
Proof.
  intros Hb. pose proof (letter_code b Hb) as Hc. unfold speller_process.
  cbn [k_release k_ctrl k_alt k_super k_shift k_mod k_code Z.testbit orb].
  replace (Z.of_N (N_of_byte b) <? 32)%Z with false by (symmetry; apply Z.ltb_ge; lia).
  replace (127 <=? Z.of_N (N_of_byte b))%Z with false by (symmetry; apply Z.leb_gt; lia).
  replace (Z.of_N (N_of_byte b) =? XK_space)%Z with false by (symmetry; apply Z.eqb_neq; unfold XK_space; lia).
  cbn [orb andb]. rewrite byte_of_code.
  rewrite ?Halpha, ?Hdelims, ?Hinitials, ?Husp.
  unfold letter in Hb. rewrite Hb. reflexivity.
Qed.

Lemma ekey_ok_letter ch : ekey_ok cfg (EkLetter ch) = true -> letter ch.
Proof. unfold ekey_ok. rewrite Halpha, Hinitials. intros H. apply andb_prop in H. apply H. Qed.

Lemma kbp_process_plain {A} (run : state -> A -> state * bool) km fb s code :
  kbp_process run km fb s (mkKey code 0)
  = match keymap_find km (mkKey code 0) with
    | Some a => (fst (run s a), if snd (run s a) then PAccepted else PNoop)
    | None => (s, PNoop)
    end.
Proof.
  unfold kbp_process, kbp_accept. destruct (keymap_find km (mkKey code 0)) as [a|]; [|reflexivity].
  destruct (run s a) as [s1 []]; reflexivity.
Qed.

Lemma opts_init_get c name : cx_opts c = init_opts -> bytes_eqb opt_auto_commit name = false -> get_option c name = false.
Proof. unfold get_option, init_opts. intros -> E. cbn [opts_get]. now rewrite E. Qed.

Lemma sel_home_ok c : segs_ok (sg_segs (cx_comp c)) -> sel_home c = (c, false).
Proof.
  intros [Hn | (g & Hg & (_ & _ & _ & Hsel))]; unfold sel_home; rewrite ?Hn, ?Hg; [reflexivity|].
  now rewrite Hsel.
Qed.
Lemma sel_end_ok c : segs_ok (sg_segs (cx_comp c)) -> sel_end c = (c, false).
Proof. intros H. unfold sel_end. rewrite (sel_home_ok c H). now destruct (cx_caret c <? length (cx_input c)). Qed.

(** what the default key maps hold for the seven keys (Gen/Keymaps.v) *)
Definition sel_of (k : ekey) : option sel_action :=
  match k with EkHome => Some SelHome | EkEnd => Some SelEnd | _ => None end.
Definition nav_of (k : ekey) : option nav_action :=
  match k with
  | EkLeft => Some NavLeftByChar | EkRight => Some NavRightByChar | EkHome => Some NavHome | EkEnd => Some NavEnd
  | _ => None
  end.
Definition ed_of (k : ekey) : option editor_action :=
  match k with
  | EkBackSpace => Some (if fluid then EdBackToPreviousInput else EdRevertLastEdit)
  | EkDelete => Some EdDeleteChar | EkEscape => Some EdCancelComposition
  | _ => None
  end.

Lemma keymaps_nonletter k :
  ekey_is_letter k = false ->
  keymap_find (keymap_of_binds sel_hs_binds) (mkKey (key_code_of k) 0) = sel_of k /\
  keymap_find (keymap_of_binds nav_horizontal_binds) (mkKey (key_code_of k) 0) = nav_of k /\
  keymap_find (editor_keymap cfg) (mkKey (key_code_of k) 0) = ed_of k.
Proof. unfold editor_keymap, ed_of. destruct k; intros E; try discriminate E; destruct fluid; vm_compute; auto. Qed.

Lemma selector_nonletter s k :
  ctx_ok (st_ctx s) -> ekey_is_letter k = false -> selector_process cfg translate s (mkKey (key_code_of k) 0) = (s, PNoop).
Proof.
  intros (He & Hl & Hc & Ho & Hs & Hn) Ek. unfold selector_process.
  cbn [k_release k_alt k_super k_mod Z.testbit orb].
  destruct (sg_segs (cx_comp (st_ctx s))) as [|g r] eqn:Eg; [reflexivity|]. rewrite <- Eg in Hs.
  destruct ((match s_menu g with None => true | Some _ => false end) || has_tag TRaw (s_tags g)); [reflexivity|].
  unfold sel_keymap, is_linear_layout. rewrite !(opts_init_get _ _ Ho) by reflexivity. cbn [orb].
  rewrite kbp_process_plain, (proj1 (keymaps_nonletter k Ek)). unfold select_key_index. rewrite Hsk. cbn [negb andb k_code].
  destruct k; try discriminate Ek; cbn [sel_of run_sel_action]; unfold on_ctx_b;
    rewrite ?(sel_home_ok _ Hs), ?(sel_end_ok _ Hs), ?st_with_ctx_id; reflexivity.
Qed.

Lemma composing_iff c :
  ctx_ok c -> is_composing c = negb (match cx_input c with [] => true | _ => false end).
Proof.
  intros (_ & _ & _ & _ & _ & Hn). unfold is_composing, sg_empty.
  destruct (cx_input c) as [|b r] eqn:E; [|reflexivity].
  assert (sg_segs (cx_comp c) = []) as -> by (apply Hn; reflexivity). reflexivity.
Qed.

Lemma begin_move_good s b : good s b -> good (begin_move s) b.
Proof.
  intros (Hc & Hm). unfold begin_move. rewrite (begin_editing_ok (st_ctx s)) by apply Hc.
  destruct (negb (bytes_eqb (st_nav_input s) (cx_input (st_ctx s))) || (spans_end (st_spans s) <? cx_caret (st_ctx s)));
    split; assumption.
Qed.

Lemma caret_to_good s b pos :
  good s b -> pos <= length (b_text b) ->
  good (st_with_ctx s (set_caret_pos cfg translate (st_ctx s) pos)) (mkBuf (b_text b) pos).
Proof. intros Hg Hp. apply (with_ctx_good s b _ _ Hg), set_caret_pos_ok; [apply Hg | exact Hp]. Qed.

Lemma go_to_end_good s b : good s b -> good (fst (go_to_end cfg translate s)) (mkBuf (b_text b) (length (b_text b))).
Proof.
  intros Hg. unfold go_to_end. pose proof Hg as ((_ & Hi & Hn) & _). rewrite Hi, Hn.
  destruct (b_caret b =? length (b_text b)) eqn:E; cbn [negb fst]; [|apply caret_to_good; auto].
  apply Nat.eqb_eq in E. rewrite <- E. destruct b; exact Hg.
Qed.

(** GoHome: the position it looks for is the start of the one unselected segment, 0 *)
Lemma go_home_good s b : good s b -> good (fst (go_home cfg translate s)) (mkBuf (b_text b) 0).
Proof.
  intros Hg. unfold go_home. pose proof Hg as ((Hok & _ & Hn) & _). rewrite Hn.
  assert (Hconf : match sg_segs (cx_comp (st_ctx s)) with [] => b_caret b | l => go_home_pos l (b_caret b) end = 0
                  \/ sg_segs (cx_comp (st_ctx s)) = []).
  { destruct Hok as (_ & _ & _ & _ & [E | (g & E & (G0 & _ & G2 & _))] & _); rewrite E; [right; reflexivity | left].
    cbn. rewrite G2. exact G0. }
  assert (Hb : b_caret b = 0 -> good s (mkBuf (b_text b) 0)) by (intros <-; destruct b; exact Hg).
  destruct Hconf as [-> | ->]; rewrite ?Nat.ltb_irrefl.
  - destruct (b_caret b) as [|n]; cbn [Nat.ltb Nat.leb Nat.eqb negb fst]; [auto | apply caret_to_good; [exact Hg | lia]].
  - destruct (b_caret b) as [|n]; cbn [Nat.eqb negb fst]; [auto | apply caret_to_good; [exact Hg | lia]].
Qed.

Lemma nav_good s b k a : nav_of k = Some a -> good s b -> good (fst (run_nav_action cfg translate s a)) (buf_step b k).
Proof.
  intros Ea Hg. apply begin_move_good in Hg. pose proof Hg as ((Hok & Hi & Hn) & _).
  assert (Hc : b_caret b <= length (b_text b)) by (rewrite <- Hi, <- Hn; apply Hok).
  destruct k; try discriminate Ea; injection Ea as <-; cbn [run_nav_action fst]; unfold or_else, move_left, move_right, buf_step;
    rewrite ?Hn, ?Hi.
  - destruct (b_caret b =? 0) eqn:E; [apply go_to_end_good, Hg | apply caret_to_good; [exact Hg | lia]].
  - destruct (length (b_text b) <=? b_caret b) eqn:E; [apply go_home_good, Hg|].
    apply Nat.leb_gt in E. apply caret_to_good; [exact Hg | lia].
  - apply go_home_good, Hg.
  - apply go_to_end_good, Hg.
Qed.

Lemma navigator_nonletter s k :
  ctx_ok (st_ctx s) -> ekey_is_letter k = false ->
  navigator_process cfg translate s (mkKey (key_code_of k) 0)
  = match cx_input (st_ctx s), nav_of k with
    | _ :: _, Some a => (fst (run_nav_action cfg translate s a), PAccepted)
    | _, _ => (s, PNoop)
    end.
Proof.
  intros Hok Ek. unfold navigator_process. cbn [k_release k_mod Z.testbit]. rewrite (composing_iff _ Hok).
  destruct (cx_input (st_ctx s)); [reflexivity|]. cbn [negb].
  rewrite (opts_init_get _ opt_vertical) by (reflexivity || apply Hok).
  rewrite kbp_process_plain, (proj1 (proj2 (keymaps_nonletter k Ek))).
  destruct k; try discriminate Ek; reflexivity.
Qed.

Lemma st_with_ctx_twice s a b : st_with_ctx (st_with_ctx s a) b = st_with_ctx s b.
Proof. reflexivity. Qed.

Lemma reopen_prev_seg_ok c :
  segs_ok (sg_segs (cx_comp c)) -> reopen_previous_segment cfg translate c = (c, false).
Proof.
  intros [Hn | (g & Hg & (G0 & G1 & _))]; unfold reopen_previous_segment, trim; rewrite ?Hn, ?Hg; [reflexivity|].
  replace (s_start g =? s_end g) with false by (symmetry; apply Nat.eqb_neq; lia). reflexivity.
Qed.

Lemma reopen_prev_sel_ok c :
  segs_ok (sg_segs (cx_comp c)) -> reopen_previous_selection cfg translate c = (c, false).
Proof.
  intros [Hn | (g & Hg & (_ & _ & G2 & _))]; unfold reopen_previous_selection; rewrite ?Hn, ?Hg; cbn; [reflexivity|].
  now rewrite G2.
Qed.

Lemma ed_backspace_ok s a :
  ctx_ok (st_ctx s) -> a = EdBackToPreviousInput \/ a = EdRevertLastEdit ->
  fst (run_editor_action cfg translate s a) = st_with_ctx s (fst (pop_input cfg translate (st_ctx s) 1)).
Proof.
  intros Hok Ha. assert (Hs : segs_ok (sg_segs (cx_comp (st_ctx s)))) by apply Hok.
  assert (Hs' : segs_ok (sg_segs (cx_comp (fst (pop_input cfg translate (st_ctx s) 1)))))
    by (apply (pop_input_ok (st_ctx s) (mkBuf _ _) (conj Hok (conj eq_refl eq_refl)))).
  destruct (pop_input cfg translate (st_ctx s) 1) as [c' ok] eqn:Ep. cbn [fst] in *.
  destruct Ha as [-> | ->]; cbn [run_editor_action fst]; unfold ed_revert_last_edit, or_else, on_ctx_b;
    repeat (first [rewrite (reopen_prev_seg_ok _ Hs) | rewrite (reopen_prev_sel_ok _ Hs) | rewrite Ep
                  | rewrite (reopen_prev_seg_ok _ Hs') | rewrite st_with_ctx_id
                  | progress cbn [fst snd st_with_ctx st_ctx]]); destruct ok; reflexivity.
Qed.

Lemma ed_cancel_ok s :
  ctx_ok (st_ctx s) -> cx_input (st_ctx s) <> [] ->
  fst (run_editor_action cfg translate s EdCancelComposition) = st_with_ctx s (set_input cfg translate (st_ctx s) []).
Proof.
  intros (_ & _ & _ & _ & Hs & Hn & _) Hne. cbn [run_editor_action]. unfold on_ctx_b, clear_previous_segment.
  destruct Hs as [Hnil | (g & Hg & (G0 & _))]; [elim Hne; apply Hn, Hnil|]. rewrite Hg, G0.
  destruct (cx_input (st_ctx s)); [congruence | reflexivity].
Qed.

Lemma ed_good s b k a :
  ed_of k = Some a -> b_text b <> [] -> good s b -> good (fst (run_editor_action cfg translate s a)) (buf_step b k).
Proof.
  intros Ea Hne Hg. pose proof Hg as ((Hok & Hi & _) & _).
  destruct k; try discriminate Ea; injection Ea as <-.
  - rewrite ed_backspace_ok by (destruct fluid; auto). apply (with_ctx_good s b _ _ Hg), pop_input_ok, Hg.
  - apply (with_ctx_good s b _ _ Hg), delete_input_ok, Hg.
  - rewrite ed_cancel_ok by (rewrite ?Hi; assumption). apply (with_ctx_good s b _ _ Hg), set_input_nil_ok, Hok.
Qed.

Lemma editor_nonletter s k :
  ctx_ok (st_ctx s) -> ekey_is_letter k = false ->
  editor_process cfg translate s (mkKey (key_code_of k) 0)
  = match cx_input (st_ctx s), ed_of k with
    | _ :: _, Some a => (fst (run_editor_action cfg translate s a), PAccepted)
    | _, _ => (s, PNoop)
    end.
Proof.
  intros Hok Ek. pose proof (nonletter_code k Ek) as Hge. unfold editor_process.
  cbn [k_release k_ctrl k_alt k_super k_mod k_code Z.testbit].
  replace (key_code_of k <? 127)%Z with false by (symmetry; apply Z.ltb_ge; lia). rewrite andb_false_r, (composing_iff _ Hok).
  destruct (cx_input (st_ctx s)); [reflexivity|]. cbn [negb].
  rewrite kbp_process_plain, (proj2 (proj2 (keymaps_nonletter k Ek))).
  destruct k; try discriminate Ek; cbn [ed_of]; try reflexivity.
  - destruct fluid; reflexivity.
  - cbn [run_editor_action]. destruct (on_ctx_b s (clear_previous_segment cfg translate)) as [s1 []]; reflexivity.
Qed.

(** nothing undefined is reached when the state is read: each of the three views reads at most the one segment,
    from 0, and the first page of its menu *)
Lemma preedit_ok c : segs_ok (sg_segs (cx_comp c)) -> pe_ok (ctx_preedit c) = true.
Proof.
  intros Hs. unfold ctx_preedit. rewrite comp_preedit_ok. unfold segs_fwd.
  destruct Hs as [-> | (g & -> & _)]; cbn [rev app preedit_loop]; [reflexivity|].
  rewrite preedit_step_ok; [reflexivity | apply substr_se_0].
Qed.

Lemma commit_text_ok c : segs_ok (sg_segs (cx_comp c)) -> snd (ctx_commit_text c) = true.
Proof.
  intros Hs. unfold ctx_commit_text. destruct (get_option c opt_dumb); [reflexivity|]. unfold comp_commit_text, segs_fwd.
  destruct Hs as [-> | (g & -> & (G0 & _))]; cbn [rev app commit_text_loop]; [reflexivity|].
  destruct (selected_cand g); [reflexivity|]. destruct (has_tag TPhony (s_tags g)); [reflexivity|].
  rewrite G0. pose proof (substr_se_0 (sg_input (cx_comp c)) (s_end g)) as Hs0.
  destruct (substr_se _ 0 (s_end g)) as [t ok]. cbn [snd] in Hs0. subst ok. reflexivity.
Qed.

Lemma create_page_first m : snd (create_page m 5 0) = true.
Proof.
  unfold create_page. change (size_wrap (5 * 0)) with 0%N. change (size_wrap (0 + 5)) with 5%N.
  destruct (menu_count m <? 5)%N; [destruct (menu_count m <=? 0)%N|]; reflexivity.
Qed.

Lemma menu_view_ok c : segs_ok (sg_segs (cx_comp c)) -> snd (menu_view cfg c) = true.
Proof.
  intros Hs. unfold menu_view. destruct (negb (has_menu c)); [reflexivity|].
  destruct Hs as [-> | (g & -> & (_ & _ & _ & G3))]; [reflexivity|].
  destruct (s_menu g) as [m|]; [|reflexivity]. rewrite G3, Hpsz.
  change (create_page m (size_of_int 5) (size_of_int (Z.quot (int_of_size 0) 5))) with (create_page m 5 0).
  pose proof (create_page_first m) as Hp. destruct (create_page m 5 0) as [[p|] ok]; exact Hp.
Qed.

Lemma view_ok s : ctx_ok (st_ctx s) -> snd (view_of cfg s) = None.
Proof.
  intros (_ & _ & _ & _ & Hs & _). unfold view_of.
  pose proof (commit_text_ok _ Hs) as Hct. pose proof (menu_view_ok _ Hs) as Hmv.
  destruct (ctx_commit_text (st_ctx s)) as [pv ok2]. destruct (menu_view cfg (st_ctx s)) as [mv ok3].
  cbn [snd] in *. subst ok2 ok3. rewrite (preedit_ok _ Hs). cbn [andb negb]. rewrite andb_false_r. reflexivity.
Qed.

Lemma shape_noop s k : ctx_ok (st_ctx s) -> shape_process s k = (s, PNoop).
Proof. intros (_ & _ & _ & Ho & _). unfold shape_process. now rewrite (opts_init_get _ opt_full_shape Ho). Qed.

Lemma punctuator_nonletter s code : (127 <= code)%Z -> punctuator_process cfg translate s (mkKey code 0) = (s, PNoop).
Proof.
  intros H. unfold punctuator_process. cbn [k_release k_ctrl k_alt k_super k_mod k_code Z.testbit orb].
  replace (127 <=? code)%Z with true by (symmetry; apply Z.leb_le; assumption).
  now rewrite orb_true_r.
Qed.

Definition chain4 : list (state -> key -> state * presult) :=
  [speller_process cfg translate; selector_process cfg translate; navigator_process cfg translate; editor_process cfg translate].

(** ProcessKey over the four-processor chain: what every chain of [edit_chain] reduces to for the keys of the alphabet *)
Definition pk4 (s : state) (k : key) : state * bool :=
  let (s1, ret) := run_processors chain4 s k in
  match ret with
  | PAccepted => (s1, true)
  | _ =>
    let s1 := on_ctx s1 (fun c => ctx_with_hist c (hist_push_key (cx_hist c) k)) in
    let (s2, ret2) := shape_process s1 k in
    match ret2 with PAccepted => (s2, true) | _ => (s2, false) end
  end.

(** [pre s code]: the state in which the speller receives a key of the alphabet - the ascii composer, when it stands in
    front, has cleared its pressed-flags; the key binder, when it has bindings, has recorded the key *)
Definition set_kb_last (x : state) (v : Z) : state :=
  mkSt (st_ctx x) (st_nav_input x) (st_spans x) (st_commit x) (st_odd x) v (st_ac x) (st_clock x).
Definition kb_on : bool := has_kb cfg && negb (match cf_bindings cfg with [] => true | _ => false end).
Definition pre (s : state) (code : Z) : state :=
  let s1 := if has_ac cfg then ac_unpress s else s in
  if kb_on then set_kb_last s1 code else s1.

Lemma c05_special code : special code -> c05_code code.
Proof. intros H. right. exact H. Qed.

Lemma ascii_noop s code :
  c05_code code -> get_option (st_ctx s) opt_ascii_mode = false ->
  ascii_composer_process cfg translate s (mkKey code 0) = (ac_unpress s, PNoop).
Proof.
  intros Hc Ha. unfold ascii_composer_process, ac_process_caps_lock.
  cbn [k_shift k_ctrl k_alt k_super k_release k_caps k_mod k_code Z.testbit andb orb].
  rewrite !(c05_code_neq code _ Hc) by reflexivity.
  destruct (ac_style_is_noop (ac_caps_style cfg)); cbn [presult_is_noop negb orb andb];
    change (st_ctx (ac_unpress s)) with (st_ctx s); rewrite Ha; reflexivity.
Qed.

(** the key binder, when it stands in the chain, has no binding for a key of the alphabet: it only records the key
    (ReinterpretPagingKey's special case needs a period as the previous key, which the alphabet does not have) *)
Lemma kb_noop R s code :
  c05_code code -> has_kb cfg = true -> (st_kb_last s =? 46)%Z = false ->
  key_binder_process cfg translate R false s (mkKey code 0) = ((if kb_on then set_kb_last s code else s), PNoop).
Proof.
  intros Hc Hk Hl. unfold key_binder_process, kb_on. rewrite Hk. cbn [orb andb].
  destruct (cf_bindings cfg) as [|b0 bs] eqn:Eb; [reflexivity|]. cbn [negb].
  unfold reinterpret_paging_key. cbn [k_release k_mod k_code Z.testbit Z.eqb].
  rewrite (c05_code_neq code 46 Hc eq_refl), Hl. cbn [andb]. fold (set_kb_last s code).
  rewrite (Hnab Hk code Hc). reflexivity.
Qed.

Lemma run_chain R s code :
  c05_code code -> get_option (st_ctx s) opt_ascii_mode = false -> (st_kb_last s =? 46)%Z = false ->
  (forall s', punctuator_process cfg translate s' (mkKey code 0) = (s', PNoop)) \/
  (exists s', speller_process cfg translate (pre s code) (mkKey code 0) = (s', PAccepted)) ->
  run_processors (processors cfg translate (key_binder_process cfg translate R false)) s (mkKey code 0)
  = run_processors chain4 (pre s code) (mkKey code 0).
Proof.
  intros Hc Ha Hl H. unfold processors, chain4.
  set (kb := key_binder_process cfg translate R false).
  set (s1 := if has_ac cfg then ac_unpress s else s).
  assert (Hl1 : (st_kb_last s1 =? 46)%Z = false) by (subst s1; destruct (has_ac cfg); exact Hl).
  assert (E : forall rest, run_processors (map (proc_of cfg translate kb) (ac_pre cfg ++ kb_pre cfg ++ rest)) s (mkKey code 0)
                           = run_processors (map (proc_of cfg translate kb) rest) (pre s code) (mkKey code 0)).
  { intros rest. unfold ac_pre, kb_pre.
    rewrite (skip_declining _ (has_ac cfg) PAsciiComposer _ s (ac_unpress s)) by (intros _; apply ascii_noop; assumption).
    rewrite (skip_declining _ (has_kb cfg) PKeyBinder rest s1 (pre s code)) by (intros Ek; apply kb_noop; assumption).
    (* [destruct (has_kb cfg)] would abstract it in the bodies of the section's facts as well, which is ill-typed *)
    unfold pre, kb_on. fold s1. generalize (has_kb cfg). intros []; reflexivity. }
  destruct Hchain as [(-> & _) | (-> & _)]; rewrite E; [reflexivity|].
  cbn [map proc_of run_processors].
  destruct H as [Hn | (s' & ->)]; [|reflexivity].
  destruct (speller_process cfg translate (pre s code) (mkKey code 0)) as [s2 r1]. destruct r1; try reflexivity. rewrite Hn. reflexivity.
Qed.

Lemma buf_step_idle b k : b_text b = [] -> b_caret b = 0 -> ekey_is_letter k = false -> buf_step b k = b.
Proof. destruct b as [t n]. cbn [b_text b_caret]. intros -> -> E. destruct k; try discriminate E; reflexivity. Qed.

Lemma chain4_nonletter s b k :
  good s b -> ekey_is_letter k = false ->
  match b_text b with
  | [] => run_processors chain4 s (mkKey (key_code_of k) 0) = (s, PNoop)
  | _ :: _ => exists s', run_processors chain4 s (mkKey (key_code_of k) 0) = (s', PAccepted) /\ good s' (buf_step b k)
  end.
Proof.
  intros Hg Ek. pose proof Hg as ((Hok & Hi & _) & _). unfold chain4. cbn [run_processors].
  rewrite (speller_nonletter s _ (nonletter_code k Ek)), (selector_nonletter s k Hok Ek),
    (navigator_nonletter s k Hok Ek), Hi.
  destruct (b_text b) as [|x t] eqn:Et; [rewrite (editor_nonletter s k Hok Ek), Hi; reflexivity|].
  destruct (nav_of k) as [a|] eqn:En; [eexists; split; [reflexivity | apply nav_good; assumption]|].
  rewrite (editor_nonletter s k Hok Ek), Hi.
  destruct (ed_of k) as [a|] eqn:Ee; [|destruct k; discriminate].
  eexists. split; [reflexivity | apply ed_good; [assumption | rewrite Et; discriminate | assumption]].
Qed.

Lemma pk4_ok s b k :
  good s b -> ekey_ok cfg k = true ->
  good (fst (pk4 s (mkKey (key_code_of k) 0))) (buf_step b k) /\
  snd (pk4 s (mkKey (key_code_of k) 0)) = handled_spec b k.
Proof.
  intros Hg Hk. unfold pk4, handled_spec. destruct (ekey_is_letter k) eqn:Elet.
  - (* a spelling letter: the speller accepts *)
    destruct k as [ch| | | | | | |]; try discriminate Elet.
    pose proof (ekey_ok_letter ch Hk) as Hch.
    unfold chain4. cbn [run_processors key_code_of]. rewrite (speller_letter s ch Hch). cbn [fst snd].
    split; [|symmetry; apply orb_true_r].
    pose proof (push_input_ok _ b ch (proj1 Hg) Hch) as Hp. unfold on_ctx.
    rewrite begin_editing_ok by apply Hp. exact (with_ctx_good s b _ _ Hg Hp).
  - pose proof (chain4_nonletter s b k Hg Elet) as Hc. unfold buf_nonempty. rewrite orb_false_r.
    destruct (b_text b) as [|x t] eqn:Et.
    + (* empty buffer: the key is recorded in the history and reported unhandled *)
      rewrite Hc. cbv beta iota zeta. rewrite shape_noop by apply Hg. split; [|reflexivity].
      rewrite buf_step_idle; [exact Hg | exact Et | | exact Elet].
      destruct Hg as ((Hok & Hi & Hn) & _). destruct Hok as (_ & _ & Hc0 & _). rewrite Hi, Et, Hn in Hc0. cbn in Hc0. lia.
    + destruct Hc as (s' & -> & Hg'). split; [exact Hg' | reflexivity].
Qed.

Lemma view_fields s :
  let v := fst (view_of cfg s) in
  v_input v = cx_input (st_ctx s) /\ v_caret v = cx_caret (st_ctx s) /\ v_commit v = st_commit s.
Proof.
  unfold view_of. destruct (ctx_commit_text (st_ctx s)). destruct (menu_view cfg (st_ctx s)). cbn. auto.
Qed.

(** the key binder's last_key_ is never the period under the alphabet *)
Definition kb_ok (s : state) : Prop := (st_kb_last s =? 46)%Z = false.

Lemma key_code_c05 k : ekey_ok cfg k = true -> c05_code (key_code_of k).
Proof.
  intros Hk. destruct k as [ch| | | | | | |]; try (right; cbn; auto 10; fail).
  left. apply letter_code, ekey_ok_letter, Hk.
Qed.

Lemma pk4_kb v s k : kbv v s -> kbv v (fst (pk4 s k)).
Proof.
  intros H. pose proof (kbv_stable v) as HP. pose proof (stable_kept cfg translate _ HP) as K.
  assert (H1 : kbv v (fst (run_processors chain4 s k))).
  { apply run_processors_keeps; [|exact H]. intros p Hp x Hx.
    repeat (destruct Hp as [<- | Hp]);
      [apply speller_process_keeps | apply selector_process_keeps | apply navigator_process_keeps | apply editor_process_keeps
       | destruct Hp]; assumption. }
  unfold pk4. repeat case_state; try exact H1; apply (shape_process_keeps _ _ _ K), on_ctx_stable; assumption.
Qed.

Lemma pre_good s b code : good s b -> good (pre s code) b.
Proof. intros Hg. unfold pre. destruct (has_ac cfg); destruct kb_on; exact Hg. Qed.

Lemma pre_kb_ok s code : c05_code code -> kb_ok s -> kb_ok (pre s code).
Proof.
  intros Hc Hkb. unfold pre, kb_ok. destruct kb_on; [exact (c05_code_neq _ 46 Hc eq_refl)|]. destruct (has_ac cfg); exact Hkb.
Qed.

(** ProcessKey on a key of the alphabet: the ascii composer and the key binder pass it on, a letter is accepted by the
    speller before the punctuator sees it, and the punctuator declines the seven others *)
Lemma process_key_pk4 s b k :
  good s b -> kb_ok s -> ekey_ok cfg k = true ->
  process_key cfg translate s (mkKey (key_code_of k) 0) = pk4 (pre s (key_code_of k)) (mkKey (key_code_of k) 0).
Proof.
  intros Hg Hkb Hk. unfold process_key, kb_fuel. cbn [process_key_n]. unfold process_key_gen, pk4.
  rewrite run_chain; [reflexivity | exact (key_code_c05 k Hk) | apply opts_init_get; [apply Hg | reflexivity] | exact Hkb |].
  destruct (ekey_is_letter k) eqn:Elet.
  - destruct k as [ch| | | | | | |]; try discriminate Elet.
    right. eexists. apply (speller_letter _ ch (ekey_ok_letter ch Hk)).
  - left. intros s'. apply punctuator_nonletter, nonletter_code, Elet.
Qed.

Lemma process_key_ok s b k :
  good s b -> kb_ok s -> ekey_ok cfg k = true ->
  (good (fst (process_key cfg translate s (mkKey (key_code_of k) 0))) (buf_step b k) /\
   kb_ok (fst (process_key cfg translate s (mkKey (key_code_of k) 0)))) /\
  snd (process_key cfg translate s (mkKey (key_code_of k) 0)) = handled_spec b k.
Proof.
  intros Hg Hkb Hk. rewrite (process_key_pk4 s b k Hg Hkb Hk).
  destruct (pk4_ok (pre s (key_code_of k)) b k (pre_good s b _ Hg) Hk) as (G & Hh). split; [split; [exact G|]|exact Hh].
  unfold kb_ok. rewrite (pk4_kb _ (pre s (key_code_of k)) _ eq_refl). exact (pre_kb_ok s _ (key_code_c05 k Hk) Hkb).
Qed.

Lemma step_key_ok s b k :
  good s b -> kb_ok s -> ekey_ok cfg k = true ->
  (good (fst (step cfg translate s (op_of_ekey k))) (buf_step b k) /\ kb_ok (fst (step cfg translate s (op_of_ekey k)))) /\
  edit_summary (snd (step cfg translate s (op_of_ekey k)))
  = Some (handled_spec b k, b_text (buf_step b k), b_caret (buf_step b k), []).
Proof.
  intros Hg Hkb Hk. destruct (process_key_ok s b k Hg Hkb Hk) as ((Hg' & Hkb') & Hh).
  unfold step. assert (He : cx_err (st_ctx s) = None) by apply Hg. rewrite He.
  unfold op_of_ekey. cbn [exec].
  destruct (process_key cfg translate s (mkKey (key_code_of k) 0)) as [s1 h] eqn:Ep. cbn [fst snd] in *.
  pose proof (view_ok s1 (proj1 (proj1 Hg'))) as Hv. pose proof (view_fields s1) as Hf.
  destruct (view_of cfg s1) as [v ve]. cbn [fst snd] in *. subst ve.
  assert (He1 : cx_err (st_ctx s1) = None) by apply Hg'. rewrite He1. cbn [fst snd edit_summary].
  split; [split; [exact Hg' | exact Hkb']|]. destruct Hf as (F1 & F2 & F3). destruct Hg' as ((_ & G1 & G2) & G3).
  rewrite F1, F2, F3, G1, G2, G3, Hh. reflexivity.
Qed.

Lemma run_keys_ok keys : forall s b,
  good s b -> kb_ok s -> Forall (fun k => ekey_ok cfg k = true) keys ->
  good (fst (run_from cfg translate s (map op_of_ekey keys))) (fold_left buf_step keys b) /\
  map edit_summary (snd (run_from cfg translate s (map op_of_ekey keys)))
  = map (fun x => Some (x, [])) (buf_trace b keys).
Proof.
  induction keys as [|k keys IH]; intros s b Hg Hkb Hk; [cbn; auto|].
  inversion Hk as [|? ? Hk1 Hk2]; subst.
  destruct (step_key_ok s b k Hg Hkb Hk1) as ((Hg1 & Hkb1) & Ho).
  cbn [map run_from fold_left buf_trace].
  destruct (step cfg translate s (op_of_ekey k)) as [s1 o1]. cbn [fst snd] in *.
  destruct (IH s1 (buf_step b k) Hg1 Hkb1 Hk2) as (Hg2 & Hos).
  destruct (run_from cfg translate s1 (map op_of_ekey keys)) as [s2 os]. cbn [fst snd map] in *.
  split; [exact Hg2|]. now rewrite Ho, Hos.
Qed.

Lemma init_good : good (init_state cfg) buf_empty.
Proof.
  unfold good, ctx_is, ctx_ok, init_state, init_opts. cbn.
  repeat split; auto. left; reflexivity.
Qed.

Theorem edit_refines_buffer_gen keys :
  Forall (fun k => ekey_ok cfg k = true) keys ->
  let r := run cfg translate (map op_of_ekey keys) in
  cx_input (st_ctx (fst r)) = b_text (buf_run keys) /\
  cx_caret (st_ctx (fst r)) = b_caret (buf_run keys) /\
  st_commit (fst r) = [] /\
  map edit_summary (snd r) = map (fun x => Some (x, [])) (buf_trace buf_empty keys).
Proof.
  intros Hk. destruct (run_keys_ok keys (init_state cfg) buf_empty init_good eq_refl Hk) as (((_ & G1 & G2) & G3) & Ho).
  unfold run, buf_run. cbv zeta. auto.
Qed.

End Edit.

Lemma synth_edit_cfg fluid dlog : edit_cfg (synth_cfg fluid dlog).
Proof. repeat (split; [reflexivity|]). split; [discriminate|]. left. split; reflexivity. Qed.

Lemma synth_punct_edit_cfg fluid dlog : edit_cfg (synth_punct_cfg fluid dlog).
Proof.
  repeat (split; [reflexivity|]). split; [discriminate|]. right. split; [reflexivity|]. split; [reflexivity|].
  apply no_letter_punct_dec. reflexivity.
Qed.

Lemma synth_acedit_edit_cfg fluid dlog : edit_cfg (synth_acedit_cfg fluid dlog).
Proof.
  repeat (split; [reflexivity|]). split; [discriminate|]. right. split; [reflexivity|]. split; [reflexivity|].
  apply no_letter_punct_dec. reflexivity.
Qed.

Lemma no_alphabet_binding_dec cfg :
  forallb (fun b => negb ((k_mod (kb_accept b) =? 0)%Z && c05_codeb (k_code (kb_accept b)))) (cf_bindings cfg) = true ->
  no_alphabet_binding cfg.
Proof.
  intros H code Hc. unfold kb_vector.
  assert (G : forall l v, forallb (fun b => negb ((k_mod (kb_accept b) =? 0)%Z && c05_codeb (k_code (kb_accept b)))) l = true ->
              fold_left (fun v b => if key_eqb (kb_accept b) (mkKey code 0) then kb_insert v b else v) l v = v).
  { induction l as [|b l IH]; intros v Hl; [reflexivity|]. cbn [forallb] in Hl. apply andb_prop in Hl as (Hb & Hl).
    cbn [fold_left]. replace (key_eqb (kb_accept b) (mkKey code 0)) with false; [apply IH, Hl|].
    symmetry. unfold key_eqb. cbn [k_code k_mod]. destruct (k_code (kb_accept b) =? code)%Z eqn:E1; [|reflexivity].
    destruct (k_mod (kb_accept b) =? 0)%Z eqn:E2; [|reflexivity]. exfalso.
    apply Z.eqb_eq in E1. rewrite E1, (c05_codeb_spec code Hc) in Hb. cbn in Hb. discriminate Hb. }
  apply G, H.
Qed.

(** the stock chain order with ascii_composer, key_binder and the punctuator (synth_ascii_express|fluid, synth_kb_express|fluid): their bindings
    (Control+letter, Tab, comma / period / minus / equal / bracketleft) accept no key of the alphabet *)
Lemma synth_ascii_edit_cfg fluid dlog : edit_cfg (synth_ascii_cfg fluid dlog).
Proof.
  repeat (split; [reflexivity|]). split; [intros _; apply no_alphabet_binding_dec; destruct fluid; vm_compute; reflexivity|].
  right. split; [reflexivity|]. split; [reflexivity|]. apply no_letter_punct_dec. reflexivity.
Qed.
Lemma synth_kb_edit_cfg fluid dlog : edit_cfg (synth_kb_cfg fluid dlog).
Proof.
  repeat (split; [reflexivity|]). split; [intros _; apply no_alphabet_binding_dec; destruct fluid; vm_compute; reflexivity|].
  right. split; [reflexivity|]. split; [reflexivity|]. apply no_letter_punct_dec. reflexivity.
Qed.

(** synth_express / synth_fluid *)
Theorem edit_refines_buffer (fluid dlog : bool) (translate : bytes -> seginfo -> list cand) keys :
  Forall (fun k => ekey_ok (synth_cfg fluid dlog) k = true) keys ->
  let r := run (synth_cfg fluid dlog) translate (map op_of_ekey keys) in
  cx_input (st_ctx (fst r)) = b_text (buf_run keys) /\
  cx_caret (st_ctx (fst r)) = b_caret (buf_run keys) /\
  st_commit (fst r) = [] /\
  map edit_summary (snd r) = map (fun x => Some (x, [])) (buf_trace buf_empty keys).
Proof. apply edit_refines_buffer_gen, synth_edit_cfg. Qed.

(** and with the punctuator, punct_segmentor and punct_translator in the chains
    (synth_punct_express / synth_punct_fluid) *)
Theorem edit_refines_buffer_punct (fluid dlog : bool) (translate : bytes -> seginfo -> list cand) keys :
  Forall (fun k => ekey_ok (synth_punct_cfg fluid dlog) k = true) keys ->
  let r := run (synth_punct_cfg fluid dlog) translate (map op_of_ekey keys) in
  cx_input (st_ctx (fst r)) = b_text (buf_run keys) /\
  cx_caret (st_ctx (fst r)) = b_caret (buf_run keys) /\
  st_commit (fst r) = [] /\
  map edit_summary (snd r) = map (fun x => Some (x, [])) (buf_trace buf_empty keys).
Proof. apply edit_refines_buffer_gen, synth_punct_edit_cfg. Qed.

(** with ascii_composer and ascii_segmentor at their stock positions around the punctuator chain *)
Theorem edit_refines_buffer_ascii (fluid dlog : bool) (translate : bytes -> seginfo -> list cand) keys :
  Forall (fun k => ekey_ok (synth_acedit_cfg fluid dlog) k = true) keys ->
  let r := run (synth_acedit_cfg fluid dlog) translate (map op_of_ekey keys) in
  cx_input (st_ctx (fst r)) = b_text (buf_run keys) /\
  cx_caret (st_ctx (fst r)) = b_caret (buf_run keys) /\
  st_commit (fst r) = [] /\
  map edit_summary (snd r) = map (fun x => Some (x, [])) (buf_trace buf_empty keys).
Proof. apply edit_refines_buffer_gen, synth_acedit_edit_cfg. Qed.

(** the stock chain order - ascii_composer, key_binder, speller, punctuator, selector, navigator, editor over
    ascii_segmentor, abc_segmentor, punct_segmentor, fallback_segmentor - with the 28 bindings of the synthetic schemas *)
Theorem edit_refines_buffer_stock_order (fluid dlog : bool) (translate : bytes -> seginfo -> list cand) keys :
  Forall (fun k => ekey_ok (synth_ascii_cfg fluid dlog) k = true) keys ->
  let r := run (synth_ascii_cfg fluid dlog) translate (map op_of_ekey keys) in
  cx_input (st_ctx (fst r)) = b_text (buf_run keys) /\
  cx_caret (st_ctx (fst r)) = b_caret (buf_run keys) /\
  st_commit (fst r) = [] /\
  map edit_summary (snd r) = map (fun x => Some (x, [])) (buf_trace buf_empty keys).
Proof. apply edit_refines_buffer_gen, synth_ascii_edit_cfg. Qed.
Theorem edit_refines_buffer_kb (fluid dlog : bool) (translate : bytes -> seginfo -> list cand) keys :
  Forall (fun k => ekey_ok (synth_kb_cfg fluid dlog) k = true) keys ->
  let r := run (synth_kb_cfg fluid dlog) translate (map op_of_ekey keys) in
  cx_input (st_ctx (fst r)) = b_text (buf_run keys) /\
  cx_caret (st_ctx (fst r)) = b_caret (buf_run keys) /\
  st_commit (fst r) = [] /\
  map edit_summary (snd r) = map (fun x => Some (x, [])) (buf_trace buf_empty keys).
Proof. apply edit_refines_buffer_gen, synth_kb_edit_cfg. Qed.
