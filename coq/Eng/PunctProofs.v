(** Eng/PunctProofs.v – the synthetic schemas with punctuator / punct_segmentor /
    punct_translator (synth_punct_express, synth_punct_fluid) meet the hypotheses of the
    C02 theorem; what C01's totality theorem needs beyond its plain chains, shown by two
    witnesses (both replayed against the real code):

    [commit_history_dangling]  with the source shape of CommitHistory::Push that does not
        reset [last] in its raw branch, a history on synth_fluid reaches the use after
        free (ErrDangling) – the reason for the hypothesis [cf_hist_guard];
    [punct_chain_stale_menu]   with punct_segmentor between abc_segmentor and
        fallback_segmentor and punctuation tables whose key sets differ between half_shape
        and full_shape, a closed raw segment cut short by a partial candidate is not
        re-absorbed by the fallback segmentor (the punct segmentor takes the next byte
        after a full_shape toggle); Segment::Reopen then revives its stale menu and
        Composition::GetPreedit calls substr with pos > size – although every candidate
        lies inside the segment it was made for ([cands_fit_seg]). *)
From Coq Require Import List Arith NArith ZArith Bool Lia.
From Coq.Strings Require Import Byte.
From RimeV Require Import Base.Bytes Eng.Keys Eng.Cand Eng.Menu Eng.Segm Eng.Ctx Eng.Engine Eng.Trans Eng.TransProofs
     Eng.Procs Eng.Api Eng.Oracle Eng.Spec Eng.WfProofs Eng.CommitProofs Eng.InvProofs Eng.TotalFull Eng.TotalProofs.
Import ListNotations.

Lemma synth_punct_total_hyps fluid dlog :
  total_hyps (synth_punct_cfg fluid dlog) (synth_translate (synth_punct_cfg fluid dlog)).
Proof. apply synth_total_hyps; try reflexivity; destruct fluid; cbn; lia. Qed.

(** C02 on the punctuator schemas *)
Theorem wf_reported_synth_punct fluid dlog ops :
  forallb wf_obsb (snd (run (synth_punct_cfg fluid dlog) (synth_translate (synth_punct_cfg fluid dlog)) ops)) = true.
Proof. apply wf_reported_hyps, synth_punct_total_hyps. Qed.

(** C01 (part): no null dereference, no invalid page range on the punctuator schemas *)
Theorem core_total_partial_synth_punct fluid dlog ops :
  Forall no_null_no_bad_range_obs
         (snd (run (synth_punct_cfg fluid dlog) (synth_translate (synth_punct_cfg fluid dlog)) ops)).
Proof. apply core_total_partial, synth_punct_total_hyps. Qed.

(** candidates lie inside the segment they were made for – for the (input, segment) pairs
    TranslateSegments produces: the input is the segment's stretch of the composition input *)
Definition cands_fit_seg (translate : bytes -> seginfo -> list cand) : Prop :=
  forall i s c, length i = si_end s - si_start s -> In c (translate i s) ->
                si_start s < c_end c /\ c_end c <= si_start s + length i.

Lemma cands_fit_fit_seg translate : cands_fit translate -> cands_fit_seg translate.
Proof. intros H i s c _ Hc. apply (H i s c Hc). Qed.

Lemma all_translate_fit_seg cfg main : cands_fit main -> cands_fit_seg (all_translate cfg main).
Proof.
  intros Hm i s c Hlen Hc. apply all_translate_In in Hc as [Hc | Hc]; [|apply (Hm i s c Hc)].
  destruct (punct_translate_span cfg i s c Hc) as (_ & He & Hne). rewrite He.
  assert (0 < length i) by (destruct i; [congruence | cbn; lia]). lia.
Qed.

Fixpoint rep {A} (n : nat) (l : list A) : list A := match n with 0 => [] | S k => l ++ rep k l end.
Definition dangling_ops : list op :=
  [OpKey 97 0; OpKey 120 0; OpSelect 3; OpKey 32 0] ++ rep 21 [OpKey 120 0; OpKey 32 0] ++ [OpKey 97 0; OpCommit].

Theorem commit_history_dangling :
  let cfg := synth_cfg_gen true true true true false in
  total_hyps cfg oracle_translate /\ cands_fit oracle_translate /\
  cf_segmentors cfg = [SgAbc; SgFallback] /\ ~ In PPunctuator (cf_processors cfg) /\
  existsb (fun o => match o with ObsCrash ErrDangling => true | _ => false end)
          (snd (run cfg oracle_translate dangling_ops)) = true.
Proof.
  cbv zeta. split; [apply oracle_total_hyps; [cbn; lia | reflexivity]|].
  split; [exact oracle_cands_fit|]. split; [reflexivity|]. split; [cbn; intuition discriminate|].
  vm_compute. reflexivity.
Qed.

(** with the reset the same history is harmless *)
Example commit_history_guarded_ok :
  forallb not_crash (snd (run (synth_cfg_gen true true true true true) oracle_translate dangling_ops)) = true.
Proof. vm_compute. reflexivity. Qed.

Definition stale_menu_ops : list op :=
  [OpKey 60 0; OpKey 60 0; OpKey 60 0; OpSelect 0; OpSetOption opt_full_shape true; OpKey XK_BackSpace 0;
   OpSelect 8; OpSetCaret 1; OpKey XK_BackSpace 0; OpKey XK_Delete 0; OpKey XK_Delete 0; OpSelect 0].

Theorem punct_chain_stale_menu :
  let cfg := synth_punct_cfg_gen true true true true true in
  total_hyps cfg (synth_translate cfg) /\ cf_hist_guard cfg = true /\ cands_fit_seg (synth_translate cfg) /\
  cf_segmentors cfg = [SgAbc; SgPunct; SgFallback] /\
  existsb (fun o => match o with ObsCrash ErrSubstr => true | _ => false end)
          (snd (run cfg (synth_translate cfg) stale_menu_ops)) = true.
Proof.
  cbv zeta. split; [apply synth_total_hyps; try reflexivity; cbn; lia|].
  split; [reflexivity|]. split; [apply all_translate_fit_seg, oracle_cands_fit|]. split; [reflexivity|].
  vm_compute. reflexivity.
Qed.

(** the full statement for chains with punct_segmentor (not proved; [punct_chain_stale_menu]
    shows that the hypotheses of the plain chains do not suffice): the candidate hypothesis in
    the [cands_fit_seg] form plus agreement of the two mappings on their key sets *)
Definition punct_keys_agree (cfg : config) : Prop :=
  forall b, pd_assoc (cf_punct_half cfg) b = None <-> pd_assoc (cf_punct_full cfg) b = None.
Definition core_total_punct_full : Prop :=
  forall cfg translate, total_hyps cfg translate -> cf_hist_guard cfg = true -> cands_fit_seg translate ->
    cf_segmentors cfg = [SgAbc; SgPunct; SgFallback] -> punct_keys_agree cfg ->
    forall ops, forallb not_crash (snd (run cfg translate ops)) = true.
