(** Eng/KbProofs.v – the key binder's re-entry into ProcessKey.

    [kb_replay_depth]: when the source sets redirecting_ around the replay loop
    ([cf_kb_guard], Gen/EngFacts.v: key_binder_redirect_guard), the replayed keys are processed
    by a chain in which the key binder declines everything, whatever the binding table:
    nesting depth 1 gives the same result as any larger fuel – no unbounded recursion for
    self-sending, cyclic or chained bindings.  [WfProofs.crash_kinds] adds that no history ever
    reports ErrRecursion then.  [kb_unguarded_recursion]: without the flag the self-sending
    binding of the synthetic table exhausts every nesting depth the model allows.
    The synthetic key-binder schemas meet the hypotheses of the C02 / C01 theorems. *)
From Coq Require Import List Arith NArith ZArith Bool Lia.
From Coq.Strings Require Import Byte.
From RimeV Require Import Base.Bytes Eng.Keys Eng.Cand Eng.Menu Eng.Segm Eng.Ctx Eng.Engine Eng.Trans Eng.TransProofs
     Eng.Procs Eng.Api Eng.Oracle Eng.Spec Eng.WfProofs Eng.CommitProofs Eng.InvProofs Eng.TotalFull Eng.TotalProofs
     Eng.PunctProofs.
Import ListNotations.

Section Kb.
Variable cfg : config.
Variable translate : bytes -> seginfo -> list cand.

Lemma key_binder_redirecting R s k : key_binder_process cfg translate R true s k = (s, PNoop).
Proof. reflexivity. Qed.

Lemma run_processors_ext l kb1 kb2 k :
  (forall s, kb1 s k = kb2 s k) ->
  forall s, run_processors (map (proc_of cfg translate kb1) l) s k = run_processors (map (proc_of cfg translate kb2) l) s k.
Proof.
  intros E. induction l as [|i r IH]; intros s; [reflexivity|]. cbn [map run_processors].
  assert (Ei : proc_of cfg translate kb1 i s k = proc_of cfg translate kb2 i s k) by (destruct i; cbn [proc_of]; auto).
  rewrite Ei. destruct (proc_of cfg translate kb2 i s k) as [s1 ret]. destruct ret; auto.
Qed.

Lemma process_key_gen_ext kb1 kb2 k :
  (forall s, kb1 s k = kb2 s k) -> forall s, process_key_gen cfg translate kb1 s k = process_key_gen cfg translate kb2 s k.
Proof. intros E s. unfold process_key_gen, processors. rewrite (run_processors_ext _ kb1 kb2 k E). reflexivity. Qed.

(** ProcessKey as the replay sees it: the key binder is out of the way *)
Definition process_key_replayed (s : state) (k : key) : state * bool :=
  process_key_gen cfg translate (fun x _ => (x, PNoop)) s k.

Lemma process_key_n_redirecting fuel s k : process_key_n cfg translate fuel true s k = process_key_replayed s k.
Proof. destruct fuel; cbn [process_key_n]; apply process_key_gen_ext; intros x; apply key_binder_redirecting. Qed.

Lemma fold_replay_ext (f1 f2 : state -> key -> state * bool) keys :
  (forall x tk, f1 x tk = f2 x tk) ->
  forall s, fold_left (fun x tk => fst (f1 x tk)) keys s = fold_left (fun x tk => fst (f2 x tk)) keys s.
Proof. intros E. induction keys as [|tk r IH]; intros s; [reflexivity|]. cbn [fold_left]. rewrite E. apply IH. Qed.

Lemma key_binder_ext f1 f2 red s k :
  (forall x tk, f1 x tk = f2 x tk) ->
  key_binder_process cfg translate (Some f1) red s k = key_binder_process cfg translate (Some f2) red s k.
Proof.
  intros E. unfold key_binder_process. destruct (red || _); [reflexivity|].
  destruct (reinterpret_paging_key cfg translate s k) as [s1 re]. destruct re; [reflexivity|].
  destruct (find _ (kb_vector cfg k)) as [b|]; [|reflexivity]. destruct (kb_act b) as [keys | o | o | o | sc]; try reflexivity.
  destruct keys as [|tk keys]; [reflexivity|]. rewrite (fold_replay_ext f1 f2 (tk :: keys) E). reflexivity.
Qed.

Theorem kb_replay_depth :
  cf_kb_guard cfg = true ->
  forall fuel s k,
    process_key_n cfg translate (S fuel) false s k =
    process_key_gen cfg translate (key_binder_process cfg translate (Some process_key_replayed) false) s k.
Proof.
  intros Hg fuel s k. cbn [process_key_n]. apply process_key_gen_ext. intros x. apply key_binder_ext.
  intros y tk. rewrite Hg. apply process_key_n_redirecting.
Qed.

Corollary kb_fuel_irrelevant :
  cf_kb_guard cfg = true -> forall fuel s k, process_key_n cfg translate (S fuel) false s k = process_key_n cfg translate 1 false s k.
Proof. intros Hg fuel s k. rewrite (kb_replay_depth Hg fuel), (kb_replay_depth Hg 0). reflexivity. Qed.

Corollary process_key_depth1 :
  cf_kb_guard cfg = true -> forall s k, process_key cfg translate s k = process_key_n cfg translate 1 false s k.
Proof. intros Hg s k. unfold process_key, kb_fuel. apply (kb_fuel_irrelevant Hg). Qed.

End Kb.

Lemma synth_kb_total_hyps fluid dlog : total_hyps (synth_kb_cfg fluid dlog) (synth_translate (synth_kb_cfg fluid dlog)).
Proof. apply synth_total_hyps; try reflexivity; destruct fluid; cbn; lia. Qed.

Theorem wf_reported_synth_kb fluid dlog ops :
  forallb wf_obsb (snd (run (synth_kb_cfg fluid dlog) (synth_translate (synth_kb_cfg fluid dlog)) ops)) = true.
Proof. apply wf_reported_hyps, synth_kb_total_hyps. Qed.

Theorem crash_kinds_synth_kb fluid dlog ops :
  Forall (crash_kind_ok (synth_kb_cfg fluid dlog))
         (snd (run (synth_kb_cfg fluid dlog) (synth_translate (synth_kb_cfg fluid dlog)) ops)).
Proof. apply crash_kinds_hyps, synth_kb_total_hyps. Qed.

(** the key binder over the plain chain: C01's full totality applies, for the whole binding table
    (self-sending, cyclic and chained bindings included) *)
Lemma synth_kbplain_chain fluid dlog : plain_chain (synth_kbplain_cfg fluid dlog).
Proof. repeat split; try reflexivity. cbn. intuition discriminate. Qed.

Theorem core_total_synth_kbplain fluid dlog ops :
  forallb not_crash (snd (run (synth_kbplain_cfg fluid dlog) oracle_translate ops)) = true.
Proof.
  apply core_total; [|apply synth_kbplain_chain | exact oracle_cands_fit].
  apply oracle_total_hyps; [cbn; lia | reflexivity].
Qed.

(** without the flag: the self-sending binding Control+s -> Control+s *)
Definition kb_selfsend_ops : list op := [OpKey 115 4].
Theorem kb_unguarded_recursion :
  let cfg := synth_kb_cfg_gen true true true false true in
  snd (run cfg (synth_translate cfg) kb_selfsend_ops) = [ObsCrash ErrRecursion].
Proof. vm_compute. reflexivity. Qed.

(** with the flag the self-sending, the cyclic and the chained bindings are all harmless *)
Definition kb_example_ops : list op :=
  [OpKey 115 4; OpKey 97 4; OpKey 101 4; OpKey 99 4; OpKey 107 4; OpKey 106 4; OpKey 44 0; OpKey 46 0; OpKey 97 0;
   OpKey 61 0; OpKey 45 0; OpKey 52 5; OpKey 113 4; OpGetCommit].
Example kb_guarded_ok :
  let cfg := synth_kb_cfg_gen true true true true true in
  forallb not_crash (snd (run cfg (synth_translate cfg) kb_example_ops)) = true /\
  existsb (fun o => match o with Obs (RBool true) v => match v_input v with [] => false | _ => true end | _ => false end)
          (snd (run cfg (synth_translate cfg) kb_example_ops)) = true.
Proof. cbv zeta. split; vm_compute; reflexivity. Qed.
