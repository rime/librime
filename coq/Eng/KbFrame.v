(** Eng/KbFrame.v - "KeyBinder::last_key_ ([st_kb_last]) is still v": a predicate every component other than the
    key binder keeps, being [stable] (CommitFrame.v). *)
From Coq Require Import ZArith.
From RimeV Require Import Eng.Engine Eng.Procs Eng.CommitFrame.

Definition kbv (v : Z) (s : state) : Prop := st_kb_last s = v.

Lemma kbv_stable v : stable (kbv v).
Proof. split; intros; assumption. Qed.

Section KbFrame.
Variable v : Z.

Lemma kbv_with s c : kbv v s -> kbv v (st_with_ctx s c).
Proof. apply with_ctx_stable, kbv_stable. Qed.
Lemma kbv_on_ctx s f : kbv v s -> kbv v (on_ctx s f).
Proof. apply on_ctx_stable, kbv_stable. Qed.
Lemma kbv_sink s t : kbv v s -> kbv v (sink s t).
Proof. apply sink_stable, kbv_stable. Qed.
End KbFrame.
