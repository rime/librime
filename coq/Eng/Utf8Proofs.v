(** Eng/Utf8Proofs.v – C02, the UTF-8 clause: the positions GetPreedit reports
    (sel_start, sel_end, cursor) are character boundaries of the preedit text,
    provided the raw input is ASCII, the selected candidates' texts/preedits
    start at character boundaries ([cand_clean]) and so does the prompt.

    [char_boundary t p] := p <= |t| and the byte at p (if any) is not a UTF-8
    continuation byte.  All reported positions are junctions between pieces
    that were appended whole; a junction is a boundary as soon as every piece
    starts clean. *)
From Coq Require Import List Arith NArith ZArith Bool Lia.
From Coq.Strings Require Import Byte.
From RimeV Require Import Base.Bytes Base.ListX Eng.Keys Eng.Cand Eng.Menu Eng.Segm Eng.Ctx Eng.Engine Eng.Procs
     Eng.Api Eng.Spec Eng.WfView.
Import ListNotations.

Definition cand_clean (c : cand) : bool :=
  starts_clean (c_text c) && starts_clean (c_preedit c) &&
  match find_byte byte_tab (c_preedit c) with
  | Some p => starts_clean (skipn (S p) (c_preedit c))
  | None => true
  end.

Definition all_ascii (l : bytes) : Prop := Forall (fun b => is_ascii b = true) l.

Lemma ascii_not_cont b : is_ascii b = true -> is_cont_byte b = false.
Proof.
  unfold is_ascii, is_cont_byte. intros H. apply N.ltb_lt in H.
  replace (128 <=? N_of_byte b)%N with false by (symmetry; apply N.leb_gt; lia). reflexivity.
Qed.

Lemma ascii_clean l : all_ascii l -> starts_clean l = true.
Proof. intros H. destruct H as [|b r Hb _]; [reflexivity|]. cbn. now rewrite (ascii_not_cont b Hb). Qed.

Lemma all_ascii_firstn n l : all_ascii l -> all_ascii (firstn n l).
Proof. intros H. revert n. induction H as [|b r Hb Hr IH]; intros [|n]; cbn; constructor; auto. apply IH. Qed.
Lemma all_ascii_skipn n l : all_ascii l -> all_ascii (skipn n l).
Proof.
  intros H. revert n. induction H as [|b r Hb Hr IH]; intros [|n]; cbn [skipn]; try (constructor; assumption); auto.
Qed.

Lemma substr_se_ascii s pos en : all_ascii s -> all_ascii (fst (substr_se s pos en)).
Proof.
  intros H. unfold substr_se. destruct (length s <? pos); [constructor|].
  destruct (pos <=? en); cbn [fst]; [apply all_ascii_firstn|]; apply all_ascii_skipn, H.
Qed.

Lemma starts_clean_firstn n l : starts_clean l = true -> starts_clean (firstn n l) = true.
Proof. destruct n, l; cbn; auto. Qed.

Definition cb (t : bytes) (p : nat) : Prop := char_boundary t p = true.

Lemma cb_end t : cb t (length t).
Proof. unfold cb, char_boundary. rewrite Nat.leb_refl, skipn_all. reflexivity. Qed.

Lemma cb_app t u p : cb t p -> starts_clean u = true -> cb (t ++ u) p.
Proof.
  unfold cb, char_boundary. intros H Hu. apply andb_prop in H as (H1 & H2). apply Nat.leb_le in H1.
  apply andb_true_intro. split; [apply Nat.leb_le; rewrite app_length; lia|].
  rewrite skipn_app. destruct (skipn p t) as [|x r] eqn:E.
  - assert (length t <= p) by (pose proof (skipn_length p t) as L; rewrite E in L; cbn in L; lia).
    replace (p - length t) with 0 by lia. exact Hu.
  - exact H2.
Qed.

Lemma cb_le t p : cb t p -> p <= length t.
Proof. unfold cb, char_boundary. intros H. apply andb_prop in H as (H1 & _). now apply Nat.leb_le. Qed.

Lemma cb_insert t pr c p :
  cb t c -> cb t p -> starts_clean pr = true -> pr <> [] ->
  cb (firstn c t ++ pr ++ skipn c t) (if c <? p then p + length pr else p).
Proof.
  intros Hc Hp Hpr Hne. pose proof (cb_le _ _ Hc) as Lc. pose proof (cb_le _ _ Hp) as Lp.
  clear Hc. unfold cb, char_boundary in Hp |- *. apply andb_prop in Hp as (_ & Hp2).
  assert (Hlen : length (firstn c t ++ pr ++ skipn c t) = length t + length pr).
  { rewrite !app_length, firstn_length, skipn_length. lia. }
  assert (Hf : length (firstn c t) = c) by (rewrite firstn_length; lia).
  destruct (c <? p) eqn:E.
  - apply Nat.ltb_lt in E. apply andb_true_intro. split; [apply Nat.leb_le; lia|].
    rewrite skipn_app, Hf. rewrite (skipn_all2 (firstn c t)) by lia. cbn [app].
    replace (p + length pr - c) with (length pr + (p - c)) by lia.
    rewrite skipn_app. rewrite (skipn_all2 pr) by lia. cbn [app].
    replace (length pr + (p - c) - length pr) with (p - c) by lia.
    rewrite skipn_skipn. replace (c + (p - c)) with p by lia. exact Hp2.
  - apply Nat.ltb_ge in E. apply andb_true_intro. split; [apply Nat.leb_le; lia|].
    rewrite skipn_app, Hf. destruct (Nat.eq_dec p c) as [-> | Hneq].
    + rewrite (skipn_all2 (firstn c t)) by lia. rewrite Nat.sub_diag. cbn [app skipn].
      destruct pr; [congruence|]. exact Hpr.
    + assert (p < c) by lia.
      assert (Hs : skipn p (firstn c t) <> []).
      { intros En. pose proof (skipn_length p (firstn c t)) as L. rewrite En, Hf in L. cbn in L. lia. }
      destruct (skipn p (firstn c t)) as [|x r] eqn:Es; [congruence|].
      (* the head of skipn p (firstn c t) is the head of skipn p t *)
      assert (Hhd : exists r', skipn p t = x :: r').
      { assert (Ht : skipn p t = skipn p (firstn c t ++ skipn c t)) by now rewrite firstn_skipn.
        rewrite Ht, skipn_app, Es. eexists. reflexivity. }
      destruct Hhd as (r' & Hr'). rewrite Hr' in Hp2. cbn in *. exact Hp2.
Qed.

Definition seg_clean (g : segment) : Prop :=
  forall c, selected_cand g = Some c -> cand_clean c = true.

Lemma find_byte_lt' b l p : find_byte b l = Some p -> p < length l.
Proof. apply find_byte_lt. Qed.

Lemma seg_clean_pieces g : seg_clean g -> seg_pieces (fun u => starts_clean u = true) g.
Proof.
  intros Hg c Hc. specialize (Hg c Hc). unfold cand_clean in Hg.
  apply andb_prop in Hg as (Hg12 & Hg3). apply andb_prop in Hg12 as (Hg1 & Hg2).
  split; [exact Hg1|]. split; [exact Hg2|]. intros p Hp. rewrite Hp in Hg3.
  split; [apply starts_clean_firstn, Hg2 | exact Hg3].
Qed.

Lemma comp_preedit_utf8 sg fi caret cs :
  all_ascii (sg_input sg) -> all_ascii fi -> Forall seg_clean (sg_segs sg) ->
  starts_clean (cs ++ comp_prompt sg) = true ->
  wf_preedit_utf8b (comp_preedit sg fi caret cs) = true.
Proof.
  intros Hci Hfi Hs Hpr.
  destruct (comp_preedit_pos cb (fun u => starts_clean u = true) cb_end cb_app cb_insert sg fi caret cs)
    as (H1 & H2 & H3 & _).
  - intros s e. apply ascii_clean, substr_se_ascii, Hci.
  - intros n. apply ascii_clean, all_ascii_skipn, Hci.
  - intros n. apply ascii_clean, all_ascii_skipn, Hfi.
  - eapply Forall_impl; [|exact Hs]. apply seg_clean_pieces.
  - exact Hpr.
  - unfold wf_preedit_utf8b. unfold cb in *. now rewrite H1, H2, H3.
Qed.
