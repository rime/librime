(** C09 – proofs about the spelling algebra model (Dict/Algebra.v). *)
From Coq Require Import List NArith ZArith Bool Arith Lia Sorted.
From Coq.Strings Require Import Byte.
From RimeV Require Import Base.Bytes Dict.TableLists Dict.Algebra.
Import ListNotations.

Lemma N_of_byte_inj a b : N_of_byte a = N_of_byte b -> a = b.
Proof.
  intro H. rewrite <- (byte_of_N_of_byte a), <- (byte_of_N_of_byte b). now rewrite H.
Qed.

Lemma byte_eqb_eq a b : byte_eqb a b = true <-> a = b.
Proof.
  unfold byte_eqb. rewrite N.eqb_eq. split; [apply N_of_byte_inj | now intros ->].
Qed.

Lemma byte_eqb_refl a : byte_eqb a a = true.
Proof. now apply byte_eqb_eq. Qed.

Lemma bytes_eqb_eq a b : bytes_eqb a b = true <-> a = b.
Proof.
  revert b. induction a as [|x a IH]; intros [|y b]; cbn; try (split; congruence).
  rewrite andb_true_iff, byte_eqb_eq, IH. split; [intros [-> ->] | intros [= -> ->]]; auto.
Qed.

Lemma bytes_eqb_refl a : bytes_eqb a a = true.
Proof. now apply bytes_eqb_eq. Qed.

Lemma bytes_eqb_neq a b : bytes_eqb a b = false <-> a <> b.
Proof.
  split.
  - intros H E. apply bytes_eqb_eq in E. congruence.
  - intro H. destruct (bytes_eqb a b) eqn:E; auto. apply bytes_eqb_eq in E. contradiction.
Qed.

Lemma bytes_cmp_eq a b : bytes_cmp a b = Eq <-> a = b.
Proof.
  revert b. induction a as [|x a IH]; intros [|y b]; cbn; try (split; congruence).
  destruct (N.compare (N_of_byte x) (N_of_byte y)) eqn:C.
  - apply N.compare_eq in C. apply N_of_byte_inj in C. subst. rewrite IH.
    split; [intros -> | intros [= ->]]; auto.
  - split; [discriminate|]. intros [= -> ->]. rewrite N.compare_refl in C. discriminate.
  - split; [discriminate|]. intros [= -> ->]. rewrite N.compare_refl in C. discriminate.
Qed.

Lemma bytes_cmp_refl a : bytes_cmp a a = Eq.
Proof. now apply bytes_cmp_eq. Qed.

Lemma bytes_cmp_antisym a b : bytes_cmp b a = CompOpp (bytes_cmp a b).
Proof.
  revert b. induction a as [|x a IH]; intros [|y b]; cbn; auto.
  rewrite (N.compare_antisym (N_of_byte x) (N_of_byte y)).
  destruct (N.compare (N_of_byte x) (N_of_byte y)); cbn; auto.
Qed.

Definition blt (a b : bytes) : Prop := bytes_cmp a b = Lt.

Lemma blt_trans a b c : blt a b -> blt b c -> blt a c.
Proof.
  unfold blt. revert b c. induction a as [|x a IH]; intros [|y b] [|z c]; cbn; try congruence.
  destruct (N.compare (N_of_byte x) (N_of_byte y)) eqn:C1; try discriminate;
  destruct (N.compare (N_of_byte y) (N_of_byte z)) eqn:C2; try discriminate; intros H1 H2.
  - apply N.compare_eq in C1, C2. rewrite C1, C2, N.compare_refl. eauto.
  - apply N.compare_eq in C1. rewrite C1, C2. reflexivity.
  - apply N.compare_eq in C2. rewrite <- C2, C1. reflexivity.
  - rewrite N.compare_lt_iff in C1, C2.
    assert (C3 : (N_of_byte x < N_of_byte z)%N) by lia.
    apply N.compare_lt_iff in C3. now rewrite C3.
Qed.

Lemma blt_irrefl a : ~ blt a a.
Proof. unfold blt. rewrite bytes_cmp_refl. discriminate. Qed.

Lemma bytes_cmp_gt_lt a b : bytes_cmp a b = Gt -> blt b a.
Proof. unfold blt. intro H. rewrite bytes_cmp_antisym, H. reflexivity. Qed.

Definition ssorted (l : list bytes) : Prop := StronglySorted blt l.
Definition script_ok (sc : script) : Prop := ssorted (map fst sc).

Lemma ssorted_NoDup l : ssorted l -> NoDup l.
Proof. apply StronglySorted_NoDup, blt_irrefl. Qed.

Lemma map_upd_split k f sc :
  exists l1 v0 l2, map_upd k f sc = l1 ++ (k, f v0) :: l2 /\ (sc = l1 ++ (k, v0) :: l2 \/ v0 = [] /\ sc = l1 ++ l2).
Proof.
  induction sc as [|[k' v] sc IH]; cbn.
  - exists [], [], []. auto.
  - destruct (bytes_cmp k k') eqn:C.
    + apply bytes_cmp_eq in C. subst. exists [], v, sc. auto.
    + exists [], [], ((k', v) :: sc). auto.
    + destruct IH as (l1 & v0 & l2 & -> & H). exists ((k', v) :: l1), v0, l2. split; [reflexivity|].
      destruct H as [->|[-> ->]]; auto.
Qed.

Lemma map_upd_in k f sc kv :
  In kv (map_upd k f sc) -> In kv sc \/ exists v0, kv = (k, f v0) /\ (v0 = [] \/ In (k, v0) sc).
Proof.
  destruct (map_upd_split k f sc) as (l1 & v0 & l2 & -> & H). rewrite in_app_iff. cbn. intros [Hin|[<-|Hin]].
  - left. destruct H as [->|[_ ->]]; rewrite in_app_iff; cbn; auto.
  - right. exists v0. split; [reflexivity|]. destruct H as [->|[-> _]]; [right; rewrite in_app_iff; cbn|]; auto.
  - left. destruct H as [->|[_ ->]]; rewrite in_app_iff; cbn; auto.
Qed.

Lemma map_upd_old k f sc k0 l0 :
  In (k0, l0) sc -> In (k0, l0) (map_upd k f sc) \/ (k0 = k /\ In (k0, f l0) (map_upd k f sc)).
Proof.
  destruct (map_upd_split k f sc) as (l1 & v0 & l2 & -> & [->|[-> ->]]); rewrite !in_app_iff; cbn;
    intros [H|H]; auto. destruct H as [[= -> ->]|H]; auto.
Qed.

Lemma map_upd_new k f sc :
  exists l0, In (k, f l0) (map_upd k f sc) /\ (l0 = [] \/ In (k, l0) sc).
Proof.
  destruct (map_upd_split k f sc) as (l1 & v0 & l2 & -> & H). exists v0. rewrite in_app_iff. cbn.
  split; [auto|]. destruct H as [->|[-> _]]; [right; rewrite in_app_iff; cbn|]; auto.
Qed.

Lemma map_upd_Forall (Q : bytes * list spelling -> Prop) k f sc :
  Forall Q sc -> Q (k, f []) -> (forall v, Q (k, v) -> Q (k, f v)) ->
  Forall Q (map_upd k f sc).
Proof.
  rewrite !Forall_forall. intros H H0 Hf kv Hin.
  destruct (map_upd_in _ _ _ _ Hin) as [H1|(v0 & -> & [->|H1])]; auto.
Qed.

Lemma map_upd_keys_sorted k f sc : script_ok sc -> script_ok (map_upd k f sc).
Proof.
  unfold script_ok, ssorted. induction sc as [|[k' v] sc IH]; cbn; intro H.
  - repeat constructor.
  - inversion H as [|a l Hs Hf]; subst.
    destruct (bytes_cmp k k') eqn:C; cbn.
    + constructor; auto.
    + constructor; auto. constructor; auto.
      rewrite Forall_forall in *. intros x Hx. eapply blt_trans; [exact C|]. auto.
    + constructor; auto.
      rewrite Forall_forall in *. intros x Hx. apply in_map_iff in Hx. destruct Hx as ([k2 v2] & <- & Hx).
      destruct (map_upd_in _ _ _ _ Hx) as [H1|(v0 & [= -> _] & _)]; [|now apply bytes_cmp_gt_lt].
      apply Hf. now apply (in_map fst) in H1.
Qed.

Lemma map_find_In k sc l : map_find k sc = Some l -> In (k, l) sc.
Proof.
  induction sc as [|[k' v] sc IH]; cbn; [discriminate|].
  destruct (bytes_eqb k k') eqn:E.
  - apply bytes_eqb_eq in E. subst. intros [= ->]. auto.
  - auto.
Qed.

Lemma map_find_None k sc : map_find k sc = None -> forall l, ~ In (k, l) sc.
Proof.
  induction sc as [|[k' v] sc IH]; cbn; [auto|].
  destruct (bytes_eqb k k') eqn:E; [discriminate|].
  intros H l [Hin|Hin].
  - inversion Hin; subst. rewrite bytes_eqb_refl in E. discriminate.
  - eapply IH; eauto.
Qed.

Lemma In_map_find k l sc : script_ok sc -> In (k, l) sc -> map_find k sc = Some l.
Proof.
  unfold script_ok. induction sc as [|[k' v] sc IH]; cbn; [tauto|].
  intros Hs Hin. inversion Hs as [|a m Hs' Hf]; subst.
  destruct Hin as [Hin|Hin].
  - inversion Hin; subst. now rewrite bytes_eqb_refl.
  - destruct (bytes_eqb k k') eqn:E; [|auto].
    apply bytes_eqb_eq in E. subst. exfalso.
    rewrite Forall_forall in Hf. apply (blt_irrefl k'), Hf. now apply (in_map fst) in Hin.
Qed.

(** [x'] is at least as good as [x]: same syllable, type no worse, credibility no lower. *)
Definition le_sp (x' x : spelling) : Prop :=
  sstr x' = sstr x /\ ptype (sprops x') <= ptype (sprops x) /\ (pcred (sprops x) <= pcred (sprops x'))%Z.

Lemma le_sp_refl x : le_sp x x.
Proof. unfold le_sp. repeat split; lia. Qed.

Lemma le_sp_trans a b c : le_sp a b -> le_sp b c -> le_sp a c.
Proof. unfold le_sp. intros (A1 & A2 & A3) (B1 & B2 & B3). repeat split; [congruence|lia|lia]. Qed.

Definition has_le (l : list spelling) (x : spelling) : Prop := exists x', In x' l /\ le_sp x' x.

Lemma has_le_in l x : In x l -> has_le l x.
Proof. intro H. exists x. split; [exact H|apply le_sp_refl]. Qed.

Lemma has_le_trans l x y : has_le l x -> le_sp x y -> has_le l y.
Proof. intros (x' & H1 & H2) H. exists x'. split; [exact H1|eapply le_sp_trans; eauto]. Qed.

Lemma improve_le z y : le_sp (improve z y) z /\ (sstr z = sstr y -> le_sp (improve z y) y).
Proof.
  unfold le_sp, improve. cbn [sstr sprops ptype pcred ptips].
  destruct (Nat.ltb_spec (ptype (sprops y)) (ptype (sprops z)));
    destruct (Z.ltb_spec (pcred (sprops z)) (pcred (sprops y))); repeat split; auto; lia.
Qed.

Lemma adjust_default_le x : le_sp (adjust default_props x) x.
Proof. unfold le_sp, adjust. cbn. repeat split; lia. Qed.

Lemma merge_into_old m x y z : has_le m z -> has_le (merge_into m x y) z.
Proof.
  intros (z0 & Hin & Hle). induction m as [|w m IH]; cbn; [destruct Hin|].
  destruct (bytes_eqb (sstr w) (sstr x)), Hin as [->|Hin].
  - exists (improve z0 y). split; [now left|]. eapply le_sp_trans; [apply (proj1 (improve_le z0 y))|exact Hle].
  - exists z0. split; [now right|exact Hle].
  - exists z0. split; [now left|exact Hle].
  - destruct (IH Hin) as (z' & H1 & H2). exists z'. split; [now right|exact H2].
Qed.

Lemma merge_into_new m x y : sstr y = sstr x -> has_le (merge_into m x y) y.
Proof.
  intro Hs. induction m as [|w m IH]; cbn; [apply has_le_in; now left|].
  destruct (bytes_eqb (sstr w) (sstr x)) eqn:E.
  - apply bytes_eqb_eq in E. exists (improve w y). split; [now left|]. apply (proj2 (improve_le w y)). congruence.
  - destruct IH as (z' & H1 & H2). exists z'. split; [now right|exact H2].
Qed.

Lemma merge_into_strs m x y z :
  sstr y = sstr x -> In z (merge_into m x y) -> (exists w, In w m /\ sstr w = sstr z) \/ sstr z = sstr x.
Proof.
  intro Hs. induction m as [|w m IH]; cbn.
  - intros [<-|[]]. auto.
  - destruct (bytes_eqb (sstr w) (sstr x)); (intros [<-|Hin]; [left; exists w; cbn; auto|]).
    + left. exists z. auto.
    + destruct (IH Hin) as [(w' & H1 & H2)|H]; auto. left. exists w'. auto.
Qed.

Lemma merge_into_nonempty m x y : merge_into m x y <> [].
Proof. destruct m as [|w m]; cbn; [discriminate|]. destruct (bytes_eqb _ _); discriminate. Qed.

Lemma merge_list_old sp v m z : has_le m z -> has_le (merge_list sp v m) z.
Proof.
  intros H. apply (fold_left_inv (fun m => has_le m z)); [exact H|]. intros m' x _. apply merge_into_old.
Qed.

Lemma merge_list_new sp v m x : In x v -> has_le (merge_list sp v m) (adjust sp x).
Proof.
  unfold merge_list. revert m. induction v as [|x0 v IH]; cbn; intros m Hin; [destruct Hin|].
  destruct Hin as [->|Hin]; [|now apply IH]. apply (merge_list_old sp v). now apply merge_into_new.
Qed.

Lemma merge_list_strs sp v m z :
  In z (merge_list sp v m) ->
  (exists w, In w m /\ sstr w = sstr z) \/ (exists x, In x v /\ sstr x = sstr z).
Proof.
  unfold merge_list. revert m. induction v as [|x v IH]; cbn; intros m Hin.
  - left. exists z. auto.
  - destruct (IH _ Hin) as [(w & H1 & H2)|(x' & H1 & H2)]; [|right; exists x'; auto].
    destruct (merge_into_strs m x (adjust sp x) w eq_refl H1) as [(w' & H3 & H4)|H3].
    + left. exists w'. split; auto. congruence.
    + right. exists x. split; auto. congruence.
Qed.

Lemma merge_list_nonempty sp v m : (v <> [] \/ m <> []) -> merge_list sp v m <> [].
Proof.
  unfold merge_list. revert m. induction v as [|x v IH]; cbn; intros m H.
  - destruct H; congruence.
  - apply IH. right. apply merge_into_nonempty.
Qed.

(** * Coverage: a (spelling, syllable) pair is present at least as good as [x] *)

Definition covers (sc : script) (k : bytes) (x : spelling) : Prop := exists l, In (k, l) sc /\ has_le l x.

Lemma merge_covers_old s sp v sc k x : covers sc k x -> covers (merge s sp v sc) k x.
Proof.
  intros (l & H1 & H2). unfold merge.
  destruct (map_upd_old s (merge_list sp v) sc k l H1) as [H|[-> H]]; [now exists l|].
  exists (merge_list sp v l). split; [exact H|now apply merge_list_old].
Qed.

Lemma merge_covers_new s sp v sc x : In x v -> covers (merge s sp v sc) s (adjust sp x).
Proof.
  intro Hin. unfold merge. destruct (map_upd_new s (merge_list sp v) sc) as (l0 & H1 & _).
  exists (merge_list sp v l0). split; [exact H1|now apply merge_list_new].
Qed.

Lemma covers_le sc k x y : covers sc k x -> le_sp x y -> covers sc k y.
Proof. intros (l & H1 & H2) H. exists l. split; [exact H1|eapply has_le_trans; eauto]. Qed.

Lemma round_step_inv (P : script -> Prop) c temp k v :
  P temp -> (forall t, P t -> P (merge k default_props v t)) ->
  (forall s t, capply c k = Some s -> sstr s <> [] -> P t -> P (merge (sstr s) (sprops s) v t)) ->
  P (round_step c temp (k, v)).
Proof.
  intros H0 H1 H2. cbn. destruct (capply c k) as [s|] eqn:E; [|auto].
  assert (Ht : P (if deletion c then temp else merge k default_props v temp)) by (destruct (deletion c); auto).
  destruct (addition c); [|exact Ht]. destruct (sstr s) as [|b r] eqn:Es; [exact Ht|].
  cbn [is_nil negb andb]. rewrite <- Es. apply (H2 s); [reflexivity|rewrite Es; discriminate|exact Ht].
Qed.

Lemma round_inv (P : script -> Prop) c sc :
  P [] -> (forall k v t, In (k, v) sc -> P t -> P (merge k default_props v t)) ->
  (forall k v s t, In (k, v) sc -> capply c k = Some s -> sstr s <> [] -> P t -> P (merge (sstr s) (sprops s) v t)) ->
  P (round c sc).
Proof.
  intros H0 H1 H2. apply (fold_left_inv P); [exact H0|]. intros t [k v] Hin Ht. apply round_step_inv; eauto.
Qed.

(** the heart of clauses (b) and (c): an entry whose key the rule does not match,
    or any entry under a non-deleting rule, is carried over *)
Lemma round_keeps c sc k v x :
  In (k, v) sc -> In x v -> (capply c k = None \/ deletion c = false) ->
  covers (round c sc) k x.
Proof.
  unfold round. generalize (@nil (bytes * list spelling)) as temp.
  induction sc as [|kv sc IH]; cbn [fold_left]; intros temp Hin Hx Hc; [destruct Hin|].
  destruct Hin as [->|Hin]; [|now apply IH].
  apply (fold_left_inv (fun t => covers t k x)).
  - assert (Hm : covers (merge k default_props v temp) k x).
    { eapply covers_le; [apply merge_covers_new; exact Hx|apply adjust_default_le]. }
    cbn. destruct (capply c k) as [s|] eqn:E; [|exact Hm].
    destruct Hc as [Hc|Hc]; [discriminate|]. rewrite Hc.
    destruct (addition c && negb (is_nil (sstr s))); auto. now apply merge_covers_old.
  - intros t [k' v'] _ Ht. apply round_step_inv; intros; auto using merge_covers_old.
Qed.

(** * Invariants of every script the algebra can produce *)

Definition entry_ok (syls : list bytes) (kv : bytes * list spelling) : Prop :=
  fst kv <> [] /\ snd kv <> [] /\ forall x, In x (snd kv) -> In (sstr x) syls.

Lemma merge_entry_ok syls s sp v sc :
  s <> [] -> v <> [] -> (forall x, In x v -> In (sstr x) syls) ->
  Forall (entry_ok syls) sc -> Forall (entry_ok syls) (merge s sp v sc).
Proof.
  intros Hs Hv Hin H. unfold merge.
  assert (Hm : forall l, (forall x, In x l -> In (sstr x) syls) -> entry_ok syls (s, merge_list sp v l)).
  { intros l Hl. split; [exact Hs|]. split; [apply merge_list_nonempty; auto|]. cbn. intros x Hx.
    destruct (merge_list_strs _ _ _ _ Hx) as [(w & H1 & H2)|(x' & H1 & H2)]; rewrite <- H2; auto. }
  apply map_upd_Forall; [exact H|apply Hm; intros x []|]. intros l (_ & _ & Hl). now apply Hm.
Qed.

Lemma round_entry_ok syls c sc :
  Forall (entry_ok syls) sc -> Forall (entry_ok syls) (round c sc).
Proof.
  rewrite Forall_forall. intro H. apply round_inv; [constructor|..]; intros k v; intros;
    destruct (H (k, v)) as (Hk & Hv & Hs); auto; now apply merge_entry_ok.
Qed.

Lemma round_sorted c sc : script_ok (round c sc).
Proof. apply round_inv; [constructor|..]; intros; now apply map_upd_keys_sorted. Qed.

Lemma project_script_entry_ok syls calcs sc :
  Forall (entry_ok syls) sc -> Forall (entry_ok syls) (project_script calcs sc).
Proof. intro H. apply (fold_left_inv (Forall (entry_ok syls))); [exact H|]. intros sc' c _. apply round_entry_ok. Qed.

Lemma project_script_sorted calcs sc : script_ok sc -> script_ok (project_script calcs sc).
Proof. intro H. apply (fold_left_inv script_ok); [exact H|]. intros sc' c _ _. apply round_sorted. Qed.

Lemma add_syllable_sorted s sc : script_ok sc -> script_ok (add_syllable s sc).
Proof.
  intro H. unfold add_syllable. destruct (map_find s sc); auto. now apply map_upd_keys_sorted.
Qed.

Lemma add_syllable_in s sc kv : In kv (add_syllable s sc) -> In kv sc \/ kv = (s, [spelling_of s]).
Proof.
  unfold add_syllable. destruct (map_find s sc) eqn:E; [now left|]. intro H.
  destruct (map_upd_in _ _ _ _ H) as [H1|(v0 & -> & [->|H1])]; auto. now apply map_find_None in H1.
Qed.

Lemma add_syllable_keeps s sc kv : In kv sc -> In kv (add_syllable s sc).
Proof.
  unfold add_syllable. destruct (map_find s sc) eqn:E; [auto|]. destruct kv as [k l]. intro H.
  destruct (map_upd_old s (fun m => m ++ [spelling_of s]) sc k l H) as [H1|[-> _]]; [exact H1|].
  now apply map_find_None in H.
Qed.

Lemma add_syllable_has s sc : exists l, In (s, l) (add_syllable s sc).
Proof.
  unfold add_syllable. destruct (map_find s sc) as [l|] eqn:E; [exists l; now apply map_find_In|].
  destruct (map_upd_new s (fun m => m ++ [spelling_of s]) sc) as (l0 & H & _). eauto.
Qed.

Lemma init_script_spec syls :
  (forall kv, In kv (init_script syls) -> kv = (fst kv, [spelling_of (fst kv)]) /\ In (fst kv) syls) /\
  (forall s, In s syls -> In (s, [spelling_of s]) (init_script syls)).
Proof.
  apply (fold_left_ind (fun pre (sc : script) =>
           (forall kv, In kv sc -> kv = (fst kv, [spelling_of (fst kv)]) /\ In (fst kv) pre) /\
           (forall s, In s pre -> In (s, [spelling_of s]) sc))); [split; intros ? []|].
  intros pre s sc [H1 H2]. split.
  - intros kv Hin. rewrite in_app_iff. destruct (add_syllable_in _ _ _ Hin) as [H| ->]; [|cbn; auto].
    destruct (H1 _ H); auto.
  - intros s' Hs'. apply in_app_or in Hs'. destruct Hs' as [Hs'|[<-|[]]]; [apply add_syllable_keeps; auto|].
    destruct (add_syllable_has s sc) as (l & Hl).
    destruct (add_syllable_in _ _ _ Hl) as [H|[= ->]]; [|exact Hl]. now destruct (H1 _ H) as [[= <-] _].
Qed.

Lemma init_script_sorted syls : script_ok (init_script syls).
Proof. apply (fold_left_inv script_ok); [constructor|]. intros sc s _. apply add_syllable_sorted. Qed.

Lemma init_script_entry_ok syls :
  (forall s, In s syls -> s <> []) -> Forall (entry_ok syls) (init_script syls).
Proof.
  intro Hne. apply Forall_forall. intros kv Hin. destruct (proj1 (init_script_spec syls) _ Hin) as [-> Hk].
  repeat split; cbn; auto; try discriminate. intros x [<-|[]]. exact Hk.
Qed.

Lemma kind_flags_non_deleting k :
  kind_deletion k = false <-> (k = Derive \/ k = Fuzz \/ k = Abbrev).
Proof. destruct k; cbn; intuition congruence. Qed.

(** * The statements of C09, algebra part *)

Definition spells (sc : script) (k s : bytes) : Prop :=
  exists l x, map_find k sc = Some l /\ In x l /\ sstr x = s.

(** [covers] as a lookup sees it *)
Definition finds (sc : script) (k : bytes) (x : spelling) : Prop :=
  exists l x', map_find k sc = Some l /\ In x' l /\ le_sp x' x.

Lemma finds_in sc k l x : map_find k sc = Some l -> In x l -> finds sc k x.
Proof. intros Hf Hx. exists l, x. auto using le_sp_refl. Qed.

Lemma covers_finds sc k x : script_ok sc -> covers sc k x -> finds sc k x.
Proof. intros Hs (l & H1 & x' & H2 & H3). exists l, x'. split; [now apply In_map_find|auto]. Qed.

Lemma finds_spells sc k x : finds sc k x -> spells sc k (sstr x).
Proof. intros (l & x' & H1 & H2 & H3 & _). now exists l, x'. Qed.

(** (b), (c) for one round and any script: what is spelt stays spelt, no worse, unless a deleting rule matches the key *)
Lemma round_finds c sc k x :
  finds sc k x -> (capply c k = None \/ deletion c = false) -> finds (round c sc) k x.
Proof.
  intros (l & x' & Hf & Hx & Hle) Hc. apply covers_finds; [apply round_sorted|].
  eapply covers_le; [|exact Hle]. exact (round_keeps c sc k l x' (map_find_In _ _ _ Hf) Hx Hc).
Qed.

Lemma project_finds calcs sc k x :
  finds sc k x -> (forall c, In c calcs -> capply c k = None \/ deletion c = false) ->
  finds (project_script calcs sc) k x.
Proof.
  intros H Hall. apply (fold_left_inv (fun sc => finds sc k x)); [exact H|].
  intros sc' c Hc H'. apply round_finds; auto.
Qed.

Lemma project_snd calcs sc : snd (project calcs sc) = project_script calcs sc.
Proof.
  unfold project. destruct sc as [|kv sc]; cbn [is_nil snd]; auto.
  unfold project_script. induction calcs as [|c cs IH]; cbn; auto.
Qed.

Lemma compile_script_some syls calcs sc :
  compile_script syls calcs = Some sc ->
  sc = project_script calcs (init_script syls) /\ sc <> [] /\
  project_modified calcs (init_script syls) = true.
Proof.
  unfold compile_script. pose proof (project_snd calcs (init_script syls)) as Hp.
  unfold project in *. destruct (is_nil (init_script syls)); cbn [snd] in Hp; [discriminate|].
  destruct (project_modified calcs (init_script syls)); [|discriminate].
  destruct (project_script calcs (init_script syls)) as [|kv r] eqn:E; cbn [is_nil]; [discriminate|].
  intros [= <-]. repeat split; auto. discriminate.
Qed.

(** (a) every spelling of the resulting table denotes at least one syllable of the
    syllabary (and only syllables of the syllabary), and is not the empty string *)
Lemma denotes_some_syllable syls calcs k l :
  (forall s, In s syls -> s <> []) ->
  map_find k (project_script calcs (init_script syls)) = Some l ->
  k <> [] /\ l <> [] /\ forall x, In x l -> In (sstr x) syls.
Proof.
  intros Hne Hf. apply map_find_In in Hf.
  pose proof (project_script_entry_ok syls calcs _ (init_script_entry_ok syls Hne)) as H.
  rewrite Forall_forall in H. exact (H _ Hf).
Qed.

Lemma script_always_sorted syls calcs : script_ok (project_script calcs (init_script syls)).
Proof. apply project_script_sorted, init_script_sorted. Qed.

(** (b) a non-deleting rule removes no (spelling, syllable) pair, and does not make
    its type or credibility worse *)
Lemma additive_rule_keeps c sc k l x :
  deletion c = false -> map_find k sc = Some l -> In x l ->
  exists l' x', map_find k (round c sc) = Some l' /\ In x' l' /\ le_sp x' x.
Proof. intros Hd Hf Hx. apply round_finds; [exact (finds_in sc k l x Hf Hx)|now right]. Qed.

Lemma additive_rules_keep calcs sc k l x :
  (forall c, In c calcs -> deletion c = false) ->
  map_find k sc = Some l -> In x l ->
  exists l' x', map_find k (project_script calcs sc) = Some l' /\ In x' l' /\ le_sp x' x.
Proof. intros Hd Hf Hx. apply project_finds; [exact (finds_in sc k l x Hf Hx)|]. intros c Hc. right. auto. Qed.

(** (c) one round: a pair (k, x) disappears only if the rule is deleting and matched k *)
Lemma round_loses_only_if_matched c sc k l x :
  map_find k sc = Some l -> In x l ->
  ~ spells (round c sc) k (sstr x) ->
  deletion c = true /\ capply c k <> None.
Proof.
  intros Hf Hx Hn.
  assert (Hk : ~ (capply c k = None \/ deletion c = false)).
  { intro Hc. apply Hn, finds_spells, round_finds; [exact (finds_in sc k l x Hf Hx)|exact Hc]. }
  destruct (capply c k), (deletion c); split; try reflexivity; try discriminate; exfalso; auto.
Qed.

Definition matched_by_deleting (s : bytes) (c : calc) : bool :=
  deletion c && match capply c s with Some _ => true | None => false end.

Lemma matched_by_deleting_false s c :
  matched_by_deleting s c = false -> capply c s = None \/ deletion c = false.
Proof. unfold matched_by_deleting. destruct (deletion c); auto. destruct (capply c s); auto. Qed.

Lemma own_name_kept syls calcs s :
  In s syls -> (forall c, In c calcs -> matched_by_deleting s c = false) ->
  finds (project_script calcs (init_script syls)) s (spelling_of s).
Proof.
  intros Hs Hall. apply project_finds; [|auto using matched_by_deleting_false].
  apply (finds_in _ s [spelling_of s]); [|now left].
  apply In_map_find; [apply init_script_sorted|now apply (proj2 (init_script_spec syls))].
Qed.

(** (c) a syllable stops being spellable by its own name only if a deleting rule
    (xlit, xform, erase) of the list matches the syllable's name *)
Lemma own_name_lost_only_if_matched syls calcs s :
  In s syls ->
  ~ spells (project_script calcs (init_script syls)) s s ->
  exists c, In c calcs /\ deletion c = true /\ capply c s <> None.
Proof.
  intros Hs Hn.
  destruct (existsb (matched_by_deleting s) calcs) eqn:E.
  - apply existsb_exists in E. destruct E as (c & Hc & Hm). exists c. split; auto.
    unfold matched_by_deleting in Hm. apply andb_true_iff in Hm. destruct Hm as [Hd Ha].
    split; auto. now destruct (capply c s).
  - exfalso. apply Hn, (finds_spells _ s (spelling_of s)), own_name_kept; [exact Hs|].
    intros c Hc. destruct (matched_by_deleting s c) eqn:Em; auto.
    rewrite <- E. symmetry. apply existsb_exists. now exists c.
Qed.

(** as long as it is kept, the own-name spelling stays a normal spelling of full credibility *)
Lemma own_name_stays_normal syls calcs s :
  In s syls ->
  (forall c, In c calcs -> matched_by_deleting s c = false) ->
  exists l x, map_find s (project_script calcs (init_script syls)) = Some l /\ In x l /\
              sstr x = s /\ ptype (sprops x) = kNormalSpelling /\ (0 <= pcred (sprops x))%Z.
Proof.
  intros Hs Hall. destruct (own_name_kept syls calcs s Hs Hall) as (l & x & H1 & H2 & H3 & H4 & H5).
  exists l, x. cbn in *. unfold kNormalSpelling in *. repeat split; auto; lia.
Qed.

(** * Non-vacuity: a concrete syllabary and rule list *)

Module Example.
  Definition a_ := x61. Definition b_ := x62. Definition o_ := x6f. Definition p_ := x70.
  Definition ba := [b_; a_]. Definition bo := [b_; o_]. Definition pa := [p_; a_].
  (** derive/^ba$/pa/ *)
  Definition c_derive := mkCalc Derive (fun k => if bytes_eqb k ba then Some (spelling_of pa) else None).
  (** abbrev/^(.).+$/$1/ *)
  Definition c_abbrev := mkCalc Abbrev (fun k => match k with
    | c :: _ :: _ => Some (mkSp [c] (mkProps kAbbreviation (-1) [])) | _ => None end).
  (** erase/^bo$/ *)
  Definition c_erase := mkCalc Erase (fun k => if bytes_eqb k bo then Some (spelling_of []) else None).
  (** fuzz/^p/b/ *)
  Definition c_fuzz := mkCalc Fuzz (fun k => match k with
    | c :: r => if byte_eqb c p_ then Some (mkSp (b_ :: r) (mkProps kFuzzySpelling (-1) [])) else None
    | [] => None end).
  Definition syls := syllabary_of [pa; bo; ba; bo].
  Definition rules := [c_derive; c_fuzz; c_abbrev; c_erase].
  Definition result := project_script rules (init_script syls).

  Lemma syls_value : syls = [ba; bo; pa].
  Proof. vm_compute. reflexivity. Qed.

  Lemma modified : project_modified rules (init_script syls) = true.
  Proof. vm_compute. reflexivity. Qed.
End Example.
