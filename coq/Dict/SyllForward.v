(** C08 - the forward phase of BuildSyllableGraph below the queue loop:
    delimiter skipping, what the accessor loop leaves on one edge, and the loop
    over the matches of one position. *)
From Coq Require Import List Arith Bool Lia.
From RimeV Require Import Base.ListX Dict.Syll Dict.SyllBase Dict.SyllSpec.
Import ListNotations.

Section Delims.
  Variable delims : list sym.
  Variable inp : str.
  Notation skip := (skip delims inp).
  Notation is_delim := (is_delim delims).
  Notation delim_run := (delim_run delims).

  Lemma skip_ge p : p <= skip p.
  Proof. unfold SyllSpec.skip, skip_delims. lia. Qed.

  Lemma delim_run_le s : delim_run s <= length s.
  Proof. induction s as [|c r IH]; cbn; [lia|]. destruct (is_delim c); lia. Qed.

  Lemma skip_le p : p <= length inp -> skip p <= length inp.
  Proof.
    intro H. unfold SyllSpec.skip, skip_delims.
    pose proof (delim_run_le (skipn p inp)) as L. rewrite skipn_length in L. lia.
  Qed.

  Lemma delim_run_all s : forallb is_delim (firstn (delim_run s) s) = true.
  Proof.
    induction s as [|c r IH]; cbn; [reflexivity|].
    destruct (is_delim c) eqn:E; cbn; [now rewrite E|reflexivity].
  Qed.

  Lemma delim_run_app_all d k : forallb is_delim d = true -> delim_run (d ++ k) = length d + delim_run k.
  Proof.
    induction d as [|c d IH]; cbn; [reflexivity|]. intro H. apply andb_true_iff in H as [H1 H2].
    rewrite H1. now rewrite IH.
  Qed.

  Lemma strip_app_delims k d :
    no_trailing_delim delims k -> forallb is_delim d = true -> strip_delims delims (k ++ d) = k.
  Proof.
    intros Hk Hd. unfold strip_delims, no_trailing_delim in *.
    rewrite rev_app_distr, delim_run_app_all by now rewrite forallb_rev.
    rewrite Hk, Nat.add_0_r, skipn_app, Nat.sub_diag, skipn_all. cbn.
    apply rev_involutive.
  Qed.

  Lemma sub_skip p l :
    sub inp p (skip (p + l) - p) =
    sub inp p l ++ firstn (delim_run (skipn (p + l) inp)) (skipn (p + l) inp).
  Proof.
    unfold SyllSpec.skip, skip_delims, sub.
    replace (p + l + delim_run (skipn (p + l) inp) - p) with (l + delim_run (skipn (p + l) inp)) by lia.
    now rewrite firstn_add, skipn_skipn.
  Qed.

  Lemma strip_sub p l :
    no_trailing_delim delims (sub inp p l) ->
    strip_delims delims (sub inp p (skip (p + l) - p)) = sub inp p l.
  Proof. intro H. rewrite sub_skip. apply strip_app_delims; [exact H|apply delim_run_all]. Qed.
End Delims.

Section Spell.
  Variable strict : bool.
  Variable mi : bool.      (* matches_input *)
  Variable e : nat.        (* end_pos *)

  Definition admb (d : desc) : bool :=
    negb (strict && mi && negb (d_type d =? kNormalSpelling)).

  Definition spell_inv (pre : list desc) (acc : smap * nat) : Prop :=
    (forall sid pr, nm_find sid (fst acc) = Some pr ->
        p_end pr = e /\
        (exists d, In d pre /\ admb d = true /\ d_sid d = sid /\ d_type d = p_type pr) /\
        (forall d, In d pre -> admb d = true -> d_sid d = sid -> p_type pr <= d_type d) /\
        (exists d, In d pre /\ admb d = true /\ d_sid d = sid /\ p_cred pr = mkCred (d_cred d) 0 0)) /\
    (forall d, In d pre -> admb d = true -> exists pr, nm_find (d_sid d) (fst acc) = Some pr) /\
    (forall d, In d pre -> admb d = true -> snd acc <= d_type d) /\
    (snd acc = kInvalidSpelling \/ exists d, In d pre /\ admb d = true /\ d_type d = snd acc) /\
    nm_sorted (fst acc).

  Lemma add_desc_find acc d sid :
    nm_find sid (fst (add_desc strict mi e acc d)) =
    if admb d && (d_sid d =? sid) then
      Some match nm_find sid (fst acc) with
           | None => mkProps (d_type d) e (mkCred (d_cred d) 0 0)
           | Some old => mkProps (Nat.min (p_type old) (d_type d)) (p_end old) (p_cred old)
           end
    else nm_find sid (fst acc).
  Proof.
    unfold add_desc, admb. destruct (strict && mi && negb (d_type d =? kNormalSpelling)); [reflexivity|].
    cbn [negb andb fst]. destruct (d_sid d =? sid) eqn:E.
    - apply Nat.eqb_eq in E. subst sid. destruct (nm_find (d_sid d) (fst acc)); apply nm_find_set_eq.
    - apply Nat.eqb_neq in E. destruct (nm_find (d_sid d) (fst acc)); now apply nm_find_set_neq.
  Qed.

  Lemma add_desc_snd acc d :
    snd (add_desc strict mi e acc d) = if admb d then Nat.min (d_type d) (snd acc) else snd acc.
  Proof.
    unfold add_desc, admb. destruct (strict && mi && negb (d_type d =? kNormalSpelling)); [reflexivity|].
    cbn [negb snd]. destruct (d_type d <? snd acc) eqn:L; [apply Nat.ltb_lt in L|apply Nat.ltb_ge in L]; lia.
  Qed.

  Lemma add_desc_inv pre x acc :
    spell_inv pre acc -> spell_inv (pre ++ [x]) (add_desc strict mi e acc x).
  Proof.
    intros (I1 & I2 & I3 & I4 & I5).
    assert (Hin : forall d, In d (pre ++ [x]) <-> In d pre \/ d = x).
    { intro d. rewrite in_app_iff. cbn. intuition. }
    refine (conj _ (conj _ (conj _ (conj _ _)))).
    - intros sid pr H. rewrite add_desc_find in H. destruct (admb x && (d_sid x =? sid)) eqn:T.
      + (* the entry of x's syllable *)
        apply andb_true_iff in T as [A E]. apply Nat.eqb_eq in E. subst sid. inversion H; subst pr; clear H.
        destruct (nm_find (d_sid x) (fst acc)) as [old|] eqn:F; cbn [p_type p_end p_cred].
        * destruct (I1 _ _ F) as (E1 & (d & Hd1 & Hd2 & Hd3 & Hd4) & E3 & (d' & Hd')).
          split; [exact E1|]. split; [|split].
          -- destruct (Nat.le_gt_cases (p_type old) (d_type x)); [exists d|exists x];
               rewrite Hin; repeat split; auto; lia.
          -- intros d0 H0 A0 S0. apply Hin in H0 as [H0| ->]; [specialize (E3 d0 H0 A0 S0)|]; lia.
          -- exists d'. rewrite Hin. tauto.
        * split; [reflexivity|]. split; [|split].
          -- exists x. rewrite Hin. tauto.
          -- intros d0 H0 A0 S0. apply Hin in H0 as [H0| ->]; [|lia].
             destruct (I2 d0 H0 A0) as [pr' Hp]. congruence.
          -- exists x. rewrite Hin. tauto.
      + (* another syllable, or x disqualified *)
        destruct (I1 sid pr H) as (E1 & (d & Hd) & E3 & (d' & Hd')).
        split; [exact E1|]. split; [exists d; rewrite Hin; tauto|]. split; [|exists d'; rewrite Hin; tauto].
        intros d0 H0 A0 S0. apply Hin in H0 as [H0| ->]; [now apply E3|].
        rewrite A0, S0, Nat.eqb_refl in T. discriminate.
    - intros d H0 A0. rewrite add_desc_find. destruct (admb x && (d_sid x =? d_sid d)) eqn:T; [eauto|].
      apply Hin in H0 as [H0| ->]; [now apply I2|]. rewrite A0, Nat.eqb_refl in T. discriminate.
    - intros d H0 A0. rewrite add_desc_snd. apply Hin in H0 as [H0| ->].
      + specialize (I3 d H0 A0). destruct (admb x); lia.
      + rewrite A0. lia.
    - rewrite add_desc_snd. destruct (admb x) eqn:A.
      + destruct (Nat.le_gt_cases (d_type x) (snd acc)).
        * right. exists x. rewrite Hin. repeat split; auto. lia.
        * destruct I4 as [I4|(d & Hd1 & Hd2 & Hd3)]; [left; lia|].
          right. exists d. rewrite Hin. repeat split; auto. lia.
      + destruct I4 as [I4|(d & Hd & R)]; [now left|right; exists d; rewrite Hin; tauto].
    - unfold add_desc. destruct (strict && mi && negb (d_type x =? kNormalSpelling)); [exact I5|].
      cbn [fst]. destruct (nm_find (d_sid x) (fst acc)); now apply nm_sorted_set.
  Qed.

  Lemma spell_fold_inv ds : spell_inv ds (fold_left (add_desc strict mi e) ds ([], kInvalidSpelling)).
  Proof.
    apply (fold_left_prefix_inv spell_inv (add_desc strict mi e)).
    - refine (conj _ (conj _ (conj _ (conj _ _)))); cbn; try discriminate; try tauto; try (now left); try apply nm_sorted_nil.
    - intros pre x post a _ H. now apply add_desc_inv.
  Qed.
End Spell.

Section Forward.
  Variable P : prism.
  Variable delims : list sym.
  Variable strict : bool.
  Variable inp : str.
  Hypothesis WF : prism_wf P delims.

  Notation n := (length inp).
  Notation skip := (SyllSpec.skip delims inp).
  Notation match_at := (match_at P inp).
  Notation adm := (adm strict inp).
  Notation tile := (tile P delims strict inp).
  Notation step := (step P delims strict inp).
  Notation tilable := (tilable P delims strict inp).
  Notation spell := (spell strict inp).

  Lemma cps_match cur l ds :
    In (l, ds) (common_prefix_search P (skipn cur inp)) <-> match_at cur l ds.
  Proof.
    rewrite cps_spec, skipn_length. unfold SyllSpec.match_at, sub. intuition lia.
  Qed.

  Lemma match_no_trailing p l ds : match_at p l ds -> no_trailing_delim delims (sub inp p l).
  Proof. intros (_ & _ & H). apply lookup_In in H. destruct WF as (_ & W & _). eapply W; eauto. Qed.

  Lemma match_types p l ds d : match_at p l ds -> In d ds -> d_type d <= kAbbreviation.
  Proof. intros (_ & _ & H) Hd. apply lookup_In in H. destruct WF as (_ & _ & W). eapply W; eauto. Qed.

  (** needs [no_trailing_delim]: were both a and a' stored, their matches at
      one position would share an end, and one SpellingMap *)
  Lemma ends_distinct p l1 ds1 l2 ds2 :
    match_at p l1 ds1 -> match_at p l2 ds2 -> skip (p + l1) = skip (p + l2) -> l1 = l2.
  Proof.
    intros M1 M2 E.
    pose proof (strip_sub delims inp p l1 (match_no_trailing _ _ _ M1)) as S1.
    pose proof (strip_sub delims inp p l2 (match_no_trailing _ _ _ M2)) as S2.
    rewrite E, S2 in S1. apply (f_equal (@length _)) in S1.
    destruct M1 as (_ & B1 & _), M2 as (_ & B2 & _). rewrite !sub_length in S1 by assumption. lia.
  Qed.

  Lemma spell_ok p e ds : spell_inv strict ((p =? 0) && (e =? n)) e ds (spell p e ds).
  Proof. apply spell_fold_inv. Qed.

  Lemma adm_admb p e d : adm p e d = admb strict ((p =? 0) && (e =? n)) d.
  Proof. reflexivity. Qed.

  Lemma spell_nonempty p e ds :
    fst (spell p e ds) <> [] <-> exists d, In d ds /\ adm p e d = true.
  Proof.
    destruct (spell_ok p e ds) as (I1 & I2 & _). split.
    - intro H. apply nm_nonempty_find in H as (k & v & H).
      destruct (I1 k v H) as (_ & (d & Hd1 & Hd2 & _) & _). now exists d.
    - intros (d & Hd & A). destruct (I2 d Hd A) as [pr Hp]. eapply nm_find_nonempty; eauto.
  Qed.

  Lemma spell_carries p e ds d :
    In d ds -> adm p e d = true ->
    exists pr, nm_find (d_sid d) (fst (spell p e ds)) = Some pr /\ p_type pr <= d_type d.
  Proof.
    intros Hd A. destruct (spell_ok p e ds) as (I1 & I2 & _). destruct (I2 d Hd A) as [pr Hp].
    exists pr. split; [exact Hp|]. destruct (I1 _ _ Hp) as (_ & _ & L & _). now apply L.
  Qed.

  Lemma step_spell p e : step p e <-> exists l ds, match_at p l ds /\ e = skip (p + l) /\ fst (spell p e ds) <> [].
  Proof.
    split.
    - intros (d & l & ds & M & E & Hd & A). exists l, ds. split; [exact M|split; [exact E|]].
      apply spell_nonempty. now exists d.
    - intros (l & ds & M & E & H). apply spell_nonempty in H as (d & Hd & A). exists d, l, ds. tauto.
  Qed.

  Lemma match_advances p l ds : match_at p l ds -> p < skip (p + l).
  Proof. intros (L & _). pose proof (skip_ge delims inp (p + l)). lia. Qed.

  Lemma tile_bounds p e d : tile p e d -> p < e /\ e <= n.
  Proof.
    intros (l & ds & M & -> & _). split; [exact (match_advances p l ds M)|].
    destruct M as (_ & L & _). now apply skip_le.
  Qed.

  Lemma tilable_le p : tilable p -> p <= n.
  Proof. induction 1 as [|p e _ _ (d & T)]; [lia|]. now apply tile_bounds in T. Qed.

  Lemma tiling_bounds a b l : tiling P delims strict inp a b l -> a <= b.
  Proof. induction 1 as [|a b c d l T _ IH]; [lia|]. apply tile_bounds in T. lia. Qed.

  (** *** the loop over the matches of one position (lines 77-136) *)
  Section Matches.
    Variable cur vt : nat.
    Variable q0 : list vertex.
    Let ms := common_prefix_search P (skipn cur inp).

    Definition pushed (l : nat) (ds : list desc) : vertex :=
      (skip (cur + l), Nat.max (snd (spell cur (skip (cur + l)) ds)) vt).

    Lemma process_matches_length l st :
      length (snd (fold_left (process_match delims strict inp cur vt) l st)) <= length (snd st) + length l.
    Proof.
      revert st. induction l as [|x l IH]; intro st; cbn [fold_left length]; [lia|].
      etransitivity; [apply IH|]. unfold process_match. destruct (fst x =? 0); [lia|].
      destruct (fst (fold_left _ _ _)); cbn [snd]; [lia|]. rewrite q_push_length. lia.
    Qed.

    (** the invariant of the loop; [M l ds]: the match (l, ds) has been processed *)
    Definition pm_inv (M : nat -> list desc -> Prop) (st : evmap * list vertex) : Prop :=
      (forall e sm, nm_find e (fst st) = Some sm ->
         exists l ds, M l ds /\ e = skip (cur + l) /\ sm = fst (spell cur e ds) /\ sm <> []) /\
      (forall l ds, M l ds -> fst (spell cur (skip (cur + l)) ds) <> [] ->
         nm_find (skip (cur + l)) (fst st) = Some (fst (spell cur (skip (cur + l)) ds))) /\
      (forall x, In x (snd st) <->
         In x q0 \/ exists l ds, M l ds /\ fst (spell cur (skip (cur + l)) ds) <> [] /\ x = pushed l ds) /\
      (q_sorted q0 -> q_sorted (snd st)) /\
      nm_sorted (fst st).

    Lemma end_fresh pre l ds post l' ds' :
      ms = pre ++ (l, ds) :: post -> In (l', ds') pre -> skip (cur + l') <> skip (cur + l).
    Proof.
      intros Hms Hin E. pose proof (cps_nodup P (skipn cur inp)) as ND. fold ms in ND.
      assert (M : forall l0 ds0, In (l0, ds0) ms -> match_at cur l0 ds0) by (intros; now apply cps_match).
      rewrite Hms in M, ND. rewrite map_app in ND. apply NoDup_remove_2 in ND. apply ND, in_app_iff. left.
      rewrite <- (ends_distinct cur l' ds' l ds); [exact (in_map fst _ _ Hin)| | |exact E]; apply M, in_app_iff.
      - now left.
      - right. now left.
    Qed.

    (** the step of the invariant: the end of the next match, which no earlier
        match has, gets the spelled syllables if there are any, and is queued then *)
    Lemma pm_inv_extend pre l ds st m' q' :
      (forall l' ds', In (l', ds') pre -> skip (cur + l') <> skip (cur + l)) ->
      pm_inv (fun l0 ds0 => In (l0, ds0) pre) st ->
      (forall e', nm_find e' m' = if skip (cur + l) =? e'
                                  then nonempty (fst (spell cur (skip (cur + l)) ds))
                                  else nm_find e' (fst st)) ->
      nm_sorted m' ->
      (forall x, In x q' <-> (fst (spell cur (skip (cur + l)) ds) <> [] /\ x = pushed l ds) \/ In x (snd st)) ->
      (q_sorted (snd st) -> q_sorted q') ->
      pm_inv (fun l0 ds0 => In (l0, ds0) (pre ++ [(l, ds)])) (m', q').
    Proof.
      intros Hfresh (J1 & J2 & J3 & J4 & J5) Hm Sm Hq Sq. unfold pm_inv. cbn [fst snd].
      refine (conj _ (conj _ (conj _ (conj _ Sm)))).
      - intros e' sm' F. rewrite Hm in F. destruct (skip (cur + l) =? e') eqn:Ee.
        + apply Nat.eqb_eq in Ee. subst e'. apply nonempty_some in F as [-> Ne].
          exists l, ds. rewrite in_app_iff. cbn. tauto.
        + destruct (J1 e' sm' F) as (l' & ds' & Hin & R). exists l', ds'. rewrite in_app_iff. tauto.
      - intros l' ds' Hin Hne. rewrite Hm. apply in_app_iff in Hin as [Hin|[Hin|[]]].
        + destruct (skip (cur + l) =? skip (cur + l')) eqn:Ee; [|now apply J2].
          apply Nat.eqb_eq in Ee. destruct (Hfresh l' ds' Hin (eq_sym Ee)).
        + injection Hin as <- <-. rewrite Nat.eqb_refl. revert Hne.
          destruct (fst (spell cur (skip (cur + l)) ds)); [congruence|reflexivity].
      - intro x. rewrite Hq, J3. split.
        + intros [[Ne ->]|[H|(l' & ds' & Hin & R)]]; [right; exists l, ds|now left|right; exists l', ds'];
            rewrite in_app_iff; cbn; tauto.
        + intros [H|(l' & ds' & Hin & Hne & R)]; [tauto|].
          apply in_app_iff in Hin as [Hin|[Hin|[]]]; [right; right; now exists l', ds'|].
          injection Hin as <- <-. now left.
      - intro S. apply Sq. now apply J4.
    Qed.

    Lemma process_match_inv pre x post st :
      ms = pre ++ x :: post -> pm_inv (fun l ds => In (l, ds) pre) st ->
      pm_inv (fun l ds => In (l, ds) (pre ++ [x])) (process_match delims strict inp cur vt st x).
    Proof.
      intros Hms J. destruct x as [l ds].
      assert (M : match_at cur l ds).
      { apply cps_match. fold ms. rewrite Hms. apply in_app_iff. right. now left. }
      assert (Hl : (l =? 0) = false) by (apply Nat.eqb_neq; destruct M; lia).
      assert (Hfresh : forall l' ds', In (l', ds') pre -> skip (cur + l') <> skip (cur + l))
        by (intros; eapply end_fresh; eauto).
      assert (Hnone : find_or_empty (skip (cur + l)) (fst st) = []).
      { apply find_or_empty_ind; [reflexivity|]. intros sm F. destruct J as (J1 & _).
        destruct (J1 _ sm F) as (l' & ds' & Hin & He & _). destruct (Hfresh l' ds' Hin (eq_sym He)). }
      pose proof (pm_inv_extend pre l ds st) as Hstep. unfold SyllSpec.spell in Hstep.
      pose proof J as (_ & _ & _ & _ & J5).
      unfold process_match. cbn [fst snd]. rewrite Hl.
      change (skip_delims delims inp (cur + l)) with (skip (cur + l)). rewrite Hnone.
      destruct (fst (fold_left _ ds _)) as [|a0 r0].
      - (* not spelled: end_vertices.erase(end_pos) *)
        apply Hstep; [exact Hfresh|exact J| |now apply nm_sorted_erase| |tauto].
        + intro e'. rewrite nm_find_erase. now destruct (_ =? e').
        + intro x. split; [now right|]. intros [[C _]|H]; [congruence|exact H].
      - (* spelled: record the edge and push the end vertex *)
        apply Hstep; [exact Hfresh|exact J|intro; apply nm_find_set|now apply nm_sorted_set| |intro; now apply q_push_sorted].
        intro x. rewrite q_push_In. split; [intros [->|H]; [left; split; [discriminate|reflexivity]|now right]|].
        intros [[_ ->]|H]; [now left|now right].
    Qed.

    Lemma process_matches_inv :
      pm_inv (match_at cur) (fold_left (process_match delims strict inp cur vt) ms ([], q0)).
    Proof.
      assert (H : pm_inv (fun l ds => In (l, ds) ms) (fold_left (process_match delims strict inp cur vt) ms ([], q0))).
      { apply (fold_left_prefix_inv (fun pre => pm_inv (fun l ds => In (l, ds) pre))).
        - refine (conj _ (conj _ (conj _ (conj _ _)))); cbn.
          + discriminate.
          + tauto.
          + intro x. split; [tauto|]. intros [H|(l & ds & [] & _)]. exact H.
          + tauto.
          + apply nm_sorted_nil.
        - intros pre x post a E H. eapply process_match_inv; eauto. }
      unfold pm_inv, ms in *. setoid_rewrite cps_match in H. exact H.
    Qed.
  End Matches.
End Forward.
