(** C09 – proofs about the prism model (Dict/PrismModel.v). *)
From Coq Require Import List NArith ZArith Bool Arith Lia Sorted.
From Coq.Strings Require Import Byte.
From RimeV Require Import Base.Bytes Dict.TableLists Dict.Algebra Dict.AlgebraProofs Dict.PrismModel.
Import ListNotations.

Lemma index_of_nth s l i : index_of s l = Some i -> nth_error l i = Some s.
Proof.
  revert i. induction l as [|x l IH]; cbn; intros i; [discriminate|].
  destruct (bytes_eqb s x) eqn:E.
  - apply bytes_eqb_eq in E. subst. intros [= <-]. reflexivity.
  - destruct (index_of s l) as [j|]; [|discriminate]. intros [= <-]. cbn. auto.
Qed.

Lemma index_of_In s l : In s l -> exists i, index_of s l = Some i.
Proof.
  induction l as [|x l IH]; cbn; [tauto|]. intros [->|H].
  - rewrite bytes_eqb_refl. eauto.
  - destruct (bytes_eqb s x); [eauto|]. destruct (IH H) as (i & ->). eauto.
Qed.

Lemma index_of_None s l : index_of s l = None <-> ~ In s l.
Proof.
  split.
  - intros E H. destruct (index_of_In s l H) as (i & Hi). congruence.
  - intro H. destruct (index_of s l) as [i|] eqn:E; [|reflexivity].
    apply index_of_nth, nth_error_In in E. contradiction.
Qed.

Lemma index_of_NoDup s l i : NoDup l -> nth_error l i = Some s -> index_of s l = Some i.
Proof.
  revert i. induction l as [|x l IH]; intros [|i] Hnd H; cbn in *; try discriminate.
  - inversion H; subst. now rewrite bytes_eqb_refl.
  - inversion Hnd as [|a b Hx Hl]; subst.
    destruct (bytes_eqb s x) eqn:E.
    + apply bytes_eqb_eq in E. subst. exfalso. apply Hx. eapply nth_error_In; eauto.
    + rewrite (IH i); auto.
Qed.

Lemma index_of_lt s l i : index_of s l = Some i -> i < length l.
Proof. intro H. apply index_of_nth in H. apply nth_error_Some. congruence. Qed.

Lemma In_hit s l (n i m : nat) :
  In (i, m) (match index_of s l with Some j => [(j, n)] | None => [] end) <-> index_of s l = Some i /\ m = n.
Proof.
  destruct (index_of s l) as [j|]; cbn; split; try tauto.
  - intros [[= -> ->]|[]]. auto.
  - intros [[= ->] ->]. auto.
  - intros [[=] _].
Qed.

Lemma step_app c a b : step c (a ++ b) = step c a ++ step c b.
Proof. unfold step. apply flat_map_app. Qed.

Lemma walk_app p a b : walk p (a ++ b) = walk p a ++ walk p b.
Proof.
  revert a b. induction p as [|c p IH]; intros a b; cbn; auto. now rewrite step_app, IH.
Qed.

Lemma walk_nil p : walk p [] = [].
Proof. induction p as [|c p IH]; cbn; auto. Qed.

Lemma leaf_walk_single p k i : leaf (walk p [(k, i)]) = if bytes_eqb p k then Some i else None.
Proof.
  revert k. induction p as [|c p IH]; intros [|c' k]; cbn; auto; [now rewrite walk_nil|].
  destruct (byte_eqb c c'); cbn; [apply IH|now rewrite walk_nil].
Qed.

Lemma walk_walk p q nd : walk (p ++ q) nd = walk q (walk p nd).
Proof. revert nd. induction p as [|c p IH]; intros nd; cbn; auto. Qed.

Lemma step_In c nd s i : In (s, i) (step c nd) <-> In (c :: s, i) nd.
Proof.
  unfold step. rewrite in_flat_map. split.
  - intros ([[|c' k] j] & Hin & H); cbn [fst snd] in H; [destruct H|].
    destruct (byte_eqb c c') eqn:E; [|destruct H]. apply byte_eqb_eq in E.
    destruct H as [[= <- <-]|[]]. now subst.
  - intro H. exists (c :: s, i). split; [exact H|]. cbn. rewrite byte_eqb_refl. now left.
Qed.

Lemma walk_In p nd s i : In (s, i) (walk p nd) <-> In (p ++ s, i) nd.
Proof. revert nd. induction p as [|c p IH]; intros nd; cbn; [tauto|]. now rewrite IH, step_In. Qed.

Lemma leaf_app a b : leaf (a ++ b) = match leaf a with Some v => Some v | None => leaf b end.
Proof.
  induction a as [|[s v] a IH]; cbn; auto. destruct (is_nil s); auto.
Qed.

Lemma leaf_Some_In nd v : leaf nd = Some v -> In ([], v) nd.
Proof.
  induction nd as [|[s w] nd IH]; cbn; [discriminate|].
  destruct s; cbn; [intros [= ->]; auto|auto].
Qed.

Lemma leaf_None_In nd : leaf nd = None -> forall v, ~ In ([], v) nd.
Proof.
  induction nd as [|[s w] nd IH]; cbn; [auto|].
  destruct s; cbn; [discriminate|]. intros H v [Hx|Hx]; [discriminate|]. eapply IH; eauto.
Qed.

Lemma leaf_walk_combine p keys a :
  leaf (walk p (combine keys (seq a (length keys)))) =
  match index_of p keys with Some i => Some (a + i) | None => None end.
Proof.
  revert a. induction keys as [|k keys IH]; intros a; cbn [length seq combine index_of].
  - now rewrite walk_nil.
  - change (walk p ((k, a) :: ?nd)) with (walk p ([(k, a)] ++ nd)).
    rewrite walk_app, leaf_app, leaf_walk_single, IH.
    destruct (bytes_eqb p k); [f_equal; lia|]. destruct (index_of p keys); auto. f_equal. lia.
Qed.

Lemma leaf_walk_root p keys : leaf (walk p (trie_root keys)) = index_of p keys.
Proof. unfold trie_root. rewrite leaf_walk_combine. destruct (index_of p keys); auto. Qed.

Lemma In_trie_root keys k i : In (k, i) (trie_root keys) <-> nth_error keys i = Some k.
Proof.
  unfold trie_root. rewrite in_combine_swap, in_combine_seq, Nat.sub_0_r. split; [tauto|]. intro H. split; [lia|auto].
Qed.

Lemma walk_root_nonempty p keys :
  walk p (trie_root keys) <> [] <-> exists s, In (p ++ s) keys.
Proof.
  split.
  - intro H. destruct (walk p (trie_root keys)) as [|[s i] r] eqn:E; [congruence|].
    assert (Hin : In (s, i) (walk p (trie_root keys))) by (rewrite E; left; auto).
    apply walk_In, In_trie_root in Hin. exists s. eapply nth_error_In; eauto.
  - intros (s & Hin) E. apply In_nth_error in Hin. destruct Hin as (i & Hi).
    apply In_trie_root in Hi. apply walk_In in Hi. rewrite E in Hi. destruct Hi.
Qed.

(** * Expand search: the loops *)

Definition children (a : list byte) (nd : qnode) : list qnode :=
  flat_map (fun c => let n := step c (q_pos nd) in
                     if is_nil n then [] else [mkQ (q_key nd ++ [c]) n]) a.

Definition emits (a : list byte) (nd : qnode) : list (nat * nat) :=
  flat_map (fun c => match leaf (step c (q_pos nd)) with
                     | Some v => [(v, length (q_key nd ++ [c]))]
                     | None => []
                     end) a.

Lemma limit_hit_0 c : limit_hit 0 c = false.
Proof. reflexivity. Qed.

Lemma traverse_1 c nd :
  traverse [c] nd =
  let n := step c nd in
  if is_nil n then NoPath else match leaf n with Some v => Value v n | None => NoValue n end.
Proof. reflexivity. Qed.

Lemma scan_unlimited cs nd count :
  scan 0 cs nd count = (children cs nd, emits cs nd, count + length (emits cs nd), false).
Proof.
  revert count. induction cs as [|c cs IH]; intros count; cbn [scan children emits flat_map].
  - cbn. now rewrite Nat.add_0_r.
  - rewrite traverse_1. cbn zeta. fold (children cs nd). fold (emits cs nd).
    destruct (step c (q_pos nd)) as [|e n] eqn:E; cbn [is_nil].
    + cbn [leaf app]. apply IH.
    + destruct (leaf (e :: n)) as [v|] eqn:El.
      * rewrite limit_hit_0, IH. cbn [app length]. f_equal. f_equal. lia.
      * rewrite IH. reflexivity.
Qed.

Lemma limit_hit_budget c m : limit_hit (c + S m) (S c) = (m =? 0).
Proof.
  unfold limit_hit. rewrite Nat.add_succ_r. cbn [Nat.eqb negb andb Nat.leb].
  destruct m as [|m]; cbn [Nat.eqb]; [rewrite Nat.add_0_r; apply Nat.leb_refl|apply Nat.leb_gt; lia].
Qed.

Lemma scan_limited m cs nd count :
  if length (emits cs nd) <=? m
  then scan (count + S m) cs nd count = (children cs nd, emits cs nd, count + length (emits cs nd), false)
  else exists pushed, scan (count + S m) cs nd count = (pushed, firstn (S m) (emits cs nd), count + S m, true).
Proof.
  revert count m. induction cs as [|c cs IH]; intros count m; cbn [scan children emits flat_map].
  - cbn. now rewrite Nat.add_0_r.
  - rewrite traverse_1. cbn zeta. fold (children cs nd). fold (emits cs nd).
    destruct (step c (q_pos nd)) as [|e n] eqn:E; cbn [is_nil]; [cbn [leaf app]; apply IH|].
    destruct (leaf (e :: n)) as [v|] eqn:El; cbn [app length].
    + rewrite limit_hit_budget. destruct m as [|m]; cbn [Nat.eqb Nat.leb].
      * eexists. rewrite Nat.add_1_r. reflexivity.
      * specialize (IH (S count) m). rewrite (Nat.add_succ_comm count (S m)) in IH.
        destruct (length (emits cs nd) <=? m).
        -- rewrite IH. f_equal. f_equal. lia.
        -- destruct IH as (pushed & ->). eauto.
    + specialize (IH count m). destruct (length (emits cs nd) <=? m); [now rewrite IH|].
      destruct IH as (pushed & ->). eauto.
Qed.

Lemma bfs_unlimited_count f a q c c' : bfs f 0 a q c = bfs f 0 a q c'.
Proof.
  revert q c c'. induction f as [|f IH]; intros q c c'; cbn [bfs]; auto.
  destruct q as [|nd q]; auto. rewrite !scan_unlimited. cbn iota.
  now rewrite (IH _ (c + length (emits a nd)) (c' + length (emits a nd))).
Qed.

Lemma bfs_unlimited_step f a nd q c :
  bfs (S f) 0 a (nd :: q) c =
  let (r, ok) := bfs f 0 a (q ++ children a nd) 0 in (emits a nd ++ r, ok).
Proof.
  cbn [bfs]. rewrite scan_unlimited. cbn iota.
  now rewrite (bfs_unlimited_count f a _ (c + length (emits a nd)) 0).
Qed.

(** the limit only cuts the result: with room for [S m] more matches the limited loop returns the first
    [S m] matches of the unlimited one *)
Lemma bfs_limited f a m q c r :
  bfs f 0 a q 0 = (r, true) -> bfs f (c + S m) a q c = (firstn (S m) r, true).
Proof.
  revert q c m r. induction f as [|f IH]; intros q c m r; cbn [bfs].
  - now intros [= <- ->].
  - destruct q as [|nd q]; [now intros [= <-]|].
    rewrite scan_unlimited. cbn iota. rewrite (bfs_unlimited_count f a _ (0 + length (emits a nd)) 0).
    destruct (bfs f 0 a (q ++ children a nd) 0) as [r' ok] eqn:Eb. intros [= <- ->].
    pose proof (scan_limited m a nd c) as Hs. rewrite firstn_app.
    destruct (Nat.leb_spec (length (emits a nd)) m) as [Ef|Ef].
    + rewrite Hs. cbn iota. rewrite (firstn_all2 (emits a nd)) by lia.
      replace (c + S m) with (c + length (emits a nd) + S (m - length (emits a nd))) by lia.
      replace (S m - length (emits a nd)) with (S (m - length (emits a nd))) by lia.
      now rewrite (IH _ _ _ r' Eb).
    + destruct Hs as (pushed & ->). cbn iota. replace (S m - length (emits a nd)) with 0 by lia.
      now rewrite firstn_O, app_nil_r.
Qed.

Definition emitsQ (a : list byte) (q : list qnode) := flat_map (emits a) q.
Definition childrenQ (a : list byte) (q : list qnode) := flat_map (children a) q.

(** * Expand search: the weight of a queue bounds its length plus the weight of the next one *)

Definition tot (nd : node) : nat := fold_right (fun e a => length (fst e) + a) 0 nd.
Definition wt (nd : node) : nat := if is_nil nd then 0 else S (tot nd).
Definition potential (q : list qnode) : nat := fold_right (fun nd a => node_weight (q_pos nd) + a) 0 q.
Fixpoint sumf (f : byte -> nat) (a : list byte) : nat :=
  match a with [] => 0 | c :: a' => f c + sumf f a' end.

Lemma node_weight_tot nd : node_weight nd = S (tot nd).
Proof. reflexivity. Qed.

Lemma tot_app a b : tot (a ++ b) = tot a + tot b.
Proof. unfold tot. induction a as [|e a IH]; cbn; auto. rewrite IH. lia. Qed.

Lemma tot_le_wt nd : tot nd <= wt nd.
Proof. unfold wt. destruct nd; cbn; lia. Qed.

Lemma potential_app a b : potential (a ++ b) = potential a + potential b.
Proof. unfold potential. induction a as [|e a IH]; cbn [app fold_right]; auto. rewrite IH. lia. Qed.

Lemma sumf_le f g a : (forall c, f c <= g c) -> sumf f a <= sumf g a.
Proof. intro H. induction a as [|c a IH]; cbn; auto. specialize (H c). lia. Qed.

Lemma sumf_add f g a : sumf (fun c => f c + g c) a = sumf f a + sumf g a.
Proof. induction a as [|c a IH]; cbn; auto. rewrite IH. lia. Qed.

Lemma sumf_indicator c0 k a :
  NoDup a -> sumf (fun c => if byte_eqb c c0 then k else 0) a <= k.
Proof.
  induction 1 as [|c a Hn Hnd IH]; cbn; [lia|].
  destruct (byte_eqb c c0) eqn:E; [|lia].
  apply byte_eqb_eq in E. subst.
  assert (Hz : sumf (fun c => if byte_eqb c c0 then k else 0) a = 0).
  { clear IH Hnd. induction a as [|x a IH]; cbn; auto.
    destruct (byte_eqb x c0) eqn:E.
    - apply byte_eqb_eq in E. subst. exfalso. apply Hn. left. auto.
    - rewrite IH; auto. intro. apply Hn. right. auto. }
  rewrite Hz. lia.
Qed.

Lemma step_cons c e nd : step c (e :: nd) = step c [e] ++ step c nd.
Proof. change (e :: nd) with ([e] ++ nd). apply step_app. Qed.

Lemma children_sum a : NoDup a -> forall pos, sumf (fun c => wt (step c pos)) a <= tot pos.
Proof.
  intros Hnd pos. induction pos as [|[s v] pos IH].
  - clear Hnd. induction a as [|c a IHa]; cbn; auto.
  - destruct s as [|c0 s].
    + erewrite (sumf_le _ (fun c => wt (step c pos))); [cbn; exact IH|].
      intro c. rewrite step_cons. cbn. lia.
    + transitivity (sumf (fun c => (if byte_eqb c c0 then S (length s) else 0) + wt (step c pos)) a).
      * apply sumf_le. intro c. rewrite step_cons. cbn [step flat_map fst snd].
        destruct (byte_eqb c c0); cbn [app].
        -- unfold wt at 1. cbn [is_nil]. change (tot ((s, v) :: step c pos)) with (length s + tot (step c pos)).
           pose proof (tot_le_wt (step c pos)). lia.
        -- lia.
      * rewrite sumf_add. pose proof (sumf_indicator c0 (S (length s)) a Hnd).
        change (tot ((c0 :: s, v) :: pos)) with (S (length s) + tot pos). lia.
Qed.

Lemma children_potential a nd :
  potential (children a nd) = sumf (fun c => wt (step c (q_pos nd))) a.
Proof.
  unfold children. induction a as [|c a IH]; cbn [flat_map sumf]; auto.
  rewrite potential_app. rewrite IH. f_equal.
  cbn zeta. unfold wt. destruct (step c (q_pos nd)); cbn; auto.
Qed.

Lemma childrenQ_potential a q : NoDup a -> potential (childrenQ a q) + length q <= potential q.
Proof.
  intro Hnd. induction q as [|nd q IH]; cbn [childrenQ flat_map length potential fold_right]; [lia|].
  fold (childrenQ a q). fold (potential q). rewrite potential_app, children_potential, node_weight_tot.
  pose proof (children_sum a Hnd (q_pos nd)). lia.
Qed.

Lemma tot_In nd s v : In (s, v) nd -> length s <= tot nd.
Proof.
  unfold tot. induction nd as [|e nd IH]; cbn [In fold_right]; [tauto|].
  intros [->|H]; cbn [fst]; [lia|]. specialize (IH H). lia.
Qed.

(** * Expand search: queue = levels *)

Lemma bfs_queue a q : forall r f,
  length q <= f ->
  bfs f 0 a (q ++ r) 0 =
  let (res, ok) := bfs (f - length q) 0 a (r ++ childrenQ a q) 0 in (emitsQ a q ++ res, ok).
Proof.
  induction q as [|nd q IH]; intros r f Hf.
  - cbn [app length childrenQ emitsQ flat_map]. rewrite Nat.sub_0_r, app_nil_r.
    destruct (bfs f 0 a r 0); reflexivity.
  - destruct f as [|f]; [cbn in Hf; lia|]. cbn [app length] in *.
    rewrite bfs_unlimited_step. rewrite <- app_assoc.
    rewrite (IH (r ++ children a nd) f ltac:(lia)).
    cbn [Nat.sub childrenQ emitsQ flat_map]. rewrite <- app_assoc.
    fold (childrenQ a q). fold (emitsQ a q).
    destruct (bfs (f - length q) 0 a (r ++ children a nd ++ childrenQ a q) 0) as [res ok].
    now rewrite app_assoc.
Qed.

Fixpoint levels (a : list byte) (D : nat) (q : list qnode) : list (nat * nat) :=
  match D with
  | 0 => []
  | S D' => emitsQ a q ++ levels a D' (childrenQ a q)
  end.

Lemma levels_nil a D : levels a D [] = [].
Proof. induction D as [|D IH]; cbn; auto. Qed.

Lemma bfs_nil f a : bfs f 0 a [] 0 = ([], true).
Proof. destruct f; reflexivity. Qed.

(** with fuel for the weight of the queue the loop ends regularly and returns the levels: a whole queue is
    one level, and what it leaves behind weighs less by at least its length *)
Lemma bfs_levels a : NoDup a -> forall f q D,
  potential q <= f -> f <= D -> bfs f 0 a q 0 = (levels a D q, true).
Proof.
  intros Hnd f. induction f as [f IH] using lt_wf_ind. intros q D Hq HD.
  destruct q as [|nd q]; [now rewrite bfs_nil, levels_nil|].
  pose proof (childrenQ_potential a (nd :: q) Hnd) as Hc. cbn [length] in Hc.
  destruct D as [|D]; [lia|].
  pose proof (bfs_queue a (nd :: q) [] f ltac:(cbn [length]; lia)) as Hb. rewrite app_nil_r in Hb.
  rewrite Hb. cbn [app length levels]. now rewrite (IH (f - S (length q)) ltac:(lia) _ D) by lia.
Qed.

(** * Expand search: levels = words over the alphabet *)

Fixpoint words (a : list byte) (d : nat) : list bytes :=
  match d with
  | 0 => [[]]
  | S d' => flat_map (fun w => map (fun c => w ++ [c]) a) (words a d')
  end.

Definition frontier (a : list byte) (q0 : bytes) (n0 : node) (d : nat) : list qnode :=
  flat_map (fun w => let n := walk w n0 in if is_nil n then [] else [mkQ (q0 ++ w) n]) (words a d).

Definition level (a : list byte) (q0 : bytes) (n0 : node) (d : nat) : list (nat * nat) :=
  flat_map (fun w => match leaf (walk w n0) with Some v => [(v, length (q0 ++ w))] | None => [] end)
           (words a d).

Lemma walk_snoc w c nd : walk (w ++ [c]) nd = step c (walk w nd).
Proof. now rewrite walk_walk. Qed.

Lemma frontier_succ a q0 n0 d : childrenQ a (frontier a q0 n0 d) = frontier a q0 n0 (S d).
Proof.
  unfold childrenQ, frontier. cbn [words]. rewrite !flat_map_flat_map.
  apply flat_map_ext_in. intros w _. rewrite flat_map_map. cbn zeta.
  destruct (walk w n0) as [|e n] eqn:E; cbn [is_nil flat_map].
  - symmetry. apply flat_map_nil_all. intros c _. rewrite walk_snoc, E. reflexivity.
  - rewrite app_nil_r. unfold children. cbn [q_pos q_key]. apply flat_map_ext_in. intros c _.
    rewrite walk_snoc, E, app_assoc. reflexivity.
Qed.

Lemma frontier_emits a q0 n0 d : emitsQ a (frontier a q0 n0 d) = level a q0 n0 (S d).
Proof.
  unfold emitsQ, frontier, level. cbn [words]. rewrite !flat_map_flat_map.
  apply flat_map_ext_in. intros w _. rewrite flat_map_map. cbn zeta.
  destruct (walk w n0) as [|e n] eqn:E; cbn [is_nil flat_map].
  - symmetry. apply flat_map_nil_all. intros c _. rewrite walk_snoc, E. reflexivity.
  - rewrite app_nil_r. unfold emits. cbn [q_pos q_key]. apply flat_map_ext_in. intros c _.
    rewrite walk_snoc, E, app_assoc. reflexivity.
Qed.

Lemma levels_frontier a q0 n0 D : forall d,
  levels a D (frontier a q0 n0 d) = flat_map (level a q0 n0) (seq (S d) D).
Proof.
  induction D as [|D IH]; intros d; cbn [levels seq flat_map]; auto.
  now rewrite frontier_emits, frontier_succ, IH.
Qed.

Lemma frontier_0 a q0 n0 : n0 <> [] -> frontier a q0 n0 0 = [mkQ q0 n0].
Proof.
  intro H. unfold frontier. cbn. destruct n0; [congruence|]. cbn. now rewrite app_nil_r.
Qed.

Lemma level_nil a q0 d : level a q0 [] d = [].
Proof. apply flat_map_nil_all. intros w _. now rewrite walk_nil. Qed.

Lemma bfs_root a q0 n0 c : NoDup a -> n0 <> [] ->
  bfs (node_weight n0) 0 a [mkQ q0 n0] c = (flat_map (level a q0 n0) (seq 1 (node_weight n0)), true).
Proof.
  intros Hnd Hne. rewrite (bfs_unlimited_count _ _ _ c 0), <- (levels_frontier a q0 n0 _ 0), (frontier_0 a q0 n0 Hne).
  apply (bfs_levels a Hnd); [unfold potential; cbn [fold_right q_pos]; lia|lia].
Qed.

(** * The stored alphabet: strictly sorted as signed chars, exactly the bytes of the keys *)

Lemma N_of_byte_bound b : (N_of_byte b <= 255)%N.
Proof. unfold N_of_byte. apply Byte.to_N_bounded. Qed.

Lemma schar_inj a b : schar a = schar b -> a = b.
Proof.
  unfold schar. intro H. apply N_of_byte_inj.
  pose proof (N_of_byte_bound a). pose proof (N_of_byte_bound b).
  destruct (Z.of_N (N_of_byte a) <? 128)%Z eqn:Ea; destruct (Z.of_N (N_of_byte b) <? 128)%Z eqn:Eb;
    try apply Z.ltb_lt in Ea; try apply Z.ltb_ge in Ea; try apply Z.ltb_lt in Eb; try apply Z.ltb_ge in Eb; lia.
Qed.

Definition asorted (a : list byte) : Prop := StronglySorted Z.lt (map schar a).

Lemma alpha_insert_In c a x : In x (alpha_insert c a) <-> x = c \/ In x a.
Proof.
  induction a as [|c' a IH]; cbn.
  - split; [intros [<-|[]]; auto|intros [->|[]]; auto].
  - destruct (schar c <? schar c')%Z; cbn; [split; intros [H|H]; auto|].
    destruct (schar c =? schar c')%Z eqn:E; cbn.
    + apply Z.eqb_eq, schar_inj in E. subst. split; [auto|intros [->|H]; auto].
    + rewrite IH. split; [intros [H|[H|H]]; auto|intros [H|[H|H]]; auto].
Qed.

Lemma alpha_insert_sorted c a : asorted a -> asorted (alpha_insert c a).
Proof.
  unfold asorted. induction a as [|c' a IH]; cbn; intro H.
  - repeat constructor.
  - inversion H as [|x l Hs Hf]; subst.
    destruct (schar c <? schar c')%Z eqn:E1; cbn.
    + apply Z.ltb_lt in E1. constructor; auto. constructor; auto.
      rewrite Forall_forall in *. intros y Hy. specialize (Hf y Hy). lia.
    + destruct (schar c =? schar c')%Z eqn:E2; cbn; auto.
      apply Z.ltb_ge in E1. apply Z.eqb_neq in E2. constructor; auto.
      rewrite Forall_forall in *. intros y Hy. apply in_map_iff in Hy. destruct Hy as (z & <- & Hz).
      apply alpha_insert_In in Hz. destruct Hz as [->|Hz]; [lia|].
      apply Hf. now apply in_map.
Qed.

Lemma asorted_NoDup a : asorted a -> NoDup a.
Proof.
  unfold asorted. intro H. apply (NoDup_map_inv schar). revert H. apply StronglySorted_NoDup, Z.lt_irrefl.
Qed.

Lemma alpha_fold_In k a c : In c (fold_left (fun a c => alpha_insert c a) k a) <-> In c k \/ In c a.
Proof. revert a. induction k as [|x k IH]; intros a; cbn; [tauto|]. rewrite IH, alpha_insert_In. intuition congruence. Qed.

Lemma alphabet_of_concat keys : alphabet_of keys = fold_left (fun a c => alpha_insert c a) (concat keys) [].
Proof.
  unfold alphabet_of. generalize (@nil byte). induction keys as [|k keys IH]; intros a; cbn [fold_left concat]; auto.
  now rewrite fold_left_app, IH.
Qed.

Lemma alphabet_of_spec keys :
  asorted (alphabet_of keys) /\
  forall c, In c (alphabet_of keys) <-> exists k, In k keys /\ In c k.
Proof.
  rewrite alphabet_of_concat. split.
  - apply (fold_left_inv asorted); [constructor|]. intros a c _. apply alpha_insert_sorted.
  - intro c. rewrite alpha_fold_In, in_concat. cbn. tauto.
Qed.

Lemma words_length a d w : In w (words a d) -> length w = d.
Proof.
  revert w. induction d as [|d IH]; cbn; intros w H.
  - destruct H as [<-|[]]. reflexivity.
  - apply in_flat_map in H. destruct H as (w' & H1 & H2). apply in_map_iff in H2.
    destruct H2 as (c & <- & _). rewrite app_length, (IH _ H1). cbn. lia.
Qed.

Lemma words_complete a w : (forall c, In c w -> In c a) -> In w (words a (length w)).
Proof.
  induction w as [|c w IH] using rev_ind; intro H.
  - cbn. auto.
  - rewrite app_length. cbn [length]. rewrite Nat.add_1_r. cbn [words].
    apply in_flat_map. exists w. split.
    + apply IH. intros x Hx. apply H. apply in_or_app. auto.
    + apply (in_map (fun c => w ++ [c])). apply H. apply in_or_app. right. left. auto.
Qed.

(** * Expand search: the specification *)

(** the (id, length) of the query itself if it is a key, then for d = 1, 2, ..., D and
    for every word w of length d over the alphabet, in lexicographic order of the
    alphabet as stored, the (id, length) of query ++ w if that is a key *)
Definition expand_spec (keys : list bytes) (a : list byte) (q : bytes) (D : nat) : list (nat * nat) :=
  (match index_of q keys with Some v => [(v, length q)] | None => [] end) ++
  flat_map (fun d => flat_map (fun w => match index_of (q ++ w) keys with
                                        | Some v => [(v, length (q ++ w))]
                                        | None => []
                                        end) (words a d)) (seq 1 D).

Lemma level_root keys a q d :
  level a q (walk q (trie_root keys)) d =
  flat_map (fun w => match index_of (q ++ w) keys with
                     | Some v => [(v, length (q ++ w))]
                     | None => []
                     end) (words a d).
Proof.
  unfold level. apply flat_map_ext_in. intros w _. now rewrite <- walk_walk, leaf_walk_root.
Qed.

Section Proofs.
Variable fcred : Type.
Variable fcast : Z -> fcred.

Notation prism := (prism fcred).
Notation desc := (desc fcred).
Notation build := (build fcred fcast).
Notation desc_of := (desc_of fcred fcast).
Notation get_value := (get_value fcred).
Notation query_spelling := (query_spelling fcred fcast).
Notation common_prefix_search := (common_prefix_search fcred).
Notation expand_search := (expand_search fcred).
Notation compile := (compile fcred fcast).
Notation expand_search_fuel := (expand_search_fuel fcred).

Lemma get_value_index (p : prism) key : get_value p key = index_of key (p_keys _ p).
Proof. unfold PrismModel.get_value. apply leaf_walk_root. Qed.

Lemma map_find_index k (sc : script) :
  match map_find k sc with
  | Some l => exists i, index_of k (map fst sc) = Some i /\ nth_error sc i = Some (k, l)
  | None => index_of k (map fst sc) = None
  end.
Proof.
  induction sc as [|[k' v] sc IH]; cbn; auto.
  destruct (bytes_eqb k k') eqn:E.
  - apply bytes_eqb_eq in E. subst. exists 0. auto.
  - destruct (map_find k sc) as [l|].
    + destruct IH as (i & H1 & H2). exists (S i). rewrite H1. auto.
    + now rewrite IH.
Qed.

Lemma syll_to_id_spec syls s : In s syls -> nth_error syls (syll_to_id syls s) = Some s.
Proof.
  intro H. unfold syll_to_id. destruct (index_of_In s syls H) as (i & Hi). rewrite Hi.
  now apply index_of_nth.
Qed.

(** (d) for every spelling of the script, and for no other string, the prism returns
    the spelling's position in map order, and under that id exactly the script's list *)
Lemma prism_roundtrip syls (sc : script) :
  let p := build syls (Some sc) in
  (forall k l, map_find k sc = Some l -> l <> [] ->
     exists i, get_value p k = Some i /\ nth_error sc i = Some (k, l) /\
               query_spelling p i = map (desc_of syls) l) /\
  (forall k, map_find k sc = None -> get_value p k = None).
Proof.
  cbn. split.
  - intros k l Hf Hl. rewrite get_value_index. cbn.
    pose proof (map_find_index k sc) as H. rewrite Hf in H. destruct H as (i & H1 & H2).
    exists i. repeat split; auto.
    unfold PrismModel.query_spelling. cbn. rewrite nth_error_map, H2. cbn.
    destruct l; [congruence|reflexivity].
  - intros k Hf. rewrite get_value_index. cbn.
    pose proof (map_find_index k sc) as H. now rewrite Hf in H.
Qed.

Lemma prism_roundtrip_null syls :
  let p := build syls None in
  (forall s i, nth_error syls i = Some s -> NoDup syls ->
     get_value p s = Some i /\ query_spelling p i = [mkDesc _ i kNormalSpelling (fcast 0) []]) /\
  (forall s, ~ In s syls -> get_value p s = None).
Proof.
  cbn. split.
  - intros s i Hn Hnd. rewrite get_value_index. cbn. split; [now apply index_of_NoDup|reflexivity].
  - intros s Hn. rewrite get_value_index. cbn. now apply index_of_None.
Qed.

(** the same, for the prism compiled from a syllabary and a rule list: every
    descriptor read back names a syllable of the syllabary by its rank, with the
    script's type, credibility (through the cast) and tips *)
Definition desc_matches (syls : list bytes) (d : desc) (x : spelling) : Prop :=
  nth_error syls (d_syll _ d) = Some (sstr x) /\ d_type _ d = ptype (sprops x) /\
  d_cred _ d = fcast (pcred (sprops x)) /\ d_tips _ d = ptips (sprops x).

Lemma prism_roundtrip_compiled syls calcs sc :
  (forall s, In s syls -> s <> []) ->
  compile_script syls calcs = Some sc ->
  let p := compile syls calcs in
  (forall k l, map_find k sc = Some l ->
     exists i, get_value p k = Some i /\ nth_error sc i = Some (k, l) /\
               Forall2 (desc_matches syls) (query_spelling p i) l) /\
  (forall k, map_find k sc = None -> get_value p k = None).
Proof.
  intros Hne Hc. unfold PrismModel.compile. rewrite Hc.
  destruct (compile_script_some _ _ _ Hc) as (Hsc & _ & _).
  destruct (prism_roundtrip syls sc) as [R1 R2]. cbn zeta. split; [|exact R2].
  intros k l Hf. subst sc.
  destruct (denotes_some_syllable syls calcs k l Hne Hf) as (_ & Hl & Hin).
  destruct (R1 k l Hf Hl) as (i & H1 & H2 & H3). exists i. repeat split; auto.
  rewrite H3. clear H3 Hl Hf H2. induction l as [|x l IH]; cbn; constructor.
  - unfold desc_matches. cbn. repeat split; auto. apply syll_to_id_spec. apply Hin. left. auto.
  - apply IH. intros y Hy. apply Hin. right. auto.
Qed.

(** the specification: (id, length) of every non-empty prefix of the query that is a
    key, shortest first *)
Definition cps_spec (keys : list bytes) (q : bytes) : list (nat * nat) :=
  flat_map (fun m => match index_of (firstn m q) keys with Some v => [(v, m)] | None => [] end)
           (seq 1 (length q)).

Lemma cps_from_spec s nd i :
  cps_from s nd i =
  flat_map (fun m => match leaf (walk (firstn m s) nd) with Some v => [(v, i + m)] | None => [] end)
           (seq 1 (length s)).
Proof.
  revert nd i. induction s as [|c s IH]; intros nd i; cbn [cps_from length seq flat_map]; auto.
  cbn [firstn walk]. rewrite <- seq_shift, flat_map_map.
  destruct (step c nd) as [|e n'] eqn:E; cbn [is_nil].
  - cbn [leaf app]. symmetry. apply flat_map_nil_all. intros m _. cbn [firstn walk].
    now rewrite E, walk_nil.
  - rewrite IH. replace (i + 1) with (S i) by lia. f_equal.
    apply flat_map_ext_in. intros m _. cbn [firstn walk]. rewrite E.
    replace (S i + m) with (i + S m) by lia. reflexivity.
Qed.

(** (e) common-prefix search agrees with the key set *)
Lemma common_prefix_exact (p : prism) q :
  common_prefix_search p q = cps_spec (p_keys _ p) q.
Proof.
  unfold PrismModel.common_prefix_search, cps_spec. rewrite cps_from_spec.
  apply flat_map_ext_in. intros m _. now rewrite leaf_walk_root.
Qed.

Lemma cps_spec_In keys q v m :
  NoDup keys ->
  (In (v, m) (cps_spec keys q) <-> 1 <= m <= length q /\ nth_error keys v = Some (firstn m q)).
Proof.
  intro Hnd. unfold cps_spec. rewrite in_flat_map. split.
  - intros (m' & Hm & H). apply in_seq in Hm. apply In_hit in H. destruct H as [Hi ->].
    split; [lia|now apply index_of_nth].
  - intros [Hm Hn]. exists m. split; [apply in_seq; lia|]. apply In_hit. split; [now apply index_of_NoDup|reflexivity].
Qed.

(** (e) without a limit, the coded loop never runs out of fuel when the alphabet has no duplicates, and
    returns exactly [expand_spec] *)
Lemma expand_unlimited (p : prism) q :
  NoDup (p_alphabet _ p) ->
  expand_search_fuel p q 0 =
  (expand_spec (p_keys _ p) (p_alphabet _ p) q (node_weight (walk q (trie_root (p_keys _ p)))), true).
Proof.
  intro Hnd. unfold PrismModel.expand_search_fuel, traverse, expand_spec.
  rewrite <- (leaf_walk_root q (p_keys _ p)).
  rewrite (flat_map_ext_in _ (level (p_alphabet _ p) q (walk q (trie_root (p_keys _ p)))) (seq 1 _))
    by (intros d _; symmetry; apply level_root).
  destruct (walk q (trie_root (p_keys _ p))) as [|e n1]; cbn [is_nil].
  - cbn [leaf app]. f_equal. symmetry. apply flat_map_nil_all. intros d _. apply level_nil.
  - destruct (leaf (e :: n1)); rewrite bfs_root by first [exact Hnd|discriminate]; reflexivity.
Qed.

(** (e) with a limit L > 0, expand search returns the first L matches of the unlimited search *)
Lemma expand_limited (p : prism) q L r :
  expand_search_fuel p q 0 = (r, true) ->
  expand_search_fuel p q (S L) = (firstn (S L) r, true).
Proof.
  unfold PrismModel.expand_search_fuel, traverse.
  destruct (walk q (trie_root (p_keys _ p))) as [|e n1] eqn:E0; cbn [is_nil]; [now intros [= <-]|].
  rewrite <- E0. set (n0 := walk q (trie_root (p_keys _ p))).
  destruct (leaf n0) as [v|]; [|apply (bfs_limited _ _ L _ 0)].
  rewrite limit_hit_0, (bfs_unlimited_count _ _ _ 1 0).
  destruct (bfs (node_weight n0) 0 (p_alphabet _ p) [mkQ q n0] 0) as [r' ok] eqn:Eb.
  intros [= <- ->]. rewrite (limit_hit_budget 0 L : limit_hit (S L) 1 = (L =? 0)).
  destruct L as [|L]; cbn [Nat.eqb firstn]; [reflexivity|]. now rewrite (bfs_limited _ _ L _ 1 r' Eb : bfs _ (S (S L)) _ _ 1 = _).
Qed.

Lemma expand_spec_In keys q D v n :
  NoDup keys -> node_weight (walk q (trie_root keys)) <= D ->
  (In (v, n) (expand_spec keys (alphabet_of keys) q D) <->
   exists w, nth_error keys v = Some (q ++ w) /\ n = length (q ++ w)).
Proof.
  intros Hnd HD. unfold expand_spec. rewrite in_app_iff, In_hit. split.
  - intros [[Hi ->]|H].
    + exists []. rewrite app_nil_r. split; [now apply index_of_nth|reflexivity].
    + apply in_flat_map in H. destruct H as (d & _ & H). apply in_flat_map in H. destruct H as (w & _ & H).
      apply In_hit in H. destruct H as [Hi ->]. exists w. split; [now apply index_of_nth|reflexivity].
  - intros (w & Hn & ->). pose proof (index_of_NoDup _ _ _ Hnd Hn) as Hi.
    destruct w as [|c w]; [left; rewrite app_nil_r in *; auto|].
    right. apply in_flat_map. exists (length (c :: w)). split.
    + assert (Hin : In (c :: w, v) (walk q (trie_root keys))) by now apply walk_In, In_trie_root.
      apply tot_In in Hin. rewrite node_weight_tot in HD. apply in_seq. cbn [length] in *. lia.
    + apply in_flat_map. exists (c :: w). split; [|apply In_hit; auto].
      apply words_complete. intros x Hx. apply (proj2 (alphabet_of_spec keys)).
      exists (q ++ c :: w). split; [eapply nth_error_In; eauto|]. apply in_or_app. auto.
Qed.

(** * The prism as built *)

Definition wf_prism (p : prism) : Prop := p_alphabet _ p = alphabet_of (p_keys _ p).

Lemma build_wf syls sc : wf_prism (build syls sc).
Proof. destruct sc; reflexivity. Qed.

Lemma wf_alphabet_NoDup (p : prism) : wf_prism p -> NoDup (p_alphabet _ p).
Proof. intros ->. apply asorted_NoDup, alphabet_of_spec. Qed.

(** (e) expand search, any limit: the coded loop never runs out of fuel and returns the
    specified list, cut at the limit (0 = no limit) *)
Lemma expand_exact (p : prism) q L :
  wf_prism p ->
  expand_search_fuel p q L =
  (let all := expand_spec (p_keys _ p) (p_alphabet _ p) q
                          (node_weight (walk q (trie_root (p_keys _ p)))) in
   if L =? 0 then all else firstn L all, true).
Proof.
  intro Hwf. pose proof (expand_unlimited p q (wf_alphabet_NoDup p Hwf)) as E0.
  destruct L as [|L]; cbn [Nat.eqb]; [exact E0|now apply expand_limited].
Qed.

Lemma expand_members (p : prism) q v n :
  wf_prism p -> NoDup (p_keys _ p) ->
  (In (v, n) (expand_search p q 0) <->
   exists w, nth_error (p_keys _ p) v = Some (q ++ w) /\ n = length (q ++ w)).
Proof.
  intros Hwf Hnd. unfold PrismModel.expand_search. rewrite (expand_exact p q 0 Hwf). cbn [fst Nat.eqb].
  rewrite Hwf. apply expand_spec_In; auto.
Qed.

End Proofs.

(** * Non-vacuity: the prism of the example table of Dict/AlgebraProofs.v *)

Module PrismExample.
  Import AlgebraProofs.Example.
  Definition p := compile Z (fun c => c) syls rules.

  Lemma keys_value : p_keys _ p = [[b_]; ba; [p_]; pa].
  Proof. vm_compute. reflexivity. Qed.

  Lemma expand_b : expand_search_fuel _ p [b_] 0 = ([(0, 1); (1, 2)], true).
  Proof. vm_compute. reflexivity. Qed.
End PrismExample.
