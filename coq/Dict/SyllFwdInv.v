(** C08 - the inductive invariant of the queue loop of BuildSyllableGraph and
    its consequences at termination (including that the fuel suffices). *)
From Coq Require Import List Arith Bool Lia.
From RimeV Require Import Dict.Syll Dict.SyllBase Dict.SyllSpec Dict.SyllForward.
Import ListNotations.

(** witness that position [p] can be typed [t]: a path from 0 whose vertices
    have types <= t and whose edges carry a syllable of type <= t *)
Inductive wit (vs : vmap) (es : emap) : nat -> nat -> Prop :=
| wit_start t : wit vs es 0 t
| wit_edge s ts e t sid pr :
    vtype vs s ts -> ts <= t -> wit vs es s ts ->
    edge_at es s e sid pr -> p_type pr <= t -> wit vs es e t.

Lemma wit_mono vs es vs' es' p t :
  (forall p t, vtype vs p t -> vtype vs' p t) ->
  (forall s e sid pr, edge_at es s e sid pr -> edge_at es' s e sid pr) ->
  wit vs es p t -> wit vs' es' p t.
Proof.
  intros Hv He W. induction W; [constructor|]. eapply wit_edge; eauto.
Qed.

Lemma wit_weaken vs es p t t' : wit vs es p t -> t <= t' -> wit vs es p t'.
Proof.
  intros W L. destruct W; [constructor|]. eapply wit_edge; eauto; lia.
Qed.

Lemma visited_set vs c t p : visited (nm_set c t vs) p <-> p = c \/ visited vs p.
Proof.
  unfold visited. setoid_rewrite nm_find_set. destruct (c =? p) eqn:E.
  - apply Nat.eqb_eq in E. split; [now left|eauto].
  - apply Nat.eqb_neq in E. split; [now right|]. intros [C|H]; [congruence|exact H].
Qed.

Lemma vtype_set vs c t p t' :
  vtype (nm_set c t vs) p t' <-> (p = c /\ t' = t) \/ (p <> c /\ vtype vs p t').
Proof.
  unfold vtype. rewrite nm_find_set. destruct (Nat.eqb_spec c p); intuition congruence.
Qed.

Section FwdInv.
  Variable P : prism.
  Variable delims : list sym.
  Variable strict : bool.
  Variable inp : str.
  Hypothesis WF : prism_wf P delims.

  Notation n := (length inp).
  Notation skip := (SyllSpec.skip delims inp).
  Notation match_at := (match_at P inp).
  Notation adm := (adm strict inp).
  Notation tile := (tile P delims strict inp).
  Notation step := (step P delims strict inp).
  Notation tilable := (tilable P delims strict inp).
  Notation spell := (spell strict inp).
  Notation fstep := (forward_step P delims strict inp).
  Notation floop := (forward_loop P delims strict inp).

  Definition maps_sorted (es : emap) : Prop :=
    nm_sorted es /\
    forall s ev, nm_find s es = Some ev ->
      nm_sorted ev /\ forall e sm, nm_find e ev = Some sm -> nm_sorted sm.

  Lemma maps_sorted_set1 (es : emap) i (ev : evmap) :
    maps_sorted es -> nm_sorted ev -> (forall e sm, nm_find e ev = Some sm -> nm_sorted sm) ->
    maps_sorted (nm_set i ev es).
  Proof.
    intros (S1 & S2) S3 S4. split; [now apply nm_sorted_set|].
    intros s ev' F. rewrite nm_find_set in F. destruct (i =? s); [inversion F; subst; tauto|eauto].
  Qed.

  (** The queue is popped in (position, type) order and every push is beyond
      the popped position, so no queued position lies before a visited one
      ([fi_mono]) and a position is final when first popped: its row holds
      exactly its spelled matches ([fi_e_sound], [fi_e_compl]) and their ends
      are visited or queued ([fi_closed]).  A vertex type is attained by a path
      from 0 ([wit]); that it is the least such is kept for type 0 only
      ([fi_norm1]), which is all the theorems need. *)
  Record FI (st : fstate) : Prop := mkFI {
    fi_q_til : forall p t, In (p, t) (f_queue st) -> tilable p;
    fi_v_til : forall p, visited (f_vertices st) p -> tilable p /\ p <= f_far st;
    fi_far : f_far st = 0 \/ visited (f_vertices st) (f_far st);
    fi_start : vtype (f_vertices st) 0 0 \/
               (~ visited (f_vertices st) 0 /\ In (0, 0) (f_queue st));
    fi_e_sound : forall s ev, nm_find s (f_edges st) = Some ev ->
        visited (f_vertices st) s /\
        forall e sm, nm_find e ev = Some sm ->
          exists l ds, match_at s l ds /\ e = skip (s + l) /\ sm = fst (spell s e ds) /\ sm <> [];
    fi_e_compl : forall s l ds, visited (f_vertices st) s -> match_at s l ds ->
        fst (spell s (skip (s + l)) ds) <> [] ->
        exists ev, nm_find s (f_edges st) = Some ev /\
                   nm_find (skip (s + l)) ev = Some (fst (spell s (skip (s + l)) ds));
    fi_closed : forall s e, visited (f_vertices st) s -> step s e ->
        visited (f_vertices st) e \/ exists t, In (e, t) (f_queue st);
    fi_mono : forall v p t, visited (f_vertices st) v -> In (p, t) (f_queue st) -> v <= p;
    fi_sorted : q_sorted (f_queue st);
    fi_wit_q : forall p t, In (p, t) (f_queue st) -> wit (f_vertices st) (f_edges st) p t;
    fi_wit_v : forall p t, vtype (f_vertices st) p t -> wit (f_vertices st) (f_edges st) p t;
    fi_norm1 : forall s e d, vtype (f_vertices st) s 0 -> tile s e d -> d_type d = 0 ->
        vtype (f_vertices st) e 0 \/ (~ visited (f_vertices st) e /\ In (e, 0) (f_queue st));
    fi_norm2 : forall e t t', vtype (f_vertices st) e t -> In (e, t') (f_queue st) -> t <= t';
    fi_maps : nm_sorted (f_vertices st) /\ maps_sorted (f_edges st)
  }.

  Lemma FI_init : FI forward_init.
  Proof.
    constructor; cbn.
    - intros p t [H|[]]. inversion H. constructor.
    - intros p [t H]. discriminate.
    - now left.
    - right. split; [intros [t H]; discriminate|now left].
    - discriminate.
    - intros s l ds [t H]. discriminate.
    - intros s e [t H]. discriminate.
    - intros v p t [t' H]. discriminate.
    - constructor; constructor.
    - intros p t [H|[]]. inversion H. constructor.
    - intros p t H. discriminate.
    - intros s e d H. discriminate.
    - intros e t t' H. discriminate.
    - split; [apply nm_sorted_nil|]. split; [apply nm_sorted_nil|]. discriminate.
  Qed.

  Lemma FI_no_row st cur :
    FI st -> nm_find cur (f_vertices st) = None -> nm_find cur (f_edges st) = None.
  Proof.
    intros I Hv. destruct (nm_find cur (f_edges st)) as [ev|] eqn:F; [|reflexivity].
    destruct (fi_e_sound st I cur ev F) as [[t Ht] _]. congruence.
  Qed.

  Lemma adm_normal p e d : d_type d = 0 -> adm p e d = true.
  Proof.
    intro H. unfold SyllSpec.adm. rewrite H. cbn. now rewrite andb_false_r.
  Qed.

  Lemma spell_evt p e l ds :
    match_at p l ds -> fst (spell p e ds) <> [] ->
    exists sid pr, nm_find sid (fst (spell p e ds)) = Some pr /\ p_type pr <= snd (spell p e ds).
  Proof.
    intros M Hne. destruct (spell_ok strict inp p e ds) as (_ & _ & I3 & I4 & _).
    apply spell_nonempty in Hne as (d0 & Hd0 & A0).
    destruct I4 as [I4|(d & Hd & A & T)].
    - (* the initial kInvalidSpelling survives only if no admissible stored type is below it: [prism_wf] *)
      specialize (I3 d0 Hd0 A0). pose proof (match_types P delims inp WF p l ds d0 M Hd0).
      unfold kInvalidSpelling, kAbbreviation in *. lia.
    - destruct (spell_carries strict inp p e ds d Hd A) as (pr & Hp & L). exists (d_sid d), pr.
      rewrite <- T. now split.
  Qed.

  Lemma edge_at_set_other es cur ev s e sid pr :
    nm_find cur es = None -> edge_at es s e sid pr -> edge_at (nm_set cur ev es) s e sid pr.
  Proof.
    intros Hn (ev0 & sm & H1 & H2 & H3). exists ev0, sm. repeat split; try assumption.
    rewrite nm_find_set_neq; [exact H1|]. intro C. subst. congruence.
  Qed.

  Lemma FI_skip st cur vt q told :
    FI st -> f_queue st = (cur, vt) :: q -> nm_find cur (f_vertices st) = Some told ->
    FI (mkF (f_vertices st) (f_edges st) q (f_far st)).
  Proof.
    intros I Hq Hv. destruct I as [Qtil Vtil Far Start Esound Ecompl Closed Mono Qsorted WitQ WitV Norm1 Norm2 Maps].
    rewrite Hq in *. constructor; cbn [f_vertices f_edges f_queue f_far].
    - intros p t H. eapply Qtil. right; eauto.
    - assumption.
    - assumption.
    - destruct Start as [H|[H1 [H2|H2]]]; [now left| |right; tauto].
      inversion H2; subst. exfalso. apply H1. now exists told.
    - assumption.
    - assumption.
    - intros s e Hs He. destruct (Closed s e Hs He) as [H|[t [H|H]]]; [now left| |right; eauto].
      inversion H; subst. left. now exists told.
    - intros v p t Hv' H. eapply Mono; eauto. right; eauto.
    - eapply q_sorted_tail; eauto.
    - intros p t H. apply WitQ. now right.
    - assumption.
    - intros s e d Hs Ht Hd. destruct (Norm1 s e d Hs Ht Hd) as [H|[H1 [H2|H2]]]; [now left| |right; tauto].
      inversion H2; subst. exfalso. apply H1. now exists told.
    - intros e t t' He H. eapply Norm2; eauto. now right.
    - assumption.
  Qed.

  (** *** the visit branch: [cur] is popped unvisited, [r] is what the loop over
      its matches leaves, and [es'] is the edge map with [fst r] as the row of
      [cur] (no entry at all when no key matched: hence [find_or_empty]) *)
  Section Visit.
    Variables (st : fstate) (cur vt : nat) (q : list vertex) (es' : emap) (r : evmap * list vertex).
    Hypothesis I : FI st.
    Hypothesis Hq : f_queue st = (cur, vt) :: q.
    Hypothesis Hv : nm_find cur (f_vertices st) = None.
    Hypothesis PM : pm_inv delims strict inp cur vt q (match_at cur) r.
    Hypothesis Eoff : forall s, s <> cur -> nm_find s es' = nm_find s (f_edges st).
    Hypothesis Erow : find_or_empty cur es' = fst r.
    Hypothesis Emaps : maps_sorted es'.
    Notation vs := (f_vertices st).
    Notation es := (f_edges st).
    Notation vs' := (nm_set cur vt (f_vertices st)).

    Lemma visit_head p t : In (p, t) q -> cur < p \/ (cur = p /\ vt <= t).
    Proof.
      intro H. pose proof (fi_sorted st I) as S. rewrite Hq in S.
      exact (proj1 (vle_spec (cur, vt) (p, t)) (q_sorted_head _ _ _ S H)).
    Qed.

    Lemma visit_old_le v : visited vs v -> v <= cur.
    Proof. intro H. apply (fi_mono st I v cur vt H). rewrite Hq. now left. Qed.

    Lemma visit_queue p t : In (p, t) (snd r) ->
      In (p, t) q \/
      exists l ds, match_at cur l ds /\ fst (spell cur p ds) <> [] /\
                   p = skip (cur + l) /\ cur < p /\ t = Nat.max (snd (spell cur p ds)) vt.
    Proof.
      intro H. destruct PM as (_ & _ & J3 & _). apply J3 in H as [H|(l & ds & M & Hne & E)]; [now left|right].
      injection E as -> ->. exists l, ds. pose proof (match_advances P delims inp cur l ds M). tauto.
    Qed.

    Lemma visit_row_eq ev : nm_find cur es' = Some ev -> ev = fst r.
    Proof. intro F. now rewrite <- Erow, (find_or_empty_some _ _ _ F). Qed.

    Lemma visit_row l ds : match_at cur l ds -> fst (spell cur (skip (cur + l)) ds) <> [] ->
      exists ev, nm_find cur es' = Some ev /\
                 nm_find (skip (cur + l)) ev = Some (fst (spell cur (skip (cur + l)) ds)).
    Proof.
      intros M Hne. destruct PM as (_ & J2 & _). specialize (J2 l ds M Hne). revert J2.
      rewrite <- Erow. apply find_or_empty_ind; [discriminate|]. intros ev F J2. now exists ev.
    Qed.

    Lemma visit_row_old s ev : nm_find s es = Some ev -> nm_find s es' = Some ev.
    Proof.
      intro F. rewrite Eoff; [exact F|]. intros ->. rewrite (FI_no_row st cur I Hv) in F. discriminate.
    Qed.

    Lemma visit_vtype_old p t : vtype vs p t -> vtype vs' p t.
    Proof.
      intro H. apply vtype_set. right. split; [|exact H]. intros ->. unfold vtype in H. congruence.
    Qed.

    Lemma visit_wit p t : wit vs es p t -> wit vs' es' p t.
    Proof.
      apply wit_mono; [exact visit_vtype_old|]. intros s e sid pr (ev & sm & F & R).
      exists ev, sm. split; [now apply visit_row_old|exact R].
    Qed.

    Lemma visit_pend e :
      vtype vs e 0 \/ (~ visited vs e /\ In (e, 0) (f_queue st)) ->
      vtype vs' e 0 \/ (~ visited vs' e /\ In (e, 0) (snd r)).
    Proof.
      rewrite Hq. intros [H|[H1 [H2|H2]]]; [left; now apply visit_vtype_old| |].
      - injection H2 as <- E. left. rewrite E. apply nm_find_set_eq.
      - destruct (Nat.eq_dec e cur) as [->|Ne].
        + left. destruct (visit_head _ _ H2) as [L|[_ L]]; [lia|]. replace vt with 0 by lia. apply nm_find_set_eq.
        + right. split; [rewrite visited_set; tauto|]. destruct PM as (_ & _ & J3 & _). apply J3. now left.
    Qed.

    Lemma FI_visit : FI (mkF vs' es' (snd r) (Nat.max (f_far st) cur)).
    Proof.
      destruct PM as (J1 & J2 & J3 & J4 & J5).
      pose proof I as [Qtil Vtil Far Start Esound Ecompl Closed Mono Qsorted WitQ WitV Norm1 Norm2 Maps].
      assert (Hcur_til : tilable cur) by (apply (Qtil cur vt); rewrite Hq; now left).
      constructor; cbn [f_vertices f_edges f_queue f_far].
      - (* queue entries are tilable *)
        intros p t H. apply visit_queue in H as [H|(l & ds & M & Hne & -> & _)].
        + apply (Qtil p t). rewrite Hq. now right.
        + econstructor; [exact Hcur_til|]. apply step_spell. now exists l, ds.
      - (* visited are tilable and below far *)
        intros p Hp. apply visited_set in Hp as [->|Hp]; [split; [exact Hcur_til|lia]|].
        destruct (Vtil p Hp) as [T L]. split; [exact T|lia].
      - (* far is visited: it is cur, or was visited, or cur = far = 0 *)
        right. apply visited_set. destruct (Nat.max_spec_le (f_far st) cur) as [[_ ->]|[L ->]]; [now left|].
        destruct Far as [H0|H0]; [left; lia|now right].
      - (* the start vertex *)
        exact (visit_pend 0 Start).
      - (* recorded edges are sound *)
        intros s ev F. destruct (Nat.eq_dec s cur) as [->|Ns].
        + rewrite (visit_row_eq ev F). split; [apply visited_set; now left|exact J1].
        + rewrite Eoff in F by exact Ns. destruct (Esound s ev F) as [Hs R].
          split; [apply visited_set; now right|exact R].
      - (* and complete *)
        intros s l ds Hs M Hne. apply visited_set in Hs as [->|Hs]; [now apply visit_row|].
        destruct (Ecompl s l ds Hs M Hne) as (ev & F1 & F2). exists ev. split; [now apply visit_row_old|exact F2].
      - (* closure under steps *)
        intros s e Hs He. apply visited_set in Hs as [->|Hs].
        + right. apply step_spell in He as (l & ds & M & -> & Hne). eexists. apply J3. right. exists l, ds.
          split; [exact M|]. split; [exact Hne|reflexivity].
        + destruct (Closed s e Hs He) as [H|[t H]]; [left; apply visited_set; now right|].
          rewrite Hq in H. destruct H as [H|H].
          * injection H as <- _. left. apply visited_set. now left.
          * right. exists t. apply J3. now left.
      - (* visited positions precede queued ones *)
        intros v p t Hvv H.
        assert (Lv : v <= cur) by (apply visited_set in Hvv as [->|Hvv]; [lia|now apply visit_old_le]).
        apply visit_queue in H as [H|(l & ds & _ & _ & _ & G & _)]; [|lia]. destruct (visit_head _ _ H); lia.
      - (* queue order *)
        rewrite Hq in Qsorted. exact (J4 (q_sorted_tail _ _ Qsorted)).
      - (* witnesses for queue entries *)
        intros p t H. apply visit_queue in H as [H|(l & ds & M & Hne & -> & _ & ->)].
        + apply visit_wit, WitQ. rewrite Hq. now right.
        + destruct (spell_evt cur (skip (cur + l)) l ds M Hne) as (sid & pr & Hf & Hle).
          destruct (visit_row l ds M Hne) as (ev & F1 & F2).
          apply (wit_edge vs' es' cur vt _ _ sid pr); [apply nm_find_set_eq|lia| | |lia].
          * apply visit_wit, WitQ. rewrite Hq. now left.
          * now exists ev, (fst (spell cur (skip (cur + l)) ds)).
      - (* witnesses for vertices *)
        intros p t H. apply visit_wit. apply vtype_set in H as [[-> ->]|[_ H]]; [|now apply WitV].
        apply WitQ. rewrite Hq. now left.
      - (* normal tiles out of normal vertices *)
        intros s e d Hs Ht Hd. apply vtype_set in Hs as [[-> E0]|[_ Hs]]; [|now apply visit_pend, (Norm1 s e d)].
        right. destruct Ht as (l & ds & M & -> & Hin & A).
        assert (Hne : fst (spell cur (skip (cur + l)) ds) <> []) by (apply spell_nonempty; now exists d).
        pose proof (match_advances P delims inp cur l ds M) as G. split.
        + rewrite visited_set. intros [C|C]; [|apply visit_old_le in C]; lia.
        + apply J3. right. exists l, ds. split; [exact M|]. split; [exact Hne|]. unfold pushed.
          destruct (spell_ok strict inp cur (skip (cur + l)) ds) as (_ & _ & I3 & _). specialize (I3 d Hin A).
          f_equal. lia.
      - (* visited types are minimal among pending entries *)
        intros e t t' He H. apply visit_queue in H as [H|(l & ds & _ & _ & _ & G & _)].
        + apply vtype_set in He as [[-> ->]|[_ He]]; [destruct (visit_head _ _ H); lia|].
          apply (Norm2 e t t' He). rewrite Hq. now right.
        + apply vtype_set in He as [[C _]|[_ He]]; [lia|].
          assert (e <= cur) by (apply visit_old_le; now exists t). lia.
      - (* map order *)
        split; [apply nm_sorted_set, Maps|exact Emaps].
    Qed.
  End Visit.

  Lemma FI_step st st' : FI st -> fstep st = Some st' -> FI st'.
  Proof.
    intros I H. unfold forward_step in H.
    destruct (f_queue st) as [|[cur vt] q] eqn:Hq; [discriminate|].
    destruct (nm_find cur (f_vertices st)) as [told|] eqn:Hv.
    - inversion H; subst st'. eapply FI_skip; eauto.
    - pose proof (FI_no_row st cur I Hv) as Hes_none.
      pose proof (process_matches_inv P delims strict inp WF cur vt q) as PM.
      rewrite (find_or_empty_none _ _ Hes_none) in H.
      replace (if f_far st <? cur then cur else f_far st) with (Nat.max (f_far st) cur) in H
        by (destruct (Nat.ltb_spec (f_far st) cur); lia).
      destruct (common_prefix_search P (skipn cur inp)) as [|m0 ms0]; injection H as <-.
      + apply (FI_visit st cur vt q (f_edges st) ([], q) I Hq Hv PM); [reflexivity| |apply (fi_maps st I)].
        now apply find_or_empty_none.
      + apply (FI_visit st cur vt q _ _ I Hq Hv PM).
        * intros s Ns. apply nm_find_set_neq. congruence.
        * apply find_or_empty_some, nm_find_set_eq.
        * destruct PM as (J1 & _ & _ & _ & J5). apply maps_sorted_set1; [apply (fi_maps st I)|exact J5|].
          intros e sm Fe. destruct (J1 e sm Fe) as (l & ds & _ & _ & -> & _). apply spell_ok.
  Qed.

  Definition measure (st : fstate) : nat :=
    length (f_queue st) + S n * (S n - length (f_vertices st)).

  Lemma FI_vertices_bound st : FI st -> length (f_vertices st) <= S n.
  Proof.
    intro I. rewrite <- (map_length fst). apply sorted_length_bound; [apply (fi_maps st I)|].
    apply Forall_forall. intros p Hp. apply nm_keys_find in Hp. apply (fi_v_til st I) in Hp as [T _].
    apply (tilable_le P delims strict inp) in T. lia.
  Qed.

  Lemma step_measure st st' : FI st -> fstep st = Some st' -> measure st' + 1 <= measure st.
  Proof.
    intros I H. pose proof (FI_vertices_bound st' (FI_step st st' I H)) as B. unfold forward_step in H.
    destruct (f_queue st) as [|[cur vt] q] eqn:Hq; [discriminate|].
    destruct (nm_find cur (f_vertices st)) as [told|] eqn:Hv.
    - inversion H; subst st'. unfold measure. cbn [f_queue f_vertices]. rewrite Hq. cbn [length]. lia.
    - (* a visit: one more vertex, at most n entries join the queue *)
      assert (Hst' : f_vertices st' = nm_set cur vt (f_vertices st) /\ length (f_queue st') <= length q + n).
      { pose proof (process_matches_length delims strict inp cur vt (common_prefix_search P (skipn cur inp))
                      (find_or_empty cur (f_edges st), q)) as Lq.
        pose proof (cps_length P (skipn cur inp)) as Lms. rewrite skipn_length in Lms. cbn [snd] in Lq.
        destruct (common_prefix_search P (skipn cur inp)); injection H as <-; cbn [f_queue f_vertices fold_left length] in *;
          (split; [reflexivity|lia]). }
      unfold measure. destruct Hst' as [E Lq]. rewrite E, (nm_set_length_new _ _ _ Hv) in *.
      rewrite Hq. cbn [length]. replace (S n - length (f_vertices st)) with (S (S n - S (length (f_vertices st)))) by lia.
      rewrite Nat.mul_succ_r. lia.
  Qed.

  Lemma loop_terminates fuel st :
    FI st -> measure st < fuel ->
    exists st', floop fuel st = Some st' /\ FI st' /\ f_queue st' = [].
  Proof.
    revert st. induction fuel as [|fuel IH]; intros st I L; [lia|].
    cbn [forward_loop]. destruct (fstep st) as [st1|] eqn:E.
    - apply IH; [eapply FI_step; eauto|]. pose proof (step_measure st st1 I E). lia.
    - exists st. split; [reflexivity|split; [assumption|]].
      unfold forward_step in E. destruct (f_queue st) as [|[cur vt] q]; [reflexivity|].
      destruct (nm_find cur (f_vertices st)); [discriminate|].
      destruct (common_prefix_search P (skipn cur inp)); discriminate.
  Qed.

  Lemma forward_terminates :
    exists st, floop (build_fuel inp) forward_init = Some st /\ FI st /\ f_queue st = [].
  Proof.
    apply loop_terminates; [apply FI_init|].
    unfold measure, build_fuel, forward_init. cbn [f_queue f_vertices length]. lia.
  Qed.

  Section Final.
    Variable st : fstate.
    Hypothesis I : FI st.
    Hypothesis Hq : f_queue st = [].

    Lemma final_start : vtype (f_vertices st) 0 0.
    Proof. destruct (fi_start st I) as [H|[_ H]]; [exact H|]. rewrite Hq in H. destruct H. Qed.

    Lemma final_visited p : tilable p <-> visited (f_vertices st) p.
    Proof.
      split.
      - induction 1 as [|p e _ IH S].
        + exists 0. apply final_start.
        + destruct (fi_closed st I p e IH S) as [H|[t H]]; [exact H|]. rewrite Hq in H. destruct H.
      - intro H. now apply (fi_v_til st I).
    Qed.

    Lemma final_far : tilable (f_far st) /\ forall p, tilable p -> p <= f_far st.
    Proof.
      split.
      - destruct (fi_far st I) as [->|H]; [constructor|]. now apply final_visited.
      - intros p H. apply final_visited in H. now apply (fi_v_til st I).
    Qed.

    Lemma final_far_visited : visited (f_vertices st) (f_far st).
    Proof. apply final_visited. apply final_far. Qed.

    Lemma final_normal_tile a b d :
      vtype (f_vertices st) a 0 -> tile a b d -> d_type d = 0 -> vtype (f_vertices st) b 0.
    Proof.
      intros Ha T Hd. destruct (fi_norm1 st I a b d Ha T Hd) as [H|[_ H]]; [exact H|].
      rewrite Hq in H. destruct H.
    Qed.

    Lemma final_normal a b l :
      tiling P delims strict inp a b l -> vtype (f_vertices st) a 0 ->
      Forall (fun x => d_type (snd x) = 0) l -> vtype (f_vertices st) b 0.
    Proof.
      induction 1 as [a|a b c d l T _ IH]; intros Ha Hn; [exact Ha|].
      inversion Hn as [|? ? Hd Hn']; subst. apply IH; [|exact Hn']. now apply (final_normal_tile a b d).
    Qed.
  End Final.
End FwdInv.
