(** C08 - the theorems about BuildSyllableGraph (model: Dict/Syll.v), assembled
    from the forward invariant (SyllFwdInv), the backward invariant
    (SyllBackward), and the completion / Transpose lemmas proved here. *)
From Coq Require Import List Arith Bool NArith Lia.
From RimeV Require Import Base.ListX Dict.Syll Dict.SyllBase Dict.SyllSpec Dict.SyllForward
     Dict.SyllFwdInv Dict.SyllBackward.
Import ListNotations.

Lemma build_empty_input P delims c s : build_syllable_graph P delims c s [] = Some empty_graph.
Proof. reflexivity. Qed.

Definition pick (sid : nat) (esm : nat * smap) : list props :=
  match nm_find sid (snd esm) with Some pr => [pr] | None => [] end.

Lemma index_add_fold sid (sm : smap) (idx : sindex) :
  NoDup (map fst sm) ->
  nm_find sid (fold_left index_add sm idx) =
  match nm_find sid sm with
  | Some pr => Some (match nm_find sid idx with Some l => l ++ [pr] | None => [pr] end)
  | None => nm_find sid idx
  end.
Proof.
  revert idx. induction sm as [|[k v] r IH]; intros idx ND; cbn [fold_left nm_find]; [reflexivity|].
  inversion ND as [|? ? Hn ND']; subst. rewrite IH by assumption. unfold index_add. cbn [fst snd].
  destruct (k =? sid) eqn:E.
  - apply Nat.eqb_eq in E. subst k. now rewrite (nm_find_fresh sid r Hn), nm_find_set_eq.
  - apply Nat.eqb_neq in E. rewrite !nm_find_set_neq by assumption. reflexivity.
Qed.

Lemma transpose_fold sid (l : list (nat * smap)) (idx : sindex) :
  (forall esm, In esm l -> NoDup (map fst (snd esm))) ->
  nm_find sid (fold_left (fun idx (e : nat * smap) => fold_left index_add (snd e) idx) l idx) =
  match flat_map (pick sid) l, nm_find sid idx with
  | [], o => o
  | x, Some l0 => Some (l0 ++ x)
  | x, None => Some x
  end.
Proof.
  revert idx. induction l as [|[e sm] r IH]; intros idx ND; cbn [fold_left flat_map].
  - destruct (nm_find sid idx); reflexivity.
  - rewrite IH by (intros; apply ND; now right).
    rewrite index_add_fold by (apply (ND (e, sm)); now left). cbn [snd].
    unfold pick at 2. cbn [snd].
    destruct (nm_find sid sm) as [pr|]; cbn [app].
    + destruct (flat_map (pick sid) r) as [|y ys]; destruct (nm_find sid idx); cbn; try reflexivity;
        now rewrite <- app_assoc.
    + reflexivity.
Qed.

Lemma transpose_start_sorted (ev : evmap) (idx : sindex) :
  nm_sorted idx -> nm_sorted (transpose_start idx ev).
Proof.
  intro S. unfold transpose_start. apply fold_left_inv; [exact S|]. intros idx1 esm _ S1.
  apply fold_left_inv; [exact S1|]. intros idx2 kv _ S2. now apply nm_sorted_set.
Qed.

Lemma transpose_find (es : emap) s :
  nm_sorted es ->
  nm_find s (transpose es) = option_map (transpose_start []) (nm_find s es).
Proof.
  intro S. revert s. unfold transpose.
  apply (fold_left_prefix_inv
           (fun (pre : emap) (ind : sindices) =>
              forall s, nm_find s ind = option_map (transpose_start []) (nm_find s pre))); [reflexivity|].
  intros pre [k ev] post ind E Hpre s. cbn [fst snd].
  (* [k] is new, so [transpose_start] begins its row from the empty index *)
  assert (Hk : nm_find k pre = None).
  { apply nm_find_fresh. apply nm_sorted_nodup in S. rewrite E, map_app in S. apply NoDup_remove_2 in S.
    intro C. apply S, in_app_iff. now left. }
  rewrite nm_find_set, nm_find_app. cbn [nm_find]. destruct (k =? s) eqn:Eks.
  - apply Nat.eqb_eq in Eks. subst s. rewrite Hk, find_or_empty_none; [reflexivity|]. now rewrite Hpre, Hk.
  - rewrite Hpre. now destruct (nm_find s pre).
Qed.

Theorem transpose_spec (es : emap) s sid :
  maps_sorted es -> index_at (transpose es) s sid = transposed es s sid.
Proof.
  intro S. unfold index_at, transposed. rewrite transpose_find by apply S.
  destruct (nm_find s es) as [ev|] eqn:F; cbn [option_map]; [|reflexivity].
  unfold transpose_start. rewrite transpose_fold.
  - cbn [nm_find]. fold (pick sid). destruct (flat_map (pick sid) (rev ev)); reflexivity.
  - intros [e sm] Hin. apply in_rev in Hin. cbn [snd]. apply nm_sorted_nodup.
    destruct S as (_ & S). destruct (S s ev F) as [Sev Ssm]. apply (Ssm e). now apply nm_sorted_In_find.
Qed.

Lemma transposed_members (es : emap) s sid :
  maps_sorted es ->
  match transposed es s sid with
  | Some l => l <> [] /\ forall pr, In pr l <-> exists e, edge_at es s e sid pr
  | None => forall e pr, ~ edge_at es s e sid pr
  end.
Proof.
  intros (_ & S). unfold transposed. fold (pick sid).
  destruct (nm_find s es) as [ev|] eqn:F; [|intros e pr (ev & sm & H & _); congruence].
  destruct (S s ev F) as [Sev _].
  assert (M : forall pr, In pr (flat_map (pick sid) (rev ev)) <-> exists e, edge_at es s e sid pr).
  { intro pr. rewrite in_flat_map. split.
    - intros ([e sm] & Hin & Hp). apply in_rev in Hin. unfold pick in Hp. cbn [snd] in Hp.
      destruct (nm_find sid sm) as [pr'|] eqn:Fs; [|destruct Hp]. destruct Hp as [<-|[]].
      exists e, ev, sm. repeat split; try assumption. now apply nm_sorted_In_find.
    - intros (e & ev' & sm & F1 & F2 & F3). rewrite F in F1. inversion F1; subst ev'.
      exists (e, sm). split; [apply in_rev; rewrite rev_involutive; now apply nm_find_In|].
      unfold pick. cbn [snd]. rewrite F3. now left. }
  destruct (flat_map (pick sid) (rev ev)) as [|x l]; [|split; [discriminate|exact M]].
  intros e pr H. apply (M pr). now exists e.
Qed.

(** ** completion (lines 190-231) *)
Section Completion.
  Variable P : prism.
  Variable inp : str.
  Variable far : nat.
  Notation n := (length inp).

  Definition comp_entry (sid : nat) (pr : props) : Prop :=
    exists k ds d, In (k, ds) P /\ is_prefix (skipn far inp) k = true /\ In d ds /\ d_sid d = sid /\
                   d_type d < kAbbreviation /\ pr = mkProps kCompletion n (mkCred (d_cred d) 1 0).

  (** map::insert keeps the first: the completion entry of [d] goes in
      unless its syllable is present *)
  Lemma add_completion_find sp d sid :
    nm_find sid (add_completion n sp d) =
    match nm_find sid sp with
    | Some pr => Some pr
    | None => if (d_type d <? kAbbreviation) && (d_sid d =? sid)
              then Some (mkProps kCompletion n (mkCred (d_cred d) 1 0)) else None
    end.
  Proof.
    unfold add_completion. destruct (d_type d <? kAbbreviation); cbn [andb]; [|now destruct (nm_find sid sp)].
    destruct (nm_find (d_sid d) sp) eqn:F; [|rewrite nm_find_set];
      (destruct (d_sid d =? sid) eqn:E; [|now destruct (nm_find sid sp)]);
      apply Nat.eqb_eq in E; subst sid; now rewrite F.
  Qed.

  Lemma add_completion_sorted sp d : nm_sorted sp -> nm_sorted (add_completion n sp d).
  Proof.
    intro S. unfold add_completion. destruct (d_type d <? kAbbreviation); [|exact S].
    destruct (nm_find (d_sid d) sp); [exact S|now apply nm_sorted_set].
  Qed.

  Definition comp_fold (keys : list pmatch) (sp0 : smap) : smap :=
    fold_left (fun sp (m : pmatch) =>
                 if fst m <? n - far then sp else fold_left (add_completion n) (snd m) sp) keys sp0.

  Lemma comp_fold_ind (I : smap -> Prop) keys sp0 :
    I sp0 ->
    (forall sp l ds d, In (l, ds) keys -> In d ds -> I sp -> I (add_completion n sp d)) ->
    I (comp_fold keys sp0).
  Proof.
    intros H0 Hs. unfold comp_fold. apply fold_left_inv; [exact H0|].
    intros sp [l ds] Hm Hsp. cbn [fst snd]. destruct (l <? n - far); [exact Hsp|].
    apply fold_left_inv; [exact Hsp|]. intros sp' d Hd. now apply (Hs sp' l ds d).
  Qed.

  Lemma comp_fold_keeps keys sp sid pr :
    nm_find sid sp = Some pr -> nm_find sid (comp_fold keys sp) = Some pr.
  Proof.
    intro H. apply comp_fold_ind; [exact H|]. intros sp' l ds d _ _ H'.
    now rewrite add_completion_find, H'.
  Qed.

  Lemma comp_fold_sorted keys sp : nm_sorted sp -> nm_sorted (comp_fold keys sp).
  Proof. intro S. apply comp_fold_ind; [exact S|]. intros. now apply add_completion_sorted. Qed.

  Lemma comp_fold_sound limit sp0 sid pr :
    nm_find sid (comp_fold (expand_search P (skipn far inp) limit) sp0) = Some pr ->
    nm_find sid sp0 = Some pr \/ comp_entry sid pr.
  Proof.
    revert sid pr. apply comp_fold_ind; [now left|].
    intros sp l ds d Hm Hd Hsp sid pr H. rewrite add_completion_find in H.
    destruct (nm_find sid sp) eqn:F; [apply Hsp; congruence|].
    destruct (d_type d <? kAbbreviation) eqn:T; [|discriminate].
    destruct (d_sid d =? sid) eqn:E; [|discriminate]. cbn in H. inversion H.
    apply Nat.ltb_lt in T. apply Nat.eqb_eq in E.
    apply expand_search_In in Hm as (k & Hin & Hp & _). right. now exists k, ds, d.
  Qed.

  Lemma comp_fold_has keys sp l ds d :
    In (l, ds) keys -> n - far <= l -> In d ds -> d_type d < kAbbreviation ->
    exists pr, nm_find (d_sid d) (comp_fold keys sp) = Some pr.
  Proof.
    intros Hin Ll Hd T. set (Q := fun a : smap => exists pr, nm_find (d_sid d) a = Some pr).
    assert (Hadd : forall a y, Q a -> Q (add_completion n a y)).
    { intros a y [pr H]. exists pr. now rewrite add_completion_find, H. }
    unfold comp_fold. apply (fold_left_reach _ Q _ _ (l, ds) Hin).
    - intro a. cbn [fst snd]. destruct (l <? n - far) eqn:E; [apply Nat.ltb_lt in E; lia|].
      apply (fold_left_reach _ Q _ _ d Hd); [|exact Hadd].
      intro b. unfold Q. rewrite add_completion_find. destruct (nm_find (d_sid d) b); [eauto|].
      apply Nat.ltb_lt in T. rewrite T, Nat.eqb_refl. cbn. eauto.
    - intros a y H. destruct (fst y <? n - far); [exact H|].
      apply fold_left_inv; [exact H|]. intros; now apply Hadd.
  Qed.
End Completion.

Section CompletionSpec.
  Variable P : prism.
  Variable comp : bool.
  Variable inp : str.
  Variable es : emap.
  Variable far : nat.
  Notation n := (length inp).
  Let c := completion P comp inp es far.
  Let keys := expand_search P (skipn far inp) kExpandSearchLimit.
  Let sp := comp_fold inp far keys (find_or_empty n (find_or_empty far es)).

  Let tried : bool := comp && (far <? n) && match keys with [] => false | _ :: _ => true end.

  Lemma completion_eq :
    c = if tried then
          match sp with
          | [] => (nm_set far (nm_erase n (find_or_empty far es)) es, far)
          | _ :: _ => (nm_set far (nm_set n sp (find_or_empty far es)) es, n)
          end
        else (es, far).
  Proof.
    unfold c, completion, tried, sp, keys, comp_fold.
    destruct (comp && (far <? n)); [|reflexivity].
    destruct (expand_search P (skipn far inp) kExpandSearchLimit); reflexivity.
  Qed.

  Lemma tried_true : tried = true -> comp = true /\ far < n /\ keys <> [].
  Proof.
    unfold tried. intro H. apply andb_true_iff in H as [H H3]. apply andb_true_iff in H as [H1 H2].
    apply Nat.ltb_lt in H2. repeat split; try assumption. intro C. now rewrite C in H3.
  Qed.

  Lemma completion_find2 s e :
    find2 (fst c) s e = if tried && (far =? s) && (n =? e) then nonempty sp else find2 es s e.
  Proof.
    rewrite completion_eq. destruct tried; [|reflexivity]. cbn [andb].
    destruct sp; cbn [fst nonempty]; rewrite find2_set; (destruct (far =? s) eqn:E; [|reflexivity]);
      apply Nat.eqb_eq in E; subst s; cbn [andb].
    - rewrite nm_find_erase. destruct (n =? e); [reflexivity|apply find2_find_or_empty].
    - rewrite nm_find_set. destruct (n =? e); [reflexivity|apply find2_find_or_empty].
  Qed.

  Lemma completion_snd : snd c = if tried then match sp with [] => far | _ :: _ => n end else far.
  Proof. rewrite completion_eq. destruct tried; [|reflexivity]. now destruct sp. Qed.

  Lemma sp_old sid pr :
    nm_find sid (find_or_empty n (find_or_empty far es)) = Some pr <-> edge_at es far n sid pr.
  Proof.
    rewrite edge_at_find2. unfold find_or_empty at 1. rewrite find2_find_or_empty.
    destruct (find2 es far n) as [sm|]; split; [eauto|now intros (x & [= <-] & H)|discriminate|now intros (x & [=] & _)].
  Qed.

  Lemma completion_keeps s e sid pr : edge_at es s e sid pr -> edge_at (fst c) s e sid pr.
  Proof.
    intro H. pose proof H as (sm & F2 & Hp)%edge_at_find2. apply edge_at_find2. rewrite completion_find2.
    destruct (tried && (far =? s) && (n =? e)) eqn:T; [|eauto].
    apply andb_true_iff in T as [T E2]. apply andb_true_iff in T as [_ E1].
    apply Nat.eqb_eq in E1, E2. subst s e.
    assert (Hsp : nm_find sid sp = Some pr) by (apply comp_fold_keeps; now apply sp_old).
    exists sp. split; [|exact Hsp]. now destruct sp.
  Qed.

  Lemma completion_sound s e sid pr :
    edge_at (fst c) s e sid pr ->
    edge_at es s e sid pr \/
    (comp = true /\ far < n /\ snd c = n /\ s = far /\ e = n /\ comp_entry P inp far sid pr).
  Proof.
    intros (sm & F2 & Hp)%edge_at_find2. rewrite completion_find2 in F2.
    destruct (tried && (far =? s) && (n =? e)) eqn:T; [|left; apply edge_at_find2; eauto].
    apply andb_true_iff in T as [T E2]. apply andb_true_iff in T as [T E1].
    apply Nat.eqb_eq in E1, E2. subst s e. apply nonempty_some in F2 as [-> Hne].
    destruct (comp_fold_sound P inp far _ _ sid pr Hp) as [Hold|Hnew]; [left; now apply sp_old|right].
    destruct (tried_true T) as (Hc & Hf & _). repeat split; try assumption.
    rewrite completion_snd, T. now destruct sp.
  Qed.

  Lemma completion_length :
    snd c = far \/
    (comp = true /\ far < n /\ snd c = n /\ has_edge (fst c) far n /\
     exists k ds, In (k, ds) P /\ is_prefix (skipn far inp) k = true).
  Proof.
    rewrite completion_snd. destruct tried eqn:T; [|now left].
    destruct sp as [|a r] eqn:Esp; [now left|right].
    destruct (tried_true T) as (Hc & Hf & Hk). repeat split; try assumption.
    - destruct (nm_nonempty_find sp) as (sid & pr & Hsp); [now rewrite Esp|].
      exists sid, pr. apply edge_at_find2. exists sp. split; [|exact Hsp].
      now rewrite completion_find2, T, !Nat.eqb_refl, Esp.
    - destruct keys as [|[l ds] r'] eqn:Ex; [congruence|].
      assert (Hin : In (l, ds) keys) by (rewrite Ex; now left).
      apply expand_search_In in Hin as (k & Hin & Hp & _). now exists k, ds.
  Qed.

  Lemma completion_happens l ds d :
    comp = true -> far < n -> In (l, ds) keys -> In d ds -> d_type d < kAbbreviation -> snd c = n.
  Proof.
    intros Hc Hf Hin Hd T. rewrite completion_snd.
    assert (Ht : tried = true).
    { unfold tried. apply Nat.ltb_lt in Hf. rewrite Hc, Hf. now destruct keys. }
    assert (Ll : n - far <= l).
    { apply expand_search_In in Hin as (k & _ & Hp & ->). apply is_prefix_spec in Hp as [x ->].
      rewrite app_length, skipn_length. lia. }
    destruct (comp_fold_has inp far keys (find_or_empty n (find_or_empty far es)) l ds d Hin Ll Hd T) as [pr Hp].
    rewrite Ht. fold sp in Hp. now destruct sp.
  Qed.

  Lemma completion_sorted : maps_sorted es -> maps_sorted (fst c).
  Proof.
    intro S. destruct (find_or_empty_sorted es far S) as [Sev Ssm].
    rewrite completion_eq. destruct tried; [|exact S]. destruct sp eqn:Esp; cbn [fst].
    - apply maps_sorted_set1; [exact S|now apply nm_sorted_erase|].
      intros e sm Fe. rewrite nm_find_erase in Fe. destruct (n =? e); [discriminate|eauto].
    - rewrite <- Esp. apply maps_sorted_set1; [exact S|now apply nm_sorted_set|].
      intros e sm Fe. rewrite nm_find_set in Fe. destruct (n =? e); [|eauto]. inversion Fe; subst sm.
      apply comp_fold_sorted. apply find_or_empty_ind; [apply nm_sorted_nil|apply Ssm].
  Qed.
End CompletionSpec.

Lemma gpath_trans g a b c : gpath g a b -> gpath g b c -> gpath g a c.
Proof. induction 1; intro H2; [exact H2|]. eapply gpath_step; eauto. Qed.

Section Main.
  Variable P : prism.
  Variable delims : list sym.
  Variable comp : bool.
  Variable strict : bool.
  Variable inp : str.
  Hypothesis WF : prism_wf P delims.

  Notation n := (length inp).
  Notation skip := (SyllSpec.skip delims inp).
  Notation match_at := (match_at P inp).
  Notation adm := (adm strict inp).
  Notation tile := (tile P delims strict inp).
  Notation step := (step P delims strict inp).
  Notation tilable := (tilable P delims strict inp).
  Notation tiling := (tiling P delims strict inp).
  Notation spell := (spell strict inp).
  Notation FI := (FI P delims strict inp).

  Definition lt_of (vs : vmap) (far : nat) : nat :=
    Nat.max (match nm_find far vs with Some t => t | None => kNormalSpelling end) kFuzzySpelling.

  Lemma backward_unfold vs es far :
    backward vs es far =
    fst (fold_left (prune_vertex (lt_of vs far)) (rev (seq 0 far)) ((vs, es), [far])).
  Proof. reflexivity. Qed.

  (** everything known about one run on a non-empty input *)
  Record run (st : fstate) (vsb : vmap) (esb : emap) (good : list nat) (g : graph) : Prop := mkRun {
    r_fi : FI st;
    r_q : f_queue st = [];
    r_far : forward_farthest P delims strict inp = Some (f_far st);
    r_bi : BI (f_vertices st) (f_edges st) (f_far st) (lt_of (f_vertices st) (f_far st)) 0
              ((vsb, esb), good);
    r_g : g = mkGraph n (snd (completion P comp inp esb (f_far st))) vsb
                      (fst (completion P comp inp esb (f_far st)))
                      (transpose (fst (completion P comp inp esb (f_far st))))
  }.

  Lemma fwd_edge_facts st : FI st -> f_queue st = [] ->
    forall s e sm, find2 (f_edges st) s e = Some sm ->
      s < e <= f_far st /\
      exists l ds, match_at s l ds /\ e = skip (s + l) /\ sm = fst (spell s e ds).
  Proof.
    intros I Hq s e sm F2. unfold find2 in F2. destruct (nm_find s (f_edges st)) as [ev|] eqn:Fs; [|discriminate].
    destruct (fi_e_sound _ _ _ _ st I s ev Fs) as [Hv R]. destruct (R e sm F2) as (l & ds & M & E & Hsm & Hne).
    assert (Hstep : step s e). { apply step_spell. exists l, ds. subst sm. tauto. }
    assert (Hte : tilable e). { econstructor; [|exact Hstep]. now apply (fi_v_til _ _ _ _ st I). }
    destruct (final_far P delims strict inp st I Hq) as [_ Hmax].
    destruct Hstep as (d & T). apply (tile_bounds P delims strict inp) in T.
    split; [split; [tauto|now apply Hmax]|]. now exists l, ds.
  Qed.

  Lemma fwd_gwf st : FI st -> gwf (f_vertices st, f_edges st).
  Proof.
    intro I. destruct (fi_maps _ _ _ _ st I) as [Sv Se]. split; [|split; [exact Se|exact Sv]].
    intros s ev F. now destruct (fi_e_sound _ _ _ _ st I s ev F) as [V _].
  Qed.

  Lemma build_run :
    inp <> [] -> exists st vsb esb good g,
      build_syllable_graph P delims comp strict inp = Some g /\ run st vsb esb good g.
  Proof.
    intro Hne. destruct (forward_terminates P delims strict inp WF) as (st & Hloop & I & Hq).
    set (lt := lt_of (f_vertices st) (f_far st)).
    pose proof (backward_BI (f_vertices st) (f_edges st) (f_far st) lt (fwd_gwf st I)
                  (fun s e sm F2 => proj1 (fwd_edge_facts st I Hq s e sm F2))) as B.
    destruct (fold_left (prune_vertex lt) (rev (seq 0 (f_far st))) ((f_vertices st, f_edges st), [f_far st]))
      as [[vsb esb] good] eqn:Eb.
    exists st, vsb, esb, good. eexists. split.
    - unfold build_syllable_graph, build_with_fuel. destruct inp as [|a r]; [congruence|].
      rewrite Hloop. rewrite backward_unfold. fold lt. rewrite Eb. cbn [fst snd]. reflexivity.
    - econstructor; try eassumption; try reflexivity.
      unfold forward_farthest. now rewrite Hloop.
  Qed.

  Section WithRun.
    Variables (st : fstate) (vsb : vmap) (esb : emap) (good : list nat) (g : graph).
    Hypothesis R : run st vsb esb good g.

    Let vs0 := f_vertices st.
    Let es0 := f_edges st.
    Let F := f_far st.
    Let lt := lt_of vs0 F.
    Let I := r_fi _ _ _ _ _ R.
    Let Hq := r_q _ _ _ _ _ R.
    Notation Good := (Good vs0 es0 F lt).

    Lemma run_edges : g_edges g = fst (completion P comp inp esb F).
    Proof. rewrite (r_g _ _ _ _ _ R). reflexivity. Qed.
    Lemma run_vertices : g_vertices g = vsb.
    Proof. rewrite (r_g _ _ _ _ _ R). reflexivity. Qed.
    Lemma run_interp : g_interpreted_length g = snd (completion P comp inp esb F).
    Proof. rewrite (r_g _ _ _ _ _ R). reflexivity. Qed.

    Lemma bi_final :
      (forall v, F <= v -> fresh vs0 es0 v vsb esb) /\
      (forall v, v < F -> settled vs0 es0 F lt v vsb esb) /\ gwf (vsb, esb).
    Proof.
      destruct (proj1 (BI_pointwise _ _ _ _ _ _ _ _) (r_bi _ _ _ _ _ R)) as (_ & Bf & Bs & W).
      split; [intros v L; apply Bf; now right|]. split; [intros v L; apply Bs; [lia|exact L]|exact W].
    Qed.

    Lemma es0_sorted s e sm : find2 es0 s e = Some sm -> nm_sorted sm.
    Proof. apply find2_sorted. apply (fi_maps _ _ _ _ st I). Qed.

    Lemma far_visited : exists tF, nm_find F vs0 = Some tF /\ tF <= lt.
    Proof.
      destruct (final_far_visited P delims strict inp st I Hq) as [tF HF]. exists tF. split; [exact HF|].
      unfold lt, lt_of, vs0, F. rewrite HF. lia.
    Qed.

    Lemma lt_fuzzy : kFuzzySpelling <= lt.
    Proof. unfold lt, lt_of. lia. Qed.

    Lemma retained_good v t : nm_find v vsb = Some t -> Good v.
    Proof.
      destruct bi_final as (Bf & Bs & _). intro H.
      destruct (Nat.lt_ge_cases v F) as [L|L]; [now destruct (proj1 (Bs v L) t H)|].
      destruct (Bf v L) as [E _]. rewrite E in H.
      assert (v <= F). { apply (fi_v_til _ _ _ _ st I). now exists t. }
      assert (v = F) by lia. subst v. constructor.
    Qed.

    Lemma good_retained v : Good v -> exists t, nm_find v vsb = Some t.
    Proof.
      destruct bi_final as (Bf & Bs & _). intro G.
      destruct (Nat.lt_ge_cases v F) as [L|L]; [now apply (Bs v L)|].
      pose proof (Good_le _ _ _ _ v G). assert (v = F) by lia. subst v.
      destruct (Bf F L) as [E _]. rewrite E. destruct far_visited as (tF & HtF & _). eauto.
    Qed.

    Lemma esb_edge s e sid pr :
      edge_at esb s e sid pr ->
      s < F /\ Good s /\ Good e /\
      exists pr0, edge_at es0 s e sid pr0 /\ shape_eq pr0 pr /\ p_type pr0 <= lt.
    Proof.
      destruct bi_final as (Bf & Bs & _). intros (ev & sm & H1 & H2 & H3).
      destruct (Nat.lt_ge_cases s F) as [L|L].
      - destruct (Bs s L) as (_ & _ & Srow & _). destruct (Srow ev H1) as [Gs Rr].
        destruct (Rr e sm H2) as (Ge & _ & sm0 & F0 & Eq).
        split; [exact L|]. split; [exact Gs|]. split; [exact Ge|].
        destruct (orel_some_r _ (Eq sid) H3) as (pr0 & Hp0 & Sh).
        apply tfilter_entry in Hp0 as [Hp0 T]; [|now apply (es0_sorted s e)].
        exists pr0. split; [apply edge_at_find2; eauto|]. split; [exact Sh|exact T].
      - exfalso. destruct (orel_some_r _ (proj2 (Bf s L)) H1) as (ev0 & F0 & Eq).
        destruct (orel_some_r _ (Eq e) H2) as (sm0 & Fe0 & _).
        assert (F2 : find2 es0 s e = Some sm0) by (unfold find2, es0 in *; now rewrite F0).
        destruct (fwd_edge_facts st I Hq s e sm0 F2) as (A & _). unfold F in *. lia.
    Qed.

    Lemma fwd_edge_filtered s e sid pr0 :
      edge_at es0 s e sid pr0 -> p_type pr0 <= lt ->
      s < e <= F /\ exists sm0, find2 es0 s e = Some sm0 /\ nm_find sid (tfilter lt sm0) = Some pr0.
    Proof.
      intros (sm0 & F0 & Hp0)%edge_at_find2 T. split; [apply (fwd_edge_facts st I Hq s e sm0 F0)|].
      exists sm0. split; [exact F0|]. apply tfilter_entry; [now apply (es0_sorted s e)|now split].
    Qed.

    Lemma good_back s ts e sid pr0 :
      nm_find s vs0 = Some ts -> ts <= lt -> Good e -> edge_at es0 s e sid pr0 -> p_type pr0 <= lt -> Good s.
    Proof.
      intros Hs Ts Ge He T. destruct (fwd_edge_filtered s e sid pr0 He T) as (A & sm0 & F0 & Hf).
      apply (Good_step vs0 es0 F lt s ts e sm0); try assumption; [lia|]. exact (nm_find_nonempty _ _ _ Hf).
    Qed.

    Lemma kept_edge s e sid pr0 :
      Good s -> Good e -> edge_at es0 s e sid pr0 -> p_type pr0 <= lt ->
      exists pr, edge_at (g_edges g) s e sid pr /\ shape_eq pr0 pr.
    Proof.
      destruct bi_final as (_ & Bs & _).
      intros Gs Ge He T. destruct (fwd_edge_filtered s e sid pr0 He T) as (A & sm0 & F0 & Hf).
      destruct (Bs s ltac:(lia)) as (_ & _ & _ & Sedge).
      destruct (Sedge e sm0 Gs Ge F0 (nm_find_nonempty _ _ _ Hf)) as (sm & F2 & Eq).
      destruct (orel_some_l _ (Eq sid) Hf) as (pr & Hp & Sh).
      exists pr. split; [|exact Sh]. rewrite run_edges. apply completion_keeps, edge_at_find2. now exists sm.
    Qed.

    Lemma good_hop s e sid pr0 :
      Good s -> Good e -> edge_at es0 s e sid pr0 -> p_type pr0 <= lt -> gpath g s e.
    Proof.
      intros Gs Ge He T. destruct (kept_edge s e sid pr0 Gs Ge He T) as (pr & He' & _).
      apply (gpath_step g s e e); [exists sid, pr; exact He'| |constructor].
      left. rewrite run_vertices. now apply good_retained.
    Qed.

    Notation normal_edge := (normal_edge P delims strict inp).
    Notation completion_edge := (completion_edge P comp inp F (g_interpreted_length g)).

    Lemma fwd_edge_normal s e sid pr0 :
      edge_at es0 s e sid pr0 -> p_end pr0 = e /\ normal_edge s e sid pr0.
    Proof.
      intro He. apply edge_at_find2 in He as (sm0 & F0 & Hp0).
      destruct (fwd_edge_facts st I Hq s e sm0 F0) as (A & l & ds & M & E & Esm).
      subst sm0. destruct (spell_ok strict inp s e ds) as (I1 & _).
      destruct (I1 sid pr0 Hp0) as (E1 & (d & Hd) & E3 & (d' & Hd1 & Hd2 & Hd3 & Hd4)).
      split; [exact E1|]. split; [tauto|]. split.
      { subst e. apply skip_le. destruct M. lia. }
      exists ds. split.
      - subst e. rewrite strip_sub; [now destruct M as (_ & _ & L)|].
        eapply match_no_trailing; eauto.
      - split; [exists d; tauto|]. split; [exact E3|]. exists d'. rewrite Hd4. cbn. tauto.
    Qed.

    Theorem edge_sound s e sid pr :
      edge_at (g_edges g) s e sid pr ->
      p_end pr = e /\ (normal_edge s e sid pr \/ completion_edge s e sid pr).
    Proof.
      rewrite run_edges. intro H. apply completion_sound in H as [H|(Hc & Hf & Hn & -> & -> & Hce)].
      - apply esb_edge in H as (_ & _ & _ & pr0 & H0 & (S1 & S2 & S3 & S4) & _).
        destruct (fwd_edge_normal s e sid pr0 H0) as (E & A & B & ds & L & C1 & C2 & C3).
        split; [congruence|]. left. split; [exact A|]. split; [exact B|]. exists ds. split; [exact L|].
        rewrite <- S1, <- S3, <- S4. tauto.
      - destruct Hce as (k & ds & d & Hin & Hp & Hd & Hs & Ht & ->). split; [reflexivity|]. right.
        split; [exact Hc|]. split; [reflexivity|]. split; [exact Hf|]. split; [reflexivity|].
        split; [now rewrite run_interp|].
        exists k, ds, d. repeat split; try assumption. apply In_lookup; [now destruct WF|exact Hin].
    Qed.

    (** *** edge exactness: a retained edge carries every admissible syllable
        of its spelling whose type is not worse than last_type *)
    Theorem edge_exact s e :
      s < F -> has_edge (g_edges g) s e ->
      forall ds d, lookup (strip_delims delims (sub inp s (e - s))) P = Some ds ->
        In d ds -> adm s e d = true -> d_type d <= lt ->
        exists pr, edge_at (g_edges g) s e (d_sid d) pr /\ p_type pr <= d_type d.
    Proof.
      intros Ls (sid & pr & H) ds d L Hd A T. rewrite run_edges in H.
      apply completion_sound in H as [H|(_ & _ & _ & -> & _)]; [|lia].
      apply esb_edge in H as (_ & Gs & Ge & pr0 & H0 & _).
      apply edge_at_find2 in H0 as (sm0 & F0 & Hp0).
      destruct (fwd_edge_facts st I Hq s e sm0 F0) as (_ & l & ds' & M & E & Esm).
      assert (ds' = ds).
      { subst e. rewrite strip_sub in L by (eapply match_no_trailing; eauto).
        destruct M as (_ & _ & L'). congruence. }
      subst ds' sm0. destruct (spell_carries strict inp s e ds d Hd A) as (pr1 & Hp1 & Lmin).
      assert (He1 : edge_at es0 s e (d_sid d) pr1) by (apply edge_at_find2; eauto).
      destruct (kept_edge s e (d_sid d) pr1 Gs Ge He1 ltac:(lia)) as (pr2 & He2 & (S1 & _)).
      exists pr2. split; [exact He2|lia].
    Qed.

    Lemma good_path_to_far v : Good v -> gpath g v F.
    Proof.
      induction 1 as [|i t e sm0 Li Hi Ti Ge IH F0 Hne]; [constructor|].
      assert (Gi : Good i) by (econstructor; eauto).
      apply tfilter_nonempty in Hne as (sid & pr0 & Hp0 & T); [|now apply (es0_sorted i e)].
      eapply gpath_trans; [|exact IH]. apply (good_hop i e sid pr0); [exact Gi|exact Ge| |exact T].
      apply edge_at_find2. eauto.
    Qed.

    Lemma far_path_to_end : gpath g F (g_interpreted_length g).
    Proof.
      rewrite run_interp.
      destruct (completion_length P comp inp esb F) as [E|(_ & _ & E & He & _)]; rewrite E; [constructor|].
      eapply gpath_step; [rewrite run_edges; exact He| |constructor].
      right. rewrite run_interp. now rewrite E.
    Qed.

    Lemma wit_path p t : wit vs0 es0 p t -> t <= lt -> Good p -> gpath g 0 p.
    Proof.
      induction 1 as [t|s ts e t sid pr0 Hs Lts W IH He Lp]; intros Lt Gp; [constructor|].
      assert (Gs : Good s) by (eapply good_back; eauto; lia).
      eapply gpath_trans; [apply IH; [lia|exact Gs]|]. apply (good_hop s e sid pr0); auto. lia.
    Qed.

    Theorem vertex_on_path v t :
      nm_find v (g_vertices g) = Some t ->
      gpath g 0 v /\ gpath g v (g_interpreted_length g).
    Proof.
      rewrite run_vertices. intro H. pose proof (retained_good v t H) as G. split.
      - assert (exists t0, nm_find v vs0 = Some t0 /\ t0 <= lt) as (t0 & H0 & L0).
        { inversion G as [|i t' e sm0 Li Hi Ti _ _ _]; subst; [apply far_visited|eauto]. }
        eapply wit_path; [apply (fi_wit_v _ _ _ _ st I); exact H0|exact L0|exact G].
      - eapply gpath_trans; [now apply good_path_to_far|apply far_path_to_end].
    Qed.

    (** *** the interpreted length is the longest tilable prefix *)
    Theorem interpreted_longest :
      tilable F /\ (forall p, tilable p -> p <= F) /\
      (g_interpreted_length g = F \/
       (comp = true /\ F < n /\ g_interpreted_length g = n /\
        exists k ds, lookup k P = Some ds /\ is_prefix (skipn F inp) k = true)).
    Proof.
      destruct (final_far P delims strict inp st I Hq) as [A B]. split; [exact A|]. split; [exact B|].
      rewrite run_interp.
      destruct (completion_length P comp inp esb F) as [E|(Hc & Hf & E & _ & k & ds & Hin & Hp)]; [now left|].
      right. repeat split; try assumption. exists k, ds. split; [|exact Hp].
      apply In_lookup; [now destruct WF|exact Hin].
    Qed.

    Theorem completion_complete l ds d :
      comp = true -> F < n ->
      In (l, ds) (expand_search P (skipn F inp) kExpandSearchLimit) -> In d ds -> d_type d < kAbbreviation ->
      g_interpreted_length g = n.
    Proof. intros. rewrite run_interp. eapply completion_happens; eauto. Qed.

    (** *** every tiling of the tilable prefix by normal spellings is a path of the graph *)
    Lemma tiling_le a b l : tiling a b l -> a <= b.
    Proof using st. apply tiling_bounds. Qed.

    Lemma normal_tiling_edges a b l :
      tiling a b l -> nm_find a vs0 = Some 0 -> Good b -> Forall (fun x => d_type (snd x) = 0) l ->
      Good a /\
      Forall (fun x => exists pr, edge_at (g_edges g) (fst (fst x)) (snd (fst x)) (d_sid (snd x)) pr /\
                                  p_type pr = 0) l.
    Proof.
      induction 1 as [a|a b c d l T Tl IH]; intros Ha Gc Hn; [split; [exact Gc|constructor]|].
      inversion Hn as [|? ? Hd Hn']; subst. cbn [snd] in Hd.
      pose proof (final_normal_tile P delims strict inp st I Hq a b d Ha T Hd) as Hb.
      destruct (IH Hb Gc Hn') as [Gb Fl].
      (* the edge a -> b recorded by the forward phase carries d's syllable with type 0 *)
      destruct T as (l0 & ds & M & E & Hin & A).
      assert (Hne : fst (spell a b ds) <> []) by (apply spell_nonempty; now exists d).
      assert (Va : visited vs0 a) by (now exists 0).
      subst b. destruct (fi_e_compl _ _ _ _ st I a l0 ds Va M Hne) as (ev & Fa & Fe).
      destruct (spell_carries strict inp a (skip (a + l0)) ds d Hin A) as (pr0 & Hp0 & Lmin).
      rewrite Hd in Lmin.
      assert (He0 : edge_at es0 a (skip (a + l0)) (d_sid d) pr0).
      { exists ev, (fst (spell a (skip (a + l0)) ds)). tauto. }
      assert (Ga : Good a) by (eapply (good_back a 0); eauto; lia).
      split; [exact Ga|]. constructor; [|exact Fl]. cbn [fst snd].
      destruct (kept_edge a (skip (a + l0)) (d_sid d) pr0 Ga Gb He0 ltac:(lia)) as (pr & He & (S1 & _)).
      exists pr. split; [exact He|lia].
    Qed.

    Theorem normal_tilings_complete l :
      tiling 0 F l -> Forall (fun x => d_type (snd x) = 0) l ->
      Forall (fun x => exists pr, edge_at (g_edges g) (fst (fst x)) (snd (fst x)) (d_sid (snd x)) pr /\
                                  p_type pr = 0) l.
    Proof.
      intros T Hn. eapply normal_tiling_edges; eauto.
      - apply (final_start P delims strict inp st I Hq).
      - constructor.
    Qed.

    Lemma run_sorted : maps_sorted (g_edges g).
    Proof. rewrite run_edges. apply completion_sorted. apply bi_final. Qed.

    Theorem transpose_exact s sid :
      index_at (g_indices g) s sid = transposed (g_edges g) s sid.
    Proof.
      assert (E : g_indices g = transpose (g_edges g)) by (rewrite (r_g _ _ _ _ _ R); reflexivity).
      rewrite E. apply transpose_spec. apply run_sorted.
    Qed.

    Lemma run_last_type : last_type_of g F = lt.
    Proof.
      unfold last_type_of. rewrite run_vertices.
      destruct bi_final as (Bf & _). destruct (Bf F (le_n F)) as [E _]. now rewrite E.
    Qed.
  End WithRun.
End Main.

(** ** the theorems, for every prism, every flag combination and every input *)
Lemma forward_farthest_nil P delims strict : forward_farthest P delims strict [] = Some 0.
Proof. reflexivity. Qed.

Lemma build_inv P delims comp strict inp g :
  prism_wf P delims -> build_syllable_graph P delims comp strict inp = Some g ->
  (inp = [] /\ g = empty_graph) \/
  (inp <> [] /\ exists st vsb esb good, run P delims comp strict inp st vsb esb good g).
Proof.
  intros WF H. destruct inp as [|a r] eqn:E.
  - left. split; [reflexivity|]. cbn in H. congruence.
  - right. split; [discriminate|]. rewrite <- E in *.
    destruct (build_run P delims comp strict inp WF ltac:(rewrite E; discriminate))
      as (st & vsb & esb & good & g' & Hb & R).
    rewrite H in Hb. inversion Hb; subst g'. now exists st, vsb, esb, good.
Qed.

Lemma run_far P delims comp strict inp st vsb esb good g far :
  run P delims comp strict inp st vsb esb good g ->
  forward_farthest P delims strict inp = Some far -> far = f_far st.
Proof. intros R H. rewrite (r_far _ _ _ _ _ _ _ _ _ _ R) in H. congruence. Qed.

Lemma edge_at_empty s e sid pr : ~ edge_at [] s e sid pr.
Proof. intros (ev & sm & H & _). discriminate. Qed.

Lemma tiling_nil_inv P delims strict inp a l : tiling P delims strict inp a a l -> l = [].
Proof.
  intro T. inversion T as [|? b ? d l' Tl Tr]; subst; [reflexivity|].
  apply (tile_bounds P delims strict inp) in Tl. apply tiling_bounds in Tr. lia.
Qed.

Theorem build_total P delims comp strict inp :
  prism_wf P delims -> exists g, build_syllable_graph P delims comp strict inp = Some g.
Proof.
  intro WF. destruct inp as [|a r] eqn:E; [eexists; reflexivity|]. rewrite <- E.
  destruct (build_run P delims comp strict inp WF ltac:(rewrite E; discriminate))
    as (st & vsb & esb & good & g & Hb & _). eauto.
Qed.

Theorem thm_edge_sound P delims comp strict inp g far :
  prism_wf P delims -> build_syllable_graph P delims comp strict inp = Some g ->
  forward_farthest P delims strict inp = Some far ->
  forall s e sid pr, edge_at (g_edges g) s e sid pr ->
    p_end pr = e /\
    (normal_edge P delims strict inp s e sid pr \/
     completion_edge P comp inp far (g_interpreted_length g) s e sid pr).
Proof.
  intros WF Hb Hf s e sid pr He.
  destruct (build_inv _ _ _ _ _ _ WF Hb) as [[-> ->]|(_ & st & vsb & esb & good & R)].
  - now apply edge_at_empty in He.
  - rewrite (run_far _ _ _ _ _ _ _ _ _ _ _ R Hf). eapply edge_sound; eauto.
Qed.

Theorem thm_edge_exact P delims comp strict inp g far :
  prism_wf P delims -> build_syllable_graph P delims comp strict inp = Some g ->
  forward_farthest P delims strict inp = Some far ->
  forall s e, s < far -> has_edge (g_edges g) s e ->
  forall ds d, lookup (strip_delims delims (sub inp s (e - s))) P = Some ds ->
    In d ds -> adm strict inp s e d = true -> d_type d <= last_type_of g far ->
    exists pr, edge_at (g_edges g) s e (d_sid d) pr /\ p_type pr <= d_type d.
Proof.
  intros WF Hb Hf s e Ls He ds d L Hd A T.
  destruct (build_inv _ _ _ _ _ _ WF Hb) as [[-> ->]|(_ & st & vsb & esb & good & R)].
  - destruct He as (sid & pr & He). now apply edge_at_empty in He.
  - rewrite (run_far _ _ _ _ _ _ _ _ _ _ _ R Hf) in *. rewrite (run_last_type _ _ _ _ _ _ _ _ _ _ R) in T.
    eapply edge_exact; eauto.
Qed.

Theorem thm_vertex_on_path P delims comp strict inp g :
  prism_wf P delims -> build_syllable_graph P delims comp strict inp = Some g ->
  forall v t, nm_find v (g_vertices g) = Some t ->
    gpath g 0 v /\ gpath g v (g_interpreted_length g).
Proof.
  intros WF Hb v t Hv.
  destruct (build_inv _ _ _ _ _ _ WF Hb) as [[-> ->]|(_ & st & vsb & esb & good & R)].
  - discriminate.
  - eapply vertex_on_path; eauto.
Qed.

Theorem thm_interpreted_longest P delims comp strict inp g :
  prism_wf P delims -> build_syllable_graph P delims comp strict inp = Some g ->
  exists far, forward_farthest P delims strict inp = Some far /\
    tilable P delims strict inp far /\
    (forall p, tilable P delims strict inp p -> p <= far) /\
    (g_interpreted_length g = far \/
     (comp = true /\ far < length inp /\ g_interpreted_length g = length inp /\
      exists k ds, lookup k P = Some ds /\ is_prefix (skipn far inp) k = true)).
Proof.
  intros WF Hb.
  destruct (build_inv _ _ _ _ _ _ WF Hb) as [[-> ->]|(_ & st & vsb & esb & good & R)].
  - exists 0. split; [reflexivity|]. split; [constructor|]. split; [|now left].
    intros p Hp. now apply (tilable_le P delims strict []) in Hp.
  - exists (f_far st). split; [apply (r_far _ _ _ _ _ _ _ _ _ _ R)|]. eapply interpreted_longest; eauto.
Qed.

Theorem thm_completion_extends P delims comp strict inp g far l ds d :
  prism_wf P delims -> build_syllable_graph P delims comp strict inp = Some g ->
  forward_farthest P delims strict inp = Some far ->
  comp = true -> far < length inp ->
  In (l, ds) (expand_search P (skipn far inp) kExpandSearchLimit) -> In d ds -> d_type d < kAbbreviation ->
  g_interpreted_length g = length inp.
Proof.
  intros WF Hb Hf Hc Lf Hin Hd T.
  destruct (build_inv _ _ _ _ _ _ WF Hb) as [[-> ->]|(_ & st & vsb & esb & good & R)].
  - cbn in Lf. lia.
  - rewrite (run_far _ _ _ _ _ _ _ _ _ _ _ R Hf) in *. eapply completion_complete; eauto.
Qed.

Theorem thm_normal_tilings P delims comp strict inp g far l :
  prism_wf P delims -> build_syllable_graph P delims comp strict inp = Some g ->
  forward_farthest P delims strict inp = Some far ->
  tiling P delims strict inp 0 far l -> Forall (fun x => d_type (snd x) = kNormalSpelling) l ->
  Forall (fun x => exists pr, edge_at (g_edges g) (fst (fst x)) (snd (fst x)) (d_sid (snd x)) pr /\
                              p_type pr = kNormalSpelling) l.
Proof.
  intros WF Hb Hf T Hn.
  destruct (build_inv _ _ _ _ _ _ WF Hb) as [[-> ->]|(_ & st & vsb & esb & good & R)].
  - cbn in Hf. inversion Hf; subst far. apply tiling_nil_inv in T. subst l. constructor.
  - rewrite (run_far _ _ _ _ _ _ _ _ _ _ _ R Hf) in *. eapply normal_tilings_complete; eauto.
Qed.

Lemma maps_sorted_nil : maps_sorted [].
Proof. split; [apply nm_sorted_nil|discriminate]. Qed.

Theorem thm_graph_sorted P delims comp strict inp g :
  prism_wf P delims -> build_syllable_graph P delims comp strict inp = Some g -> maps_sorted (g_edges g).
Proof.
  intros WF Hb.
  destruct (build_inv _ _ _ _ _ _ WF Hb) as [[-> ->]|(_ & st & vsb & esb & good & R)].
  - apply maps_sorted_nil.
  - eapply run_sorted; eauto.
Qed.

Theorem thm_transpose_exact P delims comp strict inp g :
  prism_wf P delims -> build_syllable_graph P delims comp strict inp = Some g ->
  forall s sid, index_at (g_indices g) s sid = transposed (g_edges g) s sid.
Proof.
  intros WF Hb s sid.
  destruct (build_inv _ _ _ _ _ _ WF Hb) as [[-> ->]|(_ & st & vsb & esb & good & R)].
  - reflexivity.
  - eapply transpose_exact; eauto.
Qed.

Theorem thm_transpose_members P delims comp strict inp g :
  prism_wf P delims -> build_syllable_graph P delims comp strict inp = Some g ->
  forall s sid,
    match index_at (g_indices g) s sid with
    | Some l => l <> [] /\ forall pr, In pr l <-> exists e, edge_at (g_edges g) s e sid pr
    | None => forall e pr, ~ edge_at (g_edges g) s e sid pr
    end.
Proof.
  intros WF Hb s sid. rewrite (thm_transpose_exact _ _ _ _ _ _ WF Hb).
  apply transposed_members. exact (thm_graph_sorted _ _ _ _ _ _ WF Hb).
Qed.

(** ** a concrete prism for the non-vacuity examples
    alphabet a = 1, b = 2, c = 3; delimiter ' = 9;
    spellings a -> {0}, ab -> {1}, b -> {2, 1 as abbreviation}, ba -> {3}, ca -> {4 as fuzzy}. *)
Definition ex_prism : prism :=
  [ ([1], [mkDesc 0 0 0%N]); ([1; 2], [mkDesc 1 0 0%N]);
    ([2], [mkDesc 2 0 0%N; mkDesc 1 2 7%N]); ([2; 1], [mkDesc 3 0 0%N]);
    ([3; 1], [mkDesc 4 1 5%N]) ].

Lemma ex_prism_wf_proof : prism_wf ex_prism [9].
Proof.
  split; [|split].
  - cbn. repeat constructor; cbn; intuition discriminate.
  - intros k ds H. cbn in H. unfold no_trailing_delim.
    repeat (destruct H as [H|H]; [inversion H; subst; reflexivity|]). destruct H.
  - intros k ds d H Hd. cbn in H. unfold kAbbreviation.
    repeat (destruct H as [H|H]; [inversion H; subst; cbn in Hd;
                                  repeat (destruct Hd as [Hd|Hd]; [subst; cbn; lia|]); destruct Hd|]).
    destruct H.
Qed.

Lemma ex_tiling_proof :
  tiling ex_prism [9] false [1; 2; 9; 1] 0 4
         [(0, 1, mkDesc 0 0 0%N); (1, 3, mkDesc 2 0 0%N); (3, 4, mkDesc 0 0 0%N)]
  /\ Forall (fun x => d_type (snd x) = kNormalSpelling)
            [(0, 1, mkDesc 0 0 0%N); (1, 3, mkDesc 2 0 0%N); (3, 4, mkDesc 0 0 0%N)].
Proof.
  split; [|repeat constructor].
  apply tiling_cons; [|apply tiling_cons; [|apply tiling_cons; [|apply tiling_nil]]].
  - exists 1, [mkDesc 0 0 0%N]. repeat split; cbn; auto.
  - exists 1, [mkDesc 2 0 0%N; mkDesc 1 2 7%N]. repeat split; cbn; auto.
  - exists 1, [mkDesc 0 0 0%N]. repeat split; cbn; auto.
Qed.
