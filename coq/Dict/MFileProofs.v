(** C06 proofs about layer (c): Table::Build over the growing mapped file.

    [build_never_remaps]: when the exact number of bytes the build allocates
    ([bytes_needed]) fits the capacity the file was created with, no allocation
    grows the file, no pointer goes stale, and the build ends with
    [used = bytes_needed] in epoch 0.  Conversely ([build_beyond_capacity]),
    below [bytes_needed] a pointer held across the growing allocation is used
    afterwards; a family of sources whose rows each need more bytes than the
    linear estimate grants refutes the premise.  For an estimate that includes
    the exact index size, with metadata_ looked up again after the string
    image, the build is sound for every vocabulary and image size. *)
From Coq Require Import List NArith Bool Arith Lia.
From RimeV Require Import Dict.Vocab Dict.MFile Dict.TableProofs.
Import ListNotations.
Local Open Scope N_scope.

Definition mod4 (x : N) : bool := N.eqb (x mod 4) 0.
Definition al_okb (a : N) : bool := N.eqb a 1 || N.eqb a 2 || N.eqb a 4.

(* every allocation of the index is a multiple of 4 bytes and no alignment exceeds 4:
   the index is laid out without padding *)
Definition layout_ok (L : layout) : bool :=
  mod4 (sz_metadata L) && al_okb (al_metadata L) &&
  mod4 (sz_stringtype L) && mod4 (sz_arr_stringtype L) && N.leb (sz_stringtype L) (sz_arr_stringtype L) &&
  mod4 (sz_headnode L) && mod4 (sz_arr_headnode L) && N.leb (sz_headnode L) (sz_arr_headnode L) &&
  mod4 (sz_trunknode L) && mod4 (sz_arr_trunknode L) && N.leb (sz_trunknode L) (sz_arr_trunknode L) &&
  mod4 (sz_longentry L) && mod4 (sz_arr_longentry L) && N.leb (sz_longentry L) (sz_arr_longentry L) &&
  mod4 (sz_entry L) && al_okb (al_entry L) && mod4 (sz_syllid L) && al_okb (al_syllid L) &&
  N.eqb (al_char L) 1.

Lemma mod4_div x : mod4 x = true -> (4 | x).
Proof. unfold mod4. intros H. apply N.eqb_eq in H. apply N.mod_divide; [discriminate|exact H]. Qed.

Lemma al_ok_div a x : al_okb a = true -> (4 | x) -> (a | x).
Proof.
  unfold al_okb. intros H [q Hq]. subst x.
  destruct (N.eqb_spec a 1) as [E|]; [subst a; exists (q * 4); lia|].
  destruct (N.eqb_spec a 2) as [E|]; [subst a; exists (q * 2); lia|].
  destruct (N.eqb_spec a 4) as [E|]; [subst a; exists q; lia|discriminate].
Qed.

Lemma al_ok_pos a : al_okb a = true -> a <> 0.
Proof. unfold al_okb. intros H ->. discriminate. Qed.

Lemma align_up_div x a : a <> 0 -> (a | x) -> align_up x a = x.
Proof.
  intros Ha [q ->]. unfold align_up.
  replace (q * a + a - 1) with (q * a + (a - 1)) by lia.
  rewrite N.div_add_l by assumption. rewrite (N.div_small (a - 1) a) by lia. lia.
Qed.

Lemma arr_bytes_div A T n : mod4 T = true -> mod4 A = true -> N.leb T A = true -> (4 | arr_bytes A T n).
Proof.
  intros HT HA Hle. apply mod4_div in HA, HT. apply N.leb_le in Hle. destruct HA as [a ->], HT as [t ->].
  unfold arr_bytes. exists (a + t * N.of_nat n - t). lia.
Qed.

(** [tight], the converse of [fits], needs no valid pointers: a stale one only makes the program fail. *)

Definition post (s : mfile) (n : N) (s' : mfile) : Prop :=
  cap s' = cap s /\ used s' = used s + n /\ epoch s' = epoch s /\ stale_refs s' = stale_refs s.

Definition cur (p : ptr) (s : mfile) : Prop := fst p = epoch s.
Definition live (ps : list ptr) (s : mfile) : Prop := forall p, In p ps -> cur p s.

Definition fits {A} (out : A -> list ptr) (ps : list ptr) (m : M A) (n : N) : Prop :=
  forall s, live ps s -> (4 | used s) -> used s + n <= cap s ->
  exists a s', m s = Ok (a, s') /\ post s n s' /\ (4 | used s') /\ live (out a) s'.

Definition inv (s : mfile) : Prop := (4 | used s) /\ used s <= cap s.

Definition tight {A} (m : M A) (n : N) : Prop := forall s, inv s ->
  match m s with
  | Ok (_, s') => inv s' /\ (epoch s <= epoch s')%nat /\
                  (epoch s' = epoch s -> cap s' = cap s /\ used s' = used s + n)
  | Err e => e = StalePointer
  end.

Definition builds {A} (out : A -> list ptr) (ps : list ptr) (m : M A) (n : N) : Prop :=
  fits out ps m n /\ tight m n.

Definition nop {A} (_ : A) : list ptr := [].
Definition own (p : ptr) : list ptr := [p].

Definition okU (C : mfile -> Prop) (m : M unit) (n : N) : Prop :=
  forall s, C s -> (4 | used s) -> used s + n <= cap s ->
  exists s', m s = Ok (tt, s') /\ post s n s'.

Lemma okU_weaken (C C' : mfile -> Prop) m n : (forall s, C' s -> C s) -> okU C m n -> okU C' m n.
Proof. intros H Hm s Hs. apply Hm. now apply H. Qed.

Lemma post_refl s : post s 0 s.
Proof. unfold post. repeat split; lia. Qed.

Lemma post_trans s n s1 m s2 : post s n s1 -> post s1 m s2 -> post s (n + m) s2.
Proof. unfold post. intros (A1 & A2 & A3 & A4) (B1 & B2 & B3 & B4). repeat split; try congruence. lia. Qed.

Lemma live_post ps s n s' : post s n s' -> live ps s -> live ps s'.
Proof. intros (_ & _ & He & _) H p Hp. unfold cur. rewrite He. now apply H. Qed.

Lemma builds_ret_tt ps : builds nop ps (ret tt) 0.
Proof.
  split.
  - intros s _ Hd _. exists tt, s. split; [reflexivity|]. split; [apply post_refl|]. split; [exact Hd|intros p []].
  - intros s Hs. cbn. repeat split; try apply Hs; lia.
Qed.

Lemma builds_ret_ptr ps p : In p ps -> builds own ps (ret p) 0.
Proof.
  intros Hp. split.
  - intros s Hl Hd _. exists p, s. split; [reflexivity|]. split; [apply post_refl|]. split; [exact Hd|].
    intros q [<-|[]]. now apply Hl.
  - intros s Hs. cbn. repeat split; try apply Hs; lia.
Qed.

Lemma builds_touch ps p : In p ps -> builds nop ps (touch p) 0.
Proof.
  intros Hp. split.
  - intros s Hl Hd _. exists tt, s. unfold touch. rewrite (Hl p Hp), Nat.eqb_refl.
    split; [reflexivity|]. split; [apply post_refl|]. split; [exact Hd|intros q []].
  - intros s Hs. unfold touch. destruct (Nat.eqb (fst p) (epoch s)); [|reflexivity]. repeat split; try apply Hs; lia.
Qed.

Lemma builds_add_ref ps p : In p ps -> builds nop ps (add_ref p) 0.
Proof.
  intros Hp. split.
  - intros s Hl Hd _. eexists tt, _. split; [reflexivity|]. unfold post. cbn.
    rewrite (Hl p Hp), Nat.eqb_refl. cbn. rewrite orb_false_r. repeat split; try lia; [exact Hd|intros q []].
  - intros s Hs. cbn. repeat split; try apply Hs; lia.
Qed.

Lemma builds_bind {A B} (out1 : A -> list ptr) (out2 : B -> list ptr) ps (m : M A) n1 (f : A -> M B) n2 :
  builds out1 ps m n1 -> (forall a, builds out2 (out1 a ++ ps) (f a) n2) -> builds out2 ps (bind m f) (n1 + n2).
Proof.
  intros [F1 T1] H2. split.
  - intros s Hl Hd Hfit. destruct (F1 s Hl Hd) as (a & s1 & R1 & P1 & D1 & L1); [lia|].
    pose proof P1 as (A1 & A2 & _).
    destruct (proj1 (H2 a) s1) as (b & s2 & R2 & P2 & D2 & L2).
    + intros p Hp. apply in_app_or in Hp. destruct Hp as [Hp|Hp]; [now apply L1|now apply (live_post ps s n1 s1 P1 Hl)].
    + exact D1.
    + rewrite A1, A2. lia.
    + exists b, s2. split; [unfold bind; rewrite R1; exact R2|]. split; [eapply post_trans; eauto|auto].
  - intros s Hs. unfold bind. specialize (T1 s Hs). destruct (m s) as [[a s1]|e]; [|exact T1].
    destruct T1 as (Hs1 & He1 & Hp1). pose proof (proj2 (H2 a) s1 Hs1) as T2. destruct (f a s1) as [[b s2]|e]; [|exact T2].
    destruct T2 as (Hs2 & He2 & Hp2). split; [exact Hs2|]. split; [lia|]. intros He.
    destruct Hp1 as [Hc1 Hu1]; [lia|]. destruct Hp2 as [Hc2 Hu2]; [lia|]. split; [congruence|lia].
Qed.

Lemma builds_bind0 {A B} (out1 : A -> list ptr) (out2 : B -> list ptr) ps (m : M A) n (f : A -> M B) :
  builds out1 ps m n -> (forall a, builds out2 (out1 a ++ ps) (f a) 0) -> builds out2 ps (bind m f) n.
Proof. intros H1 H2. rewrite <- (N.add_0_r n). now apply (builds_bind out1). Qed.

Lemma builds_after {A B} (out : B -> list ptr) ps (m1 : M A) (m2 : M B) n :
  builds nop ps m1 0 -> builds out ps m2 n -> builds out ps (m1 ;; m2) n.
Proof. intros H1 H2. exact (builds_bind nop out ps m1 0 _ n H1 (fun _ => H2)). Qed.

Lemma builds_repeat ps m k : builds nop ps m 0 -> builds nop ps (repeatM k m) 0.
Proof. intros Hm. induction k as [|k IH]; cbn [repeatM]; [apply builds_ret_tt|]. now apply builds_after. Qed.

Lemma builds_forM {A} ps (l : list A) (f : A -> M unit) (g : A -> N) :
  (forall x, builds nop ps (f x) (g x)) -> builds nop ps (forM l f) (sum_N g l).
Proof.
  intros H. induction l as [|x l IH]; cbn [forM sum_N fold_right]; [apply builds_ret_tt|].
  apply (builds_bind nop); [apply H|intros []; exact IH].
Qed.

Lemma bind_ok {A B} (m : M A) (f : A -> M B) s b s2 :
  bind m f s = Ok (b, s2) -> exists a s1, m s = Ok (a, s1) /\ f a s1 = Ok (b, s2).
Proof. unfold bind. destruct (m s) as [[a s1]|e]; [|discriminate]. intros H. now exists a, s1. Qed.

Section Build.
  Variable L : layout.
  Variable gd : bool.
  Hypothesis HL : layout_ok L = true.

  Ltac lay := let H := fresh in pose proof HL as H; unfold layout_ok in H;
              repeat (apply andb_prop in H; let H2 := fresh in destruct H as [H H2]).

  Lemma div_metadata : (4 | sz_metadata L). Proof. lay. now apply mod4_div. Qed.
  Lemma div_entries k : (4 | sz_entry L * k). Proof. lay. apply N.divide_mul_l. now apply mod4_div. Qed.
  Lemma div_syllids k : (4 | sz_syllid L * k). Proof. lay. apply N.divide_mul_l. now apply mod4_div. Qed.
  Lemma div_arr_string n : (4 | arr_bytes (sz_arr_stringtype L) (sz_stringtype L) n).
  Proof. lay. now apply arr_bytes_div. Qed.
  Lemma div_arr_head n : (4 | arr_bytes (sz_arr_headnode L) (sz_headnode L) n).
  Proof. lay. now apply arr_bytes_div. Qed.
  Lemma div_arr_trunk n : (4 | arr_bytes (sz_arr_trunknode L) (sz_trunknode L) n).
  Proof. lay. now apply arr_bytes_div. Qed.
  Lemma div_arr_long n : (4 | arr_bytes (sz_arr_longentry L) (sz_longentry L) n).
  Proof. lay. now apply arr_bytes_div. Qed.
  Lemma le_trunk : sz_trunknode L <= sz_arr_trunknode L. Proof. lay. now apply N.leb_le. Qed.
  Lemma al_metadata_ok : al_okb (al_metadata L) = true. Proof. lay. assumption. Qed.
  Lemma al_entry_ok : al_okb (al_entry L) = true. Proof. lay. assumption. Qed.
  Lemma al_syllid_ok : al_okb (al_syllid L) = true. Proof. lay. assumption. Qed.
  Lemma al_char_1 : al_char L = 1. Proof. lay. now apply N.eqb_eq. Qed.
  Lemma al_char_ok : al_okb (al_char L) = true. Proof. now rewrite al_char_1. Qed.

  Hint Resolve div_metadata div_entries div_syllids div_arr_string div_arr_head div_arr_trunk div_arr_long
       al_metadata_ok al_entry_ok al_syllid_ok al_char_ok in_eq in_cons : lay.
  Ltac side := cbn [own nop app]; auto with lay.

  Lemma allocate_run al size s : al <> 0 -> (al | used s) ->
    exists s', allocate gd al size s = Ok ((epoch s', used s), s') /\ used s' = used s + size /\ used s' <= cap s' /\
               if cap s <? used s + size then epoch s' = Datatypes.S (epoch s) else post s size s'.
  Proof.
    intros Ha Hd. unfold allocate. rewrite (align_up_div _ _ Ha Hd).
    destruct (N.ltb_spec (cap s) (used s + size)); eexists (Build_mfile _ _ _ _ _); (split; [reflexivity|]);
      unfold post; cbn.
    - destruct gd; lia.
    - repeat split; lia.
  Qed.

  Lemma builds_allocate ps al size : al_okb al = true -> (4 | size) -> builds own ps (allocate gd al size) size.
  Proof.
    intros Ha Hsz. split.
    - intros s _ Hd Hfit.
      destruct (allocate_run al size s (al_ok_pos al Ha) (al_ok_div al _ Ha Hd)) as (s' & E & Hu & _ & Hp).
      destruct (N.ltb_spec (cap s) (used s + size)); [lia|]. exists (epoch s', used s), s'.
      split; [exact E|]. split; [exact Hp|]. split; [rewrite Hu; now apply N.divide_add_r|]. now intros p [<-|[]].
    - intros s [Hd Hle].
      destruct (allocate_run al size s (al_ok_pos al Ha) (al_ok_div al _ Ha Hd)) as (s' & -> & Hu & Hc & Hp).
      split; [split; [rewrite Hu; now apply N.divide_add_r|exact Hc]|].
      destruct (N.ltb (cap s) (used s + size)); [split; [lia|intros; lia]|].
      destruct Hp as (A1 & A2 & A3 & _). split; [lia|auto].
  Qed.

  Lemma builds_create_array ps A T n : (4 | arr_bytes A T n) -> builds own ps (create_array L gd A T n) (arr_bytes A T n).
  Proof.
    intros Hd. unfold create_array. apply (builds_bind0 own); [apply builds_allocate; side|intros p].
    apply builds_after; [apply builds_touch|apply builds_ret_ptr]; side.
  Qed.

  Lemma builds_entry ps slot : In slot ps -> builds nop ps (m_build_entry slot) 0.
  Proof. intros H. apply builds_after; [apply builds_add_ref|apply builds_touch]; exact H. Qed.

  Lemma builds_entry_list ps dest n : In dest ps ->
    builds nop ps (m_build_entry_list L gd dest n) (sz_entry L * N.of_nat n).
  Proof.
    intros H. unfold m_build_entry_list. apply builds_after; [now apply builds_touch|].
    apply (builds_bind0 own); [apply builds_allocate; side|intros at_].
    apply builds_after; [apply builds_touch; side|]. apply builds_repeat.
    apply builds_after; [apply builds_touch|apply builds_entry]; side.
  Qed.

  Lemma builds_tail ps v : builds own ps (m_build_tail L gd v) (bytes_tail L v).
  Proof.
    unfold m_build_tail, bytes_tail. apply (builds_bind own); [apply builds_create_array; side|intros index].
    apply (builds_bind0 nop); [|intros []; apply builds_ret_ptr; side]. apply builds_forM. intros e.
    apply builds_after; [apply builds_touch; side|].
    apply (builds_bind0 own); [apply builds_allocate; side|intros p].
    repeat (apply builds_after; [apply builds_touch; side|]). apply builds_entry; side.
  Qed.

  Section Trunk.
    Variable A : Type.
    Variable build_next : A -> M ptr.
    Variable bytes_next : A -> N.
    Hypothesis builds_next : forall ps n, builds own ps (build_next n) (bytes_next n).

    (* the body shared by BuildTrunkIndex and BuildHeadIndex: entry list, then the next level *)
    Lemma builds_page ps index (p : page A) : In index ps ->
      builds nop ps (m_build_entry_list L gd index (length (p_entries p)) ;;
                     match p_next p with
                     | Some n => nl <- build_next n ;; touch index
                     | None => ret tt
                     end) (bytes_page L bytes_next p).
    Proof.
      intros H. unfold bytes_page. apply (builds_bind nop); [now apply builds_entry_list|intros []].
      destruct (p_next p) as [n|]; [|apply builds_ret_tt].
      apply (builds_bind0 own); [apply builds_next|intros nl; apply builds_touch; side].
    Qed.

    Lemma builds_trunk ps (v : lvl A) : builds own ps (m_build_trunk L gd build_next v) (bytes_trunk L bytes_next v).
    Proof.
      unfold m_build_trunk, bytes_trunk. apply (builds_bind own); [apply builds_create_array; side|intros index].
      apply (builds_bind0 nop); [|intros []; apply builds_ret_ptr; side]. apply builds_forM. intros kp.
      apply builds_after; [apply builds_touch|apply builds_page]; side.
    Qed.
  End Trunk.

  Lemma builds_head ps S v : builds own ps (m_build_head L gd S v) (bytes_head L S v).
  Proof.
    unfold m_build_head, bytes_head. apply (builds_bind own); [apply builds_create_array; side|intros index].
    apply (builds_bind0 nop); [|intros []; apply builds_ret_ptr; side]. apply builds_forM. intros kp.
    apply builds_page; [|side].
    intros ps2 v2. apply builds_trunk. intros ps3 v3. apply builds_trunk. intros ps4 v4. apply builds_tail.
  Qed.

  Lemma builds_prefix S v : builds own [] (m_build_prefix L gd S v) (bytes_fixed L S v).
  Proof.
    unfold m_build_prefix, bytes_fixed. rewrite <- N.add_assoc.
    apply (builds_bind own); [apply builds_allocate; side|intros meta].
    apply builds_after; [apply builds_touch; side|].
    apply (builds_bind own); [apply builds_create_array; side|intros syl].
    apply builds_after; [apply builds_repeat; apply builds_add_ref; side|].
    apply builds_after; [apply builds_touch; side|].
    apply (builds_bind0 own); [apply builds_head|intros idx].
    apply builds_after; [apply builds_touch|apply builds_ret_ptr]; side.
  Qed.

  Lemma build_prefix_fits S v c : bytes_fixed L S v <= c ->
    exists meta s1, m_build_prefix L gd S v (mfile0 c) = Ok (meta, s1) /\
                    post (mfile0 c) (bytes_fixed L S v) s1 /\ (4 | used s1) /\ fst meta = epoch s1.
  Proof.
    intros Hfit. destruct (proj1 (builds_prefix S v) (mfile0 c)) as (meta & s1 & R & P & D & Hl).
    { intros p []. } { exists 0. reflexivity. } { exact Hfit. }
    exists meta, s1. repeat split; try assumption; try apply P. apply Hl. now left.
  Qed.

  Lemma build_prefix_meta S v s meta s' : m_build_prefix L gd S v s = Ok (meta, s') ->
    fst meta = epoch s' /\ exists s1, allocate gd (al_metadata L) (sz_metadata L) s = Ok (meta, s1).
  Proof.
    unfold m_build_prefix. intros H.
    apply bind_ok in H as (meta' & s1 & Ha & H). do 4 apply bind_ok in H as (? & ? & _ & H).
    apply bind_ok in H as (idx & s6 & _ & H). apply bind_ok in H as ([] & s7 & Ht & H). injection H as -> ->.
    unfold touch in Ht. destruct (Nat.eqb_spec (fst meta) (epoch s6)) as [E|]; [|discriminate].
    injection Ht as <-. split; [exact E|now exists s1].
  Qed.


  Lemma build_finish_run rederive meta img s : stale_refs s = false ->
    exists s', used s' = used s + img /\
      (if cap s <? used s + img then epoch s' = Datatypes.S (epoch s) else post s img s') /\
      m_build_finish L gd rederive meta img s =
        if rederive || Nat.eqb (fst meta) (epoch s') then Ok (tt, s') else Err StalePointer.
  Proof.
    intros Hst. destruct (allocate_run (al_char L) img s) as (s' & Ea & Hu & _ & Hc).
    { now rewrite al_char_1. } { rewrite al_char_1. apply N.divide_1_l. }
    exists s'. split; [exact Hu|]. split; [exact Hc|].
    unfold m_build_finish, patch_refs, bind, touch. rewrite Hst, Ea. cbn [fst]. rewrite Nat.eqb_refl.
    destruct rederive; cbn [orb fst].
    - now rewrite !Nat.eqb_refl.
    - destruct (Nat.eqb_spec (fst meta) (epoch s')) as [E|]; [|reflexivity]. now rewrite E, Nat.eqb_refl.
  Qed.

  Lemma inv0 c : inv (mfile0 c).
  Proof. split; cbn; [exists 0; reflexivity|lia]. Qed.

  (* the whole build on a new file whose capacity covers the index: only the string image can make it grow,
     and then metadata_, allocated in epoch 0, is stale unless it is looked up again *)
  Lemma table_build_run rederive S v img c : bytes_fixed L S v <= c ->
    exists s', used s' = bytes_needed L S v img /\
      (if c <? bytes_needed L S v img then epoch s' = 1%nat else epoch s' = 0%nat /\ cap s' = c) /\
      m_table_build L gd rederive S v img (mfile0 c) =
        if rederive || Nat.eqb 0 (epoch s') then Ok (tt, s') else Err StalePointer.
  Proof.
    intros Hfit. destruct (build_prefix_fits S v c Hfit) as (meta & s1 & R1 & (A1 & A2 & A3 & A4) & _ & Hm).
    destruct (build_finish_run rederive meta img s1 A4) as (s' & Hu & Hc & R2).
    cbn in A1, A2, A3. rewrite A1, A2, A3 in Hc. rewrite Hm, A3 in R2.
    exists s'. unfold bytes_needed. split; [lia|]. split; [|unfold m_table_build, bind; now rewrite R1].
    destruct (c <? bytes_fixed L S v + img); [exact Hc|]. destruct Hc as (B1 & _ & B3 & _). split; congruence.
  Qed.

  Theorem build_never_remaps (rederive : bool) (S : nat) (v : voc1) (img c : N) :
    bytes_needed L S v img <= c ->
    exists s', m_table_build L gd rederive S v img (mfile0 c) = Ok (tt, s') /\
               epoch s' = 0%nat /\ used s' = bytes_needed L S v img /\ cap s' = c.
  Proof.
    intros Hfit. destruct (table_build_run rederive S v img c) as (s' & Hu & He & R); [unfold bytes_needed in Hfit; lia|].
    destruct (N.ltb_spec c (bytes_needed L S v img)) as [|_]; [lia|]. destruct He as [He Hc].
    exists s'. rewrite R, He, orb_true_r. auto.
  Qed.

  Theorem build_sound_if_index_fits (S : nat) (v : voc1) (img c : N) :
    bytes_fixed L S v <= c ->
    exists s', m_table_build L gd true S v img (mfile0 c) = Ok (tt, s') /\
               used s' = bytes_needed L S v img.
  Proof. intros Hfit. destruct (table_build_run true S v img c Hfit) as (s' & Hu & _ & R). now exists s'. Qed.

  (* [false]: metadata_ is not looked up again after the string image *)
  Theorem build_beyond_capacity (S : nat) (v : voc1) (img c : N) :
    sz_metadata L <= c -> c < bytes_needed L S v img ->
    m_table_build L gd false S v img (mfile0 c) = Err StalePointer.
  Proof.
    intros Hmeta Hlt. destruct (N.le_gt_cases (bytes_fixed L S v) c) as [Hfit|Hover].
    - (* the index fits, the string image does not: metadata_ dangles *)
      destruct (table_build_run false S v img c Hfit) as (s' & _ & He & R).
      destruct (N.ltb_spec c (bytes_needed L S v img)) as [_|]; [|lia]. now rewrite R, He.
    - (* the index does not fit: had the prefix succeeded, its last step would have used metadata_ in the
         epoch it was allocated in, so nothing would have grown *)
      unfold m_table_build, bind. pose proof (proj2 (builds_prefix S v) (mfile0 c) (inv0 c)) as H.
      destruct (m_build_prefix L gd S v (mfile0 c)) as [[meta s1]|e] eqn:R; [exfalso|now rewrite H].
      destruct H as ([_ Hle] & _ & Hsame). apply build_prefix_meta in R as (Hm & s0 & Ha).
      destruct (allocate_run (al_metadata L) (sz_metadata L) (mfile0 c)) as (s0' & Ha' & _ & _ & He).
      { apply al_ok_pos, al_metadata_ok. } { exists 0. reflexivity. }
      cbn [used cap mfile0] in He. destruct (N.ltb_spec c (0 + sz_metadata L)) as [|_]; [lia|].
      rewrite Ha' in Ha. injection Ha as <- <-. destruct He as (_ & _ & He & _). cbn [fst] in Hm.
      destruct Hsame as [Hc Hu]; [congruence|]. cbn in Hc, Hu. lia.
  Qed.
End Build.

Section Aligned.
  Variable L : layout.
  Hypothesis HL : layout_ok L = true.

  Lemma bytes_fixed_div S v : (4 | bytes_fixed L S v).
  Proof.
    destruct (build_prefix_fits L true HL S v (bytes_fixed L S v) (N.le_refl _)) as (_ & s1 & _ & (_ & Hu & _) & D & _).
    now rewrite Hu in D.
  Qed.
End Aligned.

(** * Table::Build with the capacity the code computes *)

Theorem table_build_within_estimate (L : layout) (bf : build_facts) (S NE : nat) (v : voc1) (img c : N) :
  layout_ok L = true ->
  estimate L (bf_estimate bf) S NE v = Some c ->
  bytes_needed L S v img <= c ->
  exists s', table_build L bf S NE v img = Ok s' /\
             epoch s' = 0%nat /\ used s' = bytes_needed L S v img /\ cap s' = c.
Proof.
  intros HL He Hfit. unfold table_build. rewrite He.
  destruct (build_never_remaps L (bf_growth_doubles bf) HL (bf_rederive_after_image bf) S v img c Hfit)
    as (s' & R & H). rewrite R. exists s'. split; [reflexivity|exact H].
Qed.

Theorem table_build_beyond_estimate (L : layout) (bf : build_facts) (S NE : nat) (v : voc1) (img c : N) :
  layout_ok L = true -> bf_rederive_after_image bf = false ->
  estimate L (bf_estimate bf) S NE v = Some c ->
  sz_metadata L <= c -> c < bytes_needed L S v img ->
  table_build L bf S NE v img = Err StalePointer.
Proof.
  intros HL Hr He Hmeta Hlt. unfold table_build. rewrite He, Hr.
  now rewrite (build_beyond_capacity L (bf_growth_doubles bf) HL S v img c Hmeta Hlt).
Qed.

Definition facts_sound (bf : build_facts) : bool :=
  match bf_estimate bf with
  | EstIndexExact _ _ _ => bf_rederive_after_image bf
  | _ => false
  end.

Theorem table_build_sound (L : layout) (bf : build_facts) :
  layout_ok L = true -> facts_sound bf = true ->
  forall (S NE : nat) (v : voc1) (img : N),
  exists s', table_build L bf S NE v img = Ok s' /\ used s' = bytes_needed L S v img.
Proof.
  intros HL Hf S NE v img. unfold facts_sound in Hf. unfold table_build.
  destruct (bf_estimate bf) as [r a b|r a b|] eqn:E; try discriminate. cbn [estimate]. rewrite Hf.
  destruct (build_sound_if_index_fits L (bf_growth_doubles bf) HL S v img
              (N.max (r + a * N.of_nat S + b * N.of_nat NE) (r + bytes_fixed L S v))) as (s' & R & H); [lia|].
  rewrite R. exists s'. split; [reflexivity|exact H].
Qed.

(** * Witnesses against the linear estimate: n rows with [len]-syllable codes and pairwise
      distinct two-syllable prefixes over an alphabet of S syllables *)

Definition witness_entry (S len i : nat) : entry :=
  {| e_text := [Byte.x61]; e_code := firstn len ([Nat.div i S; Nat.modulo i S] ++ repeat 0%nat 6); e_w := dbl_epsilon |}.
Definition witness_entries (S len n : nat) : list entry := map (witness_entry S len) (seq 0 n).
Definition witness_voc (S len n : nat) : voc1 := vocab_of (witness_entries S len n).

(** The vocabulary of the witness is never built: each row brings a two-syllable prefix not seen before, and
    with it a node of the second level, a one-node third level and a one-entry tail. *)

Definition has2 (v : voc1) (a b : nat) : Prop :=
  exists p n, In (a, p) v /\ p_next p = Some n /\ In b (map fst n).

Lemma has2_ins1 e a b rest v a' b' :
  has2 (ins1 e (a :: b :: rest) v) a' b' -> has2 v a' b' \/ (a' = a /\ b' = b).
Proof.
  intros (p' & n' & Hin & Hn & Hb). apply upd_in in Hin.
  assert (Hnext : forall p, p' = on_next [] (ins2 e (b :: rest)) p ->
            b' = b \/ In b' (map fst (match p_next p with Some n => n | None => [] end))).
  { intros p ->. cbn in Hn. injection Hn as <-. destruct rest; apply upd_keys_in in Hb; exact Hb. }
  destruct Hin as [Hin|(-> & [Hp|(p & Hp & Hp')])].
  - left. now exists p', n'.
  - destruct (Hnext _ Hp) as [->|Hb']; [now right|destruct Hb'].
  - destruct (Hnext _ Hp') as [->|Hb']; [now right|left].
    destruct p as [es [n|]]; [|destruct Hb']. now exists {| p_entries := es; p_next := Some n |}, n.
Qed.

Lemma witness_code S len i : (3 < len <= 8)%nat ->
  exists c rest, rest <> [] /\ e_code (witness_entry S len i) = (i / S)%nat :: (i mod S)%nat :: c :: rest /\
                 length (e_code (witness_entry S len i)) = len.
Proof.
  intros Hlen. unfold witness_entry. cbn [e_code].
  destruct len as [|[|[|[|len]]]]; try lia. cbn [app repeat firstn].
  exists 0%nat, (0%nat :: firstn len [0; 0; 0; 0]%nat). split; [discriminate|]. split; [reflexivity|].
  cbn [length]. rewrite firstn_length. cbn [length]. lia.
Qed.

Lemma witness_voc_S S len n :
  witness_voc S len (Datatypes.S n) =
  ins1 (witness_entry S len n) (e_code (witness_entry S len n)) (witness_voc S len n).
Proof.
  unfold witness_voc, witness_entries, vocab_of. rewrite seq_S, map_app, fold_left_app. reflexivity.
Qed.

Lemma witness_has2 S len n a b : (3 < len <= 8)%nat -> has2 (witness_voc S len n) a b -> (a * S + b < n)%nat.
Proof.
  intros Hlen. induction n as [|n IH].
  - intros (p & k & [] & _).
  - rewrite witness_voc_S. destruct (witness_code S len n Hlen) as (c & rest & _ & -> & _).
    intros H. apply has2_ins1 in H. destruct H as [H|[-> ->]]; [specialize (IH H); lia|].
    pose proof (Nat.div_mod_eq n S). lia.
Qed.

Section Witness.
  Variable L : layout.
  Hypothesis HL : layout_ok L = true.

  Lemma sum_N_app {A} (g : A -> N) l1 l2 : sum_N g (l1 ++ l2) = sum_N g l1 + sum_N g l2.
  Proof. unfold sum_N. induction l1 as [|x l1 IH]; cbn; [reflexivity|]. rewrite IH. lia. Qed.

  Lemma sum_upd_ge {A} (h : page A -> N) k f (v : lvl A) d :
    h page0 + d <= h (f page0) -> (forall p, In (k, p) v -> h p + d <= h (f p)) ->
    sum_N (fun kp => h (snd kp)) v + d <= sum_N (fun kp => h (snd kp)) (upd k f v).
  Proof.
    intros H0 H. destruct (upd_split k f v) as (l1 & p & l2 & -> & [->|[-> ->]]); rewrite !sum_N_app; unfold sum_N; cbn [fold_right snd]; [|lia].
    assert (Hp : h p + d <= h (f p)) by (apply H; rewrite in_app_iff; cbn; auto). lia.
  Qed.

  Lemma bytes_trunk_upd_new {A} (next : A -> N) k f (v : lvl A) : ~ In k (map fst v) ->
    bytes_trunk L next (upd k f v) = bytes_trunk L next v + sz_trunknode L + bytes_page L next (f page0).
  Proof.
    intros Hk. pose proof (le_trunk L HL) as Hle. unfold bytes_trunk, arr_bytes.
    destruct (upd_split k f v) as (l1 & p & l2 & -> & [->|[-> ->]]).
    - exfalso. apply Hk. rewrite map_app, in_app_iff. cbn. auto.
    - rewrite !sum_N_app, !app_length. unfold sum_N. cbn [fold_right snd length]. lia.
  Qed.

  (* what a row with a new two-syllable prefix and [len] syllables adds: a node of the second level, a third
     level of one node, a tail of one entry *)
  Definition witness_row_bytes (len : nat) : N :=
    sz_trunknode L + sz_arr_trunknode L + sz_arr_longentry L + sz_syllid L * N.of_nat (len - 3).

  Lemma bytes_head_ins_new S e a b c rest v : rest <> [] -> ~ has2 v a b ->
    bytes_head L S v + witness_row_bytes (length (e_code e)) <= bytes_head L S (ins1 e (a :: b :: c :: rest) v).
  Proof.
    intros Hrest Hnew. unfold bytes_head. rewrite <- N.add_assoc. apply N.add_le_mono_l.
    assert (Hpage : forall n : voc2, ~ In b (map fst n) ->
              bytes_trunk2 L (ins2 e (b :: c :: rest) n) = bytes_trunk2 L n + witness_row_bytes (length (e_code e))).
    { intros n Hn. unfold bytes_trunk2, ins2, ins_lvl. rewrite bytes_trunk_upd_new by exact Hn.
      destruct rest as [|r rs]; [congruence|].
      cbv [bytes_page on_next ins3 ins_lvl upd page0 p_entries p_next bytes_trunk3 bytes_trunk bytes_tail ins4
           app length sum_N fold_right snd arr_bytes witness_row_bytes]. lia. }
    apply (sum_upd_ge (bytes_page L (bytes_trunk2 L))).
    - unfold bytes_page, on_next. cbn [p_entries p_next page0]. rewrite (Hpage [] (fun H => H)). lia.
    - intros [es [n|]] Hp; unfold bytes_page, on_next; cbn [p_entries p_next].
      + rewrite Hpage; [lia|]. intros Hb. apply Hnew. now exists {| p_entries := es; p_next := Some n |}, n.
      + rewrite (Hpage [] (fun H => H)). lia.
  Qed.

  Lemma witness_head_ge S len n : (3 < len <= 8)%nat ->
    arr_bytes (sz_arr_headnode L) (sz_headnode L) S + N.of_nat n * witness_row_bytes len
    <= bytes_head L S (witness_voc S len n).
  Proof.
    intros Hlen. induction n as [|n IH]; [unfold bytes_head; cbn; lia|].
    rewrite witness_voc_S. destruct (witness_code S len n Hlen) as (c & rest & Hrest & Hcode & Hl). rewrite Hcode at 1.
    etransitivity; [|apply (bytes_head_ins_new S _ _ _ c rest); [exact Hrest|]].
    - rewrite Hl. lia.
    - intros H. apply (witness_has2 S len n _ _ Hlen) in H. pose proof (Nat.div_mod_eq n S). lia.
  Qed.

  Theorem witness_bytes_ge S len n img : (3 < len <= 8)%nat ->
    sz_metadata L + arr_bytes (sz_arr_stringtype L) (sz_stringtype L) S + arr_bytes (sz_arr_headnode L) (sz_headnode L) S +
    N.of_nat n * witness_row_bytes len + img <= bytes_needed L S (witness_voc S len n) img.
  Proof. intros Hlen. pose proof (witness_head_ge S len n Hlen). unfold bytes_needed, bytes_fixed. lia. Qed.
End Witness.
