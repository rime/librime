(** C08 - the backward pass of BuildSyllableGraph (lines 140-188) and
    CheckOverlappedSpellings: which vertices and syllables survive. *)
From Coq Require Import List Arith Bool Lia.
From RimeV Require Import Base.ListX Dict.Syll Dict.SyllBase Dict.SyllSpec Dict.SyllFwdInv.
Import ListNotations.

(** ** equality of graphs up to the penalty count of credibilities *)
Definition shape_eq (a b : props) : Prop :=
  p_type a = p_type b /\ p_end a = p_end b /\
  c_base (p_cred a) = c_base (p_cred b) /\ c_comp (p_cred a) = c_comp (p_cred b).

Inductive orel {A} (R : A -> A -> Prop) : option A -> option A -> Prop :=
| orel_none : orel R None None
| orel_some a b : R a b -> orel R (Some a) (Some b).

Definition sm_eqv (a b : smap) : Prop := forall sid, orel shape_eq (nm_find sid a) (nm_find sid b).
Definition ev_eqv (a b : evmap) : Prop := forall e, orel sm_eqv (nm_find e a) (nm_find e b).
Definition es_eqv (a b : emap) : Prop := forall s, orel ev_eqv (nm_find s a) (nm_find s b).

Lemma shape_eq_refl a : shape_eq a a.
Proof. repeat split. Qed.
Lemma shape_eq_trans a b c : shape_eq a b -> shape_eq b c -> shape_eq a c.
Proof. unfold shape_eq. intuition congruence. Qed.
Lemma shape_eq_sym a b : shape_eq a b -> shape_eq b a.
Proof. unfold shape_eq. intuition congruence. Qed.

Lemma orel_refl {A} (R : A -> A -> Prop) : (forall a, R a a) -> forall o, orel R o o.
Proof. intros H [a|]; constructor. apply H. Qed.
Lemma orel_trans {A} (R : A -> A -> Prop) :
  (forall a b c, R a b -> R b c -> R a c) -> forall x y z, orel R x y -> orel R y z -> orel R x z.
Proof.
  intros H x y z H1 H2. destruct H1; inversion H2; subst; constructor. eapply H; eauto.
Qed.
Lemma orel_sym {A} (R : A -> A -> Prop) :
  (forall a b, R a b -> R b a) -> forall x y, orel R x y -> orel R y x.
Proof. intros H x y H1. destruct H1; constructor. now apply H. Qed.

Lemma sm_eqv_refl a : sm_eqv a a.
Proof. intro. apply orel_refl. apply shape_eq_refl. Qed.
Lemma sm_eqv_trans a b c : sm_eqv a b -> sm_eqv b c -> sm_eqv a c.
Proof. intros H1 H2 sid. eapply orel_trans; [apply shape_eq_trans|apply H1|apply H2]. Qed.
Lemma sm_eqv_sym a b : sm_eqv a b -> sm_eqv b a.
Proof. intros H sid. apply orel_sym; [apply shape_eq_sym|apply H]. Qed.
Lemma ev_eqv_refl a : ev_eqv a a.
Proof. intro. apply orel_refl. apply sm_eqv_refl. Qed.
Lemma ev_eqv_trans a b c : ev_eqv a b -> ev_eqv b c -> ev_eqv a c.
Proof. intros H1 H2 e. eapply orel_trans; [apply sm_eqv_trans|apply H1|apply H2]. Qed.
Lemma ev_eqv_sym a b : ev_eqv a b -> ev_eqv b a.
Proof. intros H e. apply orel_sym; [apply sm_eqv_sym|apply H]. Qed.
Lemma es_eqv_refl a : es_eqv a a.
Proof. intro. apply orel_refl. apply ev_eqv_refl. Qed.
Lemma es_eqv_trans a b c : es_eqv a b -> es_eqv b c -> es_eqv a c.
Proof. intros H1 H2 s. eapply orel_trans; [apply ev_eqv_trans|apply H1|apply H2]. Qed.

Lemma orel_some_l {A} {R : A -> A -> Prop} {x y} a : orel R x y -> x = Some a -> exists b, y = Some b /\ R a b.
Proof. intros [|a' b H] E; inversion E; subst. eauto. Qed.
Lemma orel_some_r {A} {R : A -> A -> Prop} {x y} b : orel R x y -> y = Some b -> exists a, x = Some a /\ R a b.
Proof. intros [|a b' H] E; inversion E; subst. eauto. Qed.
Lemma orel_none_l {A} (R : A -> A -> Prop) y : orel R None y -> y = None.
Proof. intro H. now inversion H. Qed.
Lemma orel_none_r {A} (R : A -> A -> Prop) x : orel R x None -> x = None.
Proof. intro H. now inversion H. Qed.

Lemma sm_eqv_nil a b : sm_eqv a b -> a = [] -> b = [].
Proof.
  intros H ->. apply nm_empty_find. intro k. specialize (H k). cbn in H. now inversion H.
Qed.

Lemma sm_eqv_nil_iff a b : sm_eqv a b -> (a = [] <-> b = []).
Proof. intro H. split; [now apply sm_eqv_nil|apply sm_eqv_nil; now apply sm_eqv_sym]. Qed.

(** the k loop keeps the syllables of an edge whose type is not worse than last_type *)
Definition tfilter (lt : nat) (sm : smap) : smap := filter (fun kv => p_type (snd kv) <=? lt) sm.

Lemma tfilter_find lt sm sid :
  nm_sorted sm ->
  nm_find sid (tfilter lt sm) =
  match nm_find sid sm with Some pr => if p_type pr <=? lt then Some pr else None | None => None end.
Proof. apply nm_find_filter. Qed.

Lemma tfilter_entry lt sm sid pr :
  nm_sorted sm ->
  (nm_find sid (tfilter lt sm) = Some pr <-> nm_find sid sm = Some pr /\ p_type pr <= lt).
Proof.
  intro S. rewrite tfilter_find by exact S.
  destruct (nm_find sid sm) as [x|]; [|split; [discriminate|intros [H _]; discriminate]].
  destruct (p_type x <=? lt) eqn:T.
  - apply Nat.leb_le in T. split; [intro H; inversion H; subst; tauto|intros [H _]; exact H].
  - apply Nat.leb_gt in T. split; [discriminate|]. intros [H L]. inversion H; subst. lia.
Qed.

Lemma tfilter_nonempty lt sm :
  nm_sorted sm -> tfilter lt sm <> [] -> exists sid pr, nm_find sid sm = Some pr /\ p_type pr <= lt.
Proof.
  intros S H. apply nm_nonempty_find in H as (sid & pr & H). apply tfilter_entry in H; eauto.
Qed.

Lemma tfilter_sorted lt sm : nm_sorted sm -> nm_sorted (tfilter lt sm).
Proof. apply nm_sorted_filter. Qed.

Lemma sm_eqv_filter lt a b :
  nm_sorted a -> nm_sorted b -> sm_eqv a b -> sm_eqv (tfilter lt a) (tfilter lt b).
Proof.
  intros Sa Sb H sid. rewrite !tfilter_find by assumption.
  destruct (H sid) as [|x y Hxy]; [constructor|]. pose proof Hxy as (T & _). rewrite T.
  destruct (p_type y <=? lt); constructor. exact Hxy.
Qed.

Lemma nonempty_eqv a b : sm_eqv a b -> orel sm_eqv (nonempty a) (nonempty b).
Proof.
  intro H. destruct a as [|x a]; cbn.
  - rewrite (sm_eqv_nil _ _ H eq_refl). constructor.
  - destruct b as [|y b]; [|now constructor].
    apply sm_eqv_sym in H. discriminate (sm_eqv_nil _ _ H eq_refl).
Qed.

Definition find2 (es : emap) (s e : nat) : option smap :=
  match nm_find s es with Some ev => nm_find e ev | None => None end.

Lemma edge_at_find2 es s e sid pr :
  edge_at es s e sid pr <-> exists sm, find2 es s e = Some sm /\ nm_find sid sm = Some pr.
Proof.
  unfold edge_at, find2. split.
  - intros (ev & sm & H1 & H2 & H3). exists sm. now rewrite H1.
  - intros (sm & H1 & H2). destruct (nm_find s es) as [ev|] eqn:E; [|discriminate]. now exists ev, sm.
Qed.

Lemma find2_set es i ev s e :
  find2 (nm_set i ev es) s e = if i =? s then nm_find e ev else find2 es s e.
Proof. unfold find2. rewrite nm_find_set. now destruct (i =? s). Qed.

Lemma find2_find_or_empty es s e : nm_find e (find_or_empty s es) = find2 es s e.
Proof. unfold find2, find_or_empty, evmap. now destruct (nm_find s es). Qed.

Lemma find2_eqv (es es' : emap) s e :
  orel ev_eqv (nm_find s es) (nm_find s es') -> orel sm_eqv (find2 es s e) (find2 es' s e).
Proof. unfold find2. intros [|ev ev' H]; [constructor|apply H]. Qed.

Lemma find2_sorted es s e sm : maps_sorted es -> find2 es s e = Some sm -> nm_sorted sm.
Proof.
  unfold find2. intros (_ & S) H. destruct (nm_find s es) as [ev|] eqn:E; [|discriminate].
  destruct (S s ev E) as [_ S']. eauto.
Qed.

Lemma find_or_empty_sorted es s :
  maps_sorted es ->
  nm_sorted (find_or_empty s es) /\ forall e sm, nm_find e (find_or_empty s es) = Some sm -> nm_sorted sm.
Proof.
  intro S. split.
  - apply find_or_empty_ind; [apply nm_sorted_nil|]. intros ev E. destruct S as (_ & S). now destruct (S s ev E).
  - intros e sm. rewrite find2_find_or_empty. now apply find2_sorted.
Qed.

Lemma maps_sorted_erase (es : emap) i : maps_sorted es -> maps_sorted (nm_erase i es).
Proof.
  intros (S1 & S2). split; [now apply nm_sorted_erase|].
  intros s ev F. rewrite nm_find_erase in F. destruct (i =? s); [discriminate|eauto].
Qed.

Definition keys_sub (es : emap) (vs : vmap) : Prop :=
  forall s ev, nm_find s es = Some ev -> exists t, nm_find s vs = Some t.

Definition gwf (g : gstate) : Prop :=
  keys_sub (snd g) (fst g) /\ maps_sorted (snd g) /\ nm_sorted (fst g).

Lemma gwf_set_row g i (ev : evmap) :
  gwf g -> (exists t, nm_find i (fst g) = Some t) ->
  nm_sorted ev -> (forall e sm, nm_find e ev = Some sm -> nm_sorted sm) ->
  gwf (fst g, nm_set i ev (snd g)).
Proof.
  intros (K & S & Sv) Hi S1 S2. split; [|split; [now apply maps_sorted_set1|exact Sv]].
  intros s ev' F. cbn [fst snd] in *. rewrite nm_find_set in F.
  destruct (i =? s) eqn:E; [apply Nat.eqb_eq in E; now subst s|eauto].
Qed.

Lemma gwf_erase g i : gwf g -> gwf (nm_erase i (fst g), nm_erase i (snd g)).
Proof.
  intros (K & S & Sv). split; [|split; [now apply maps_sorted_erase|now apply nm_sorted_erase]].
  intros s ev F. cbn [fst snd] in *. rewrite nm_find_erase in F. rewrite nm_find_erase. destruct (i =? s); [discriminate|eauto].
Qed.

(** what a state transformer may do to the vertex map: retype existing
    vertices of [J] to kAmbiguousSpelling *)
Definition retyped (J : nat -> Prop) (vs vs' : vmap) : Prop :=
  forall v, nm_find v vs' = nm_find v vs \/
            (nm_find v vs' = Some kAmbiguousSpelling /\ (exists t, nm_find v vs = Some t) /\ J v).

Lemma retyped_refl J vs : retyped J vs vs.
Proof. intro v. now left. Qed.

Lemma retyped_trans J vs1 vs2 vs3 : retyped J vs1 vs2 -> retyped J vs2 vs3 -> retyped J vs1 vs3.
Proof.
  intros H1 H2 v. destruct (H2 v) as [E|(E & (t & Ht) & Jv)].
  - rewrite E. apply H1.
  - right. split; [exact E|]. split; [|exact Jv].
    destruct (H1 v) as [E1|(_ & T & _)]; [rewrite <- E1; eauto|exact T].
Qed.

Lemma retyped_weaken (J J' : nat -> Prop) vs vs' :
  (forall v, J v -> J' v) -> retyped J vs vs' -> retyped J' vs vs'.
Proof. intros H R v. destruct (R v) as [E|(E & T & Jv)]; [now left|right; auto]. Qed.

Definition evolves (J : nat -> Prop) (g g' : gstate) : Prop :=
  gwf g' /\ es_eqv (snd g) (snd g') /\ retyped J (fst g) (fst g').

Lemma evolves_refl J g : gwf g -> evolves J g g.
Proof. intro W. split; [exact W|]. split; [apply es_eqv_refl|apply retyped_refl]. Qed.

Lemma evolves_trans J g1 g2 g3 : evolves J g1 g2 -> evolves J g2 g3 -> evolves J g1 g3.
Proof.
  intros (_ & E1 & R1) (W & E2 & R2). split; [exact W|].
  split; [eapply es_eqv_trans; eauto|eapply retyped_trans; eauto].
Qed.

Lemma evolves_weaken (J J' : nat -> Prop) g g' :
  (forall v, J v -> J' v) -> evolves J g g' -> evolves J' g g'.
Proof. intros H (W & E & R). split; [exact W|]. split; [exact E|eapply retyped_weaken; eauto]. Qed.

(** ** CheckOverlappedSpellings changes credibilities and vertex types only *)
Lemma penalize_find sid sm :
  nm_find sid (penalize sm) =
  option_map (fun pr => mkProps (p_type pr) (p_end pr)
                          (mkCred (c_base (p_cred pr)) (c_comp (p_cred pr)) (S (c_pen (p_cred pr)))))
             (nm_find sid sm).
Proof.
  induction sm as [|[k v] r IH]; cbn; [reflexivity|]. destruct (k =? sid); [reflexivity|exact IH].
Qed.

Lemma penalize_eqv sm : sm_eqv sm (penalize sm).
Proof.
  intro sid. rewrite penalize_find. destruct (nm_find sid sm); constructor. repeat split.
Qed.

Lemma penalize_sorted sm : nm_sorted sm -> nm_sorted (penalize sm).
Proof. unfold nm_sorted, penalize. now rewrite map_map. Qed.

Lemma x_scan_find e xev : x_scan e xev = true -> exists sm, nm_find e xev = Some sm.
Proof.
  induction xev as [|[xe sm] r IH]; cbn [x_scan nm_find]; [discriminate|].
  destruct (xe <? e) eqn:L.
  - intro H. apply Nat.ltb_lt in L. destruct (xe =? e) eqn:E; [apply Nat.eqb_eq in E; lia|now apply IH].
  - intro H. rewrite H. eauto.
Qed.

(** the body of the y loop at an ambiguous joint *)
Lemma mark_joint_evolves g joint xev e sm :
  gwf g -> nm_find joint (snd g) = Some xev -> nm_find e xev = Some sm ->
  evolves (eq joint) g (nm_set joint kAmbiguousSpelling (fst g),
                        nm_set joint (nm_set e (penalize sm) xev) (snd g)).
Proof.
  intros W Fx Fe. pose proof W as (K & S & Sv). destruct (S) as (_ & S2). destruct (S2 joint xev Fx) as [Sx Sy].
  split; [|split]; cbn [fst snd].
  - split; [|split; [|now apply nm_sorted_set]]; cbn [fst snd].
    + intros s ev Fs. rewrite nm_find_set in Fs. rewrite nm_find_set.
      destruct (joint =? s); [eauto|]. eapply K; eauto.
    + apply maps_sorted_set1; [exact S|now apply nm_sorted_set|].
      intros e' sm' F'. rewrite nm_find_set in F'. destruct (e =? e'); [|eauto].
      inversion F'; subst sm'. apply penalize_sorted. eauto.
  - intro s. rewrite nm_find_set. destruct (joint =? s) eqn:E; [|apply orel_refl, ev_eqv_refl].
    apply Nat.eqb_eq in E. subst s. rewrite Fx. constructor. intro e'. rewrite nm_find_set.
    destruct (e =? e') eqn:E'; [|apply orel_refl, sm_eqv_refl].
    apply Nat.eqb_eq in E'. subst e'. rewrite Fe. constructor. apply penalize_eqv.
  - intro v. rewrite nm_find_set. destruct (joint =? v) eqn:E; [|now left].
    apply Nat.eqb_eq in E. right. split; [reflexivity|]. split; [subst v; eapply K; eauto|exact E].
Qed.

Lemma y_loop_spec e ys g :
  gwf g -> evolves (fun v => In v ys /\ v < e) g (y_loop e ys g).
Proof.
  revert g. induction ys as [|joint r IH]; intros g W; cbn [y_loop]; [now apply evolves_refl|].
  destruct (e <=? joint) eqn:L; [now apply evolves_refl|]. apply Nat.leb_gt in L.
  set (g1 := match nm_find joint (snd g) with Some _ => _ | None => _ end).
  assert (H1 : evolves (eq joint) g g1).
  { unfold g1. destruct (nm_find joint (snd g)) as [xev|] eqn:F; [|now apply evolves_refl].
    destruct (x_scan e xev) eqn:X; [|now apply evolves_refl].
    destruct (x_scan_find _ _ X) as [sm Fsm]. rewrite (find_or_empty_some e xev sm Fsm).
    now apply mark_joint_evolves. }
  eapply evolves_trans.
  - eapply evolves_weaken; [|exact H1]. intros v <-. split; [now left|exact L].
  - eapply evolves_weaken; [|apply IH, H1]. intros v [Hv Lv]. split; [now right|exact Lv].
Qed.

Lemma check_overlapped_spec g start e :
  gwf g ->
  evolves (fun v => v < e /\ exists ev sm, nm_find start (snd g) = Some ev /\ nm_find v ev = Some sm)
          g (check_overlapped g start e).
Proof.
  intro W. unfold check_overlapped. destruct (nm_find start (snd g)) as [yev|] eqn:F; [|now apply evolves_refl].
  eapply evolves_weaken; [|now apply y_loop_spec]. intros v [Hv Lv]. split; [exact Lv|].
  apply nm_keys_find in Hv as [sm Hsm]. eauto.
Qed.

Definition memb (x : nat) (l : list nat) : bool := existsb (Nat.eqb x) l.

Lemma memb_In x l : memb x l = true <-> In x l.
Proof.
  unfold memb. rewrite existsb_exists. split.
  - intros (y & Hy & E). apply Nat.eqb_eq in E. now subst.
  - intro H. exists x. split; [exact H|apply Nat.eqb_refl].
Qed.

(** ** one vertex of the backward pass: the j loop over the ends of [i] *)
Section PruneVertex.
  Variable lt : nat.             (* last_type *)
  Variable i : nat.              (* the vertex being examined *)
  Variable hi : nat.             (* the farthest position *)
  Variable good : list nat.
  Variable vs : vmap.            (* state when the i loop reaches [i] *)
  Variable es : emap.
  Hypothesis Hwf : gwf (vs, es).
  Hypothesis Hvi : exists t, nm_find i vs = Some t.
  Hypothesis Hends : forall e sm, find2 es i e = Some sm -> i < e <= hi.

  (** graph->edges[i] creates the row when there is none *)
  Let ev0 : evmap := find_or_empty i es.

  (** the entry of end [e] once the j loop has passed it *)
  Definition pruned (e : nat) (osm : option smap) : option smap :=
    if memb e good then
      match osm with Some sm => nonempty (tfilter lt sm) | None => None end
    else None.

  Definition pr_entry (pre : list nat) (e : nat) : option smap :=
    if memb e pre then pruned e (find2 es i e) else find2 es i e.

  (** a state of the j loop whose row [i] is [row] up to penalties: the other
      rows are as they were; CheckOverlappedSpellings has only touched
      penalties and the types of vertices strictly between [i] and [hi] *)
  Definition II (row : nat -> option smap) (g : gstate) : Prop :=
    gwf g /\ retyped (fun v => i < v < hi) vs (fst g) /\
    (forall s, s <> i -> orel ev_eqv (nm_find s es) (nm_find s (snd g))) /\
    exists evc, nm_find i (snd g) = Some evc /\ forall e, orel sm_eqv (row e) (nm_find e evc).

  Lemma II_ext row row' g : (forall e, row e = row' e) -> II row g -> II row' g.
  Proof.
    intros E (W & I3 & I2 & evc & Hevc & I1). split; [exact W|]. split; [exact I3|]. split; [exact I2|].
    exists evc. split; [exact Hevc|]. intro e. rewrite <- E. apply I1.
  Qed.

  Lemma pruned_eqv e o o' :
    (forall sm, o = Some sm -> nm_sorted sm) -> (forall sm, o' = Some sm -> nm_sorted sm) ->
    orel sm_eqv o o' -> orel sm_eqv (pruned e o) (pruned e o').
  Proof.
    intros S S' H. unfold pruned. destruct (memb e good); [|constructor].
    destruct H as [|sm sm' H]; [constructor|]. apply nonempty_eqv. apply sm_eqv_filter; auto.
  Qed.

  Lemma pr_entry_other pre j e : e <> j -> pr_entry (pre ++ [j]) e = pr_entry pre e.
  Proof.
    intro N. unfold pr_entry, memb. rewrite existsb_app. cbn.
    destruct (e =? j) eqn:E; [apply Nat.eqb_eq in E; congruence|]. now rewrite !orb_false_r.
  Qed.

  Lemma pr_entry_new pre j : pr_entry (pre ++ [j]) j = pruned j (find2 es i j).
  Proof.
    unfold pr_entry, memb. rewrite existsb_app. cbn. rewrite Nat.eqb_refl. cbn. now rewrite orb_true_r.
  Qed.

  Lemma pr_entry_end pre e sm : pr_entry pre e = Some sm -> exists sm0, find2 es i e = Some sm0.
  Proof.
    unfold pr_entry, pruned. destruct (memb e pre); [|eauto].
    destruct (memb e good); [|discriminate]. destruct (find2 es i e); [eauto|discriminate].
  Qed.

  Lemma pr_entry_all e : pr_entry (map fst ev0) e = pruned e (find2 es i e).
  Proof.
    unfold pr_entry. destruct (memb e (map fst ev0)) eqn:M; [reflexivity|].
    destruct (find2 es i e) as [sm|] eqn:F2; [|unfold pruned; now destruct (memb e good)].
    rewrite <- find2_find_or_empty in F2. apply nm_find_keys, memb_In in F2. fold ev0 in F2. congruence.
  Qed.

  Lemma II_init : II (pr_entry []) (vs, nm_set i ev0 es).
  Proof.
    destruct (find_or_empty_sorted es i (proj1 (proj2 Hwf))) as [S1 S2].
    split; [now apply (gwf_set_row (vs, es))|]. split; [apply retyped_refl|]. cbn [fst snd]. split.
    - intros s N. rewrite nm_find_set_neq by congruence. apply orel_refl, ev_eqv_refl.
    - exists ev0. split; [apply nm_find_set_eq|]. intro e. unfold pr_entry, ev0. cbn [memb existsb].
      rewrite find2_find_or_empty. apply orel_refl, sm_eqv_refl.
  Qed.

  Lemma II_write pre j g evc evc' new :
    II (pr_entry pre) g -> nm_find i (snd g) = Some evc ->
    (forall e, nm_find e evc' = if j =? e then new else nm_find e evc) ->
    nm_sorted evc' -> (forall sm, new = Some sm -> nm_sorted sm) ->
    orel sm_eqv (pruned j (find2 es i j)) new ->
    II (pr_entry (pre ++ [j])) (fst g, nm_set i evc' (snd g)).
  Proof.
    intros (W & I3 & I2 & evc1 & Hevc1 & I1) Hevc Hfind S1 S2 Hnew.
    rewrite Hevc in Hevc1. inversion Hevc1; subst evc1.
    split; [|split; [exact I3|split]]; cbn [fst snd].
    - apply gwf_set_row; [exact W|destruct W as (K & _); eapply K; eauto|exact S1|].
      intros e sm Fe. rewrite Hfind in Fe. destruct (j =? e); [now apply S2|].
      destruct W as (_ & (_ & S) & _). destruct (S i evc Hevc) as [_ S']. eauto.
    - intros s Hs. rewrite nm_find_set_neq by congruence. now apply I2.
    - exists evc'. split; [apply nm_find_set_eq|]. intro e. rewrite Hfind.
      destruct (j =? e) eqn:E.
      + apply Nat.eqb_eq in E. subst e. now rewrite pr_entry_new.
      + apply Nat.eqb_neq in E. rewrite pr_entry_other by congruence. apply I1.
  Qed.

  Lemma II_evolves row g g' : II row g -> evolves (fun v => i < v < hi) g g' -> II row g'.
  Proof.
    intros (_ & I3 & I2 & evc & Hevc & I1) (W & E & R).
    split; [exact W|]. split; [eapply retyped_trans; eauto|]. split.
    - intros s Hs. eapply orel_trans; [apply ev_eqv_trans|now apply I2|apply E].
    - destruct (orel_some_l _ (E i) Hevc) as (evc' & Hevc' & Eq).
      exists evc'. split; [exact Hevc'|]. intro e.
      eapply orel_trans; [apply sm_eqv_trans|apply I1|apply Eq].
  Qed.

  Lemma prune_edge_step pre j g :
    II (pr_entry pre) g -> In j (map fst ev0) -> ~ In j pre ->
    II (pr_entry (pre ++ [j])) (prune_edge lt i good g j).
  Proof.
    intros I Hj Hnp. pose proof I as (W & _ & _ & evc & Hevc & I1).
    destruct (nm_keys_find _ _ Hj) as [sm0 Hsm0]. unfold ev0 in Hsm0. rewrite find2_find_or_empty in Hsm0.
    assert (Hpre : pr_entry pre j = Some sm0).
    { unfold pr_entry. destruct (memb j pre) eqn:M; [apply memb_In in M; contradiction|exact Hsm0]. }
    destruct (orel_some_l _ (I1 j) Hpre) as (smc & Hsmc & Eqc).
    pose proof (find2_sorted es i j sm0 (proj1 (proj2 Hwf)) Hsm0) as Ssm.
    destruct W as (_ & (_ & S2) & _). destruct (S2 i evc Hevc) as [Sevc Ssmc'].
    pose proof (Ssmc' _ _ Hsmc) as Ssmc.
    (* what the model writes at end j is [pruned j (Some smc)] *)
    assert (Hnew : orel sm_eqv (pruned j (find2 es i j)) (pruned j (Some smc))).
    { rewrite Hsm0. apply pruned_eqv; [intros ? [= <-]; exact Ssm|intros ? [= <-]; exact Ssmc|now constructor]. }
    pose proof (fun evc' new => II_write pre j g evc evc' new I Hevc) as Write.
    unfold prune_edge. rewrite (find_or_empty_some i (snd g) evc Hevc), Hsmc.
    unfold prune_spellings. cbn [fst snd]. fold (memb j good) (tfilter lt smc).
    unfold pruned at 2 in Hnew. destruct (memb j good); cbn [negb].
    2:{ apply (Write _ None (fun e => nm_find_erase j e evc)); [now apply nm_sorted_erase|discriminate|exact Hnew]. }
    destruct (tfilter lt smc) as [|a0 r0] eqn:Ek; cbn [nonempty] in Hnew.
    { apply (Write _ None (fun e => nm_find_erase j e evc)); [now apply nm_sorted_erase|discriminate|exact Hnew]. }
    rewrite <- Ek in *.
    assert (II1 : II (pr_entry (pre ++ [j])) (fst g, nm_set i (nm_set j (tfilter lt smc) evc) (snd g))).
    { apply (Write _ (Some (tfilter lt smc)) (fun e => nm_find_set j e (tfilter lt smc) evc));
        [now apply nm_sorted_set|intros sm [= <-]; now apply tfilter_sorted|exact Hnew]. }
    match goal with |- II _ (if ?c then _ else _) => destruct c end; [|exact II1].
    (* CheckOverlappedSpellings(graph, i, j) retypes ends of row i below j *)
    apply (II_evolves _ _ _ II1). pose proof II1 as (W1 & _ & _ & evc1 & Hevc1 & K1).
    eapply evolves_weaken; [|apply check_overlapped_spec, W1].
    intros v (Lvj & ev & sm & Fi & Fv). rewrite Hevc1 in Fi. inversion Fi; subst ev.
    destruct (orel_some_r _ (K1 v) Fv) as (x & Hx & _).
    apply pr_entry_end in Hx as [smv Hv]. apply Hends in Hv. apply Hends in Hsm0. lia.
  Qed.

  Lemma prune_edges_loop :
    II (fun e => pruned e (find2 es i e))
       (fold_left (prune_edge lt i good) (map fst ev0) (vs, nm_set i ev0 es)).
  Proof.
    apply (II_ext _ _ _ pr_entry_all).
    apply (fold_left_prefix_inv (fun pre => II (pr_entry pre)) (prune_edge lt i good)); [exact II_init|].
    intros pre x post a E Ha. apply prune_edge_step; [exact Ha| |].
    - rewrite E. apply in_app_iff. right. now left.
    - destruct (find_or_empty_sorted es i (proj1 (proj2 Hwf))) as [S _]. apply nm_sorted_nodup in S.
      fold ev0 in S. rewrite E in S.
      apply NoDup_remove_2 in S. intro C. apply S. apply in_app_iff. now left.
  Qed.
End PruneVertex.

Section Backward.
  Variable vs0 : vmap.       (* result of the forward phase *)
  Variable es0 : emap.
  Variable F : nat.          (* farthest *)
  Variable lt : nat.         (* last_type *)

  Hypothesis H_wf : gwf (vs0, es0).
  Hypothesis H_fwd : forall s e sm, find2 es0 s e = Some sm -> s < e <= F.

  (** the vertices that survive: [F], and every typed-admissible vertex with an
      admissible syllable on an edge into a surviving vertex *)
  Inductive Good : nat -> Prop :=
  | Good_far : Good F
  | Good_step i t e sm0 :
      i < F -> nm_find i vs0 = Some t -> t <= lt -> Good e ->
      find2 es0 i e = Some sm0 -> tfilter lt sm0 <> [] -> Good i.

  Lemma Good_le v : Good v -> v <= F.
  Proof. destruct 1; lia. Qed.

  Lemma Good_vertex v : Good v -> v < F -> exists t, nm_find v vs0 = Some t /\ t <= lt.
  Proof. destruct 1; [lia|eauto]. Qed.

  Definition BI (k : nat) (st : gstate * list nat) : Prop :=
    let vs := fst (fst st) in
    let es := snd (fst st) in
    let good := snd st in
    (forall v, In v good <-> Good v /\ k <= v) /\
    (forall v, v < k \/ F <= v -> nm_find v vs = nm_find v vs0) /\
    (forall v t, k <= v -> v < F -> nm_find v vs = Some t ->
        Good v /\ exists t0, nm_find v vs0 = Some t0 /\ (t = t0 \/ t = kAmbiguousSpelling)) /\
    (forall v, k <= v -> v < F -> Good v -> exists t, nm_find v vs = Some t) /\
    (forall s, s < k \/ F <= s -> orel ev_eqv (nm_find s es0) (nm_find s es)) /\
    (forall s ev, k <= s -> s < F -> nm_find s es = Some ev ->
        Good s /\ forall e sm, nm_find e ev = Some sm ->
                    Good e /\ sm <> [] /\
                    exists sm0, find2 es0 s e = Some sm0 /\ sm_eqv (tfilter lt sm0) sm) /\
    (forall s e sm0, k <= s -> s < F -> Good s -> Good e -> find2 es0 s e = Some sm0 ->
        tfilter lt sm0 <> [] -> exists sm, find2 es s e = Some sm /\ sm_eqv (tfilter lt sm0) sm) /\
    keys_sub es vs /\ maps_sorted es /\ nm_sorted vs.

  (** [BI k] speaks of each position by itself: one the loop has not reached is
      as the forward phase left it, up to penalties; one it has passed is a
      vertex iff it is Good, with the forward row filtered by last_type into
      Good ends as its row *)
  Definition fresh (v : nat) (vs : vmap) (es : emap) : Prop :=
    nm_find v vs = nm_find v vs0 /\ orel ev_eqv (nm_find v es0) (nm_find v es).

  Definition settled (v : nat) (vs : vmap) (es : emap) : Prop :=
    (forall t, nm_find v vs = Some t ->
        Good v /\ exists t0, nm_find v vs0 = Some t0 /\ (t = t0 \/ t = kAmbiguousSpelling)) /\
    (Good v -> exists t, nm_find v vs = Some t) /\
    (forall ev, nm_find v es = Some ev ->
        Good v /\ forall e sm, nm_find e ev = Some sm ->
                    Good e /\ sm <> [] /\
                    exists sm0, find2 es0 v e = Some sm0 /\ sm_eqv (tfilter lt sm0) sm) /\
    (forall e sm0, Good v -> Good e -> find2 es0 v e = Some sm0 ->
        tfilter lt sm0 <> [] -> exists sm, find2 es v e = Some sm /\ sm_eqv (tfilter lt sm0) sm).

  Lemma BI_pointwise k vs es good :
    BI k ((vs, es), good) <->
    (forall v, In v good <-> Good v /\ k <= v) /\
    (forall v, v < k \/ F <= v -> fresh v vs es) /\
    (forall v, k <= v -> v < F -> settled v vs es) /\
    gwf (vs, es).
  Proof.
    unfold BI, fresh, settled, gwf. cbn [fst snd]. split.
    - intros (B1 & Bv1 & Bv2 & Bv3 & Be1 & Be2 & Be3 & W).
      split; [exact B1|]. split; [intros v Hv; split; [now apply Bv1|now apply Be1]|]. split; [|exact W].
      intros v L1 L2. split; [intro t; now apply Bv2|]. split; [now apply Bv3|].
      split; [intro ev; now apply Be2|intros e sm0; now apply Be3].
    - intros (B1 & Hf & Hs & W). split; [exact B1|].
      split; [intros v Hv; apply (Hf v Hv)|]. split; [intros v t L1 L2; apply (Hs v L1 L2)|].
      split; [intros v L1 L2; apply (Hs v L1 L2)|]. split; [intros s Hv; apply (Hf s Hv)|].
      split; [intros s ev L1 L2; apply (Hs s L1 L2)|]. split; [intros s e sm0 L1 L2; apply (Hs s L1 L2)|exact W].
  Qed.

  Lemma fresh_keep v vs es vs' es' :
    fresh v vs es -> nm_find v vs' = nm_find v vs ->
    orel ev_eqv (nm_find v es) (nm_find v es') -> fresh v vs' es'.
  Proof.
    intros [E1 E2] Hv He. split; [congruence|]. eapply orel_trans; [apply ev_eqv_trans|exact E2|exact He].
  Qed.

  Lemma settled_keep v vs es vs' es' :
    settled v vs es ->
    nm_find v vs' = nm_find v vs \/
      (nm_find v vs' = Some kAmbiguousSpelling /\ exists t, nm_find v vs = Some t) ->
    orel ev_eqv (nm_find v es) (nm_find v es') -> settled v vs' es'.
  Proof.
    intros (S1 & S2 & S3 & S4) Hv He. split; [|split; [|split]].
    - intros t Ft. destruct Hv as [E|(E & t' & Ht')]; rewrite E in Ft; [now apply S1|].
      inversion Ft; subst t. destruct (S1 t' Ht') as (G & t0 & H0 & _).
      split; [exact G|]. exists t0. split; [exact H0|now right].
    - intro G. destruct Hv as [E|(E & _)]; rewrite E; [now apply S2|eauto].
    - intros ev' Fs. destruct (orel_some_r _ He Fs) as (ev & Fs0 & Eq).
      destruct (S3 ev Fs0) as [G R]. split; [exact G|]. intros e sm' Fe.
      destruct (orel_some_r _ (Eq e) Fe) as (sm & Fe0 & Eqs).
      destruct (R e sm Fe0) as (Ge & Ne & sm0 & F0 & Eq0). split; [exact Ge|]. split.
      + intro C. apply Ne. now apply (sm_eqv_nil_iff _ _ Eqs).
      + exists sm0. split; [exact F0|]. eapply sm_eqv_trans; eauto.
    - intros e sm0 G Ge F0 Hne. destruct (S4 e sm0 G Ge F0 Hne) as (sm & F2 & Eq).
      destruct (orel_some_l _ (find2_eqv es es' v e He) F2) as (sm' & F2' & Eq').
      exists sm'. split; [exact F2'|].
      eapply sm_eqv_trans; eauto.
  Qed.

  Lemma settled_absent v vs es :
    ~ Good v -> nm_find v vs = None -> nm_find v es = None -> settled v vs es.
  Proof.
    intros NG Hv He. unfold settled. rewrite Hv, He.
    split; [discriminate|]. split; [intro G; contradiction|]. split; [discriminate|].
    intros e sm0 G. contradiction.
  Qed.

  Definition good_row (v : nat) (ev : evmap) : Prop :=
    (forall e sm, nm_find e ev = Some sm ->
        Good e /\ sm <> [] /\ exists sm0, find2 es0 v e = Some sm0 /\ sm_eqv (tfilter lt sm0) sm) /\
    (forall e sm0, Good e -> find2 es0 v e = Some sm0 -> tfilter lt sm0 <> [] ->
        exists sm, nm_find e ev = Some sm /\ sm_eqv (tfilter lt sm0) sm).

  Lemma settled_kept v t vs es ev :
    Good v -> nm_find v vs0 = Some t -> nm_find v vs = Some t -> nm_find v es = Some ev -> good_row v ev ->
    settled v vs es.
  Proof.
    intros G Hv0 Hv He [Hin Hout]. unfold settled, find2. rewrite Hv, He. split; [|split; [|split]].
    - intros t' [= <-]. split; [exact G|]. exists t. split; [exact Hv0|now left].
    - intros _. eauto.
    - intros ev' [= <-]. split; [exact G|exact Hin].
    - intros e sm0 _. apply Hout.
  Qed.

  Lemma BI_advance k vs es good vs' es' good' :
    BI (S k) ((vs, es), good) -> k < F ->
    (forall v, v <> k ->
       nm_find v vs' = nm_find v vs \/
       (nm_find v vs' = Some kAmbiguousSpelling /\ (exists t, nm_find v vs = Some t) /\ k < v < F)) ->
    (forall s, s <> k -> orel ev_eqv (nm_find s es) (nm_find s es')) ->
    settled k vs' es' ->
    (forall v, In v good' <-> (v = k /\ Good k) \/ In v good) ->
    gwf (vs', es') ->
    BI k ((vs', es'), good').
  Proof.
    intros B HkF Hvs Hes Hk Hgood W. apply BI_pointwise in B as (B1 & Bf & Bs & _). apply BI_pointwise.
    split; [|split; [|split; [|exact W]]].
    - intro v. rewrite Hgood, B1. split.
      + intros [[-> G]|[G L]]; (split; [exact G|lia]).
      + intros [G L]. destruct (Nat.eq_dec v k) as [->|N]; [left; now split|right; split; [exact G|lia]].
    - intros v Hv. assert (N : v <> k) by lia.
      apply (fresh_keep v vs es); [apply Bf; lia| |now apply Hes].
      destruct (Hvs v N) as [E|(_ & _ & L)]; [exact E|lia].
    - intros v L1 L2. destruct (Nat.eq_dec v k) as [->|N]; [exact Hk|].
      apply (settled_keep v vs es); [apply Bs; lia| |now apply Hes].
      destruct (Hvs v N) as [E|(E & T & _)]; [now left|right; now split].
  Qed.

  Lemma pruned_row k vs es good evc :
    BI (S k) ((vs, es), good) ->
    (forall e, orel sm_eqv (pruned lt good e (find2 es k e)) (nm_find e evc)) ->
    good_row k evc.
  Proof.
    intros (B1 & Bf & _ & (_ & Ses & _))%BI_pointwise L.
    destruct (Bf k ltac:(lia)) as [_ Hk_eqv].
    assert (Hgood : forall e sm0, find2 es0 k e = Some sm0 -> (memb e good = true <-> Good e)).
    { intros e sm0 F0. apply H_fwd in F0. rewrite memb_In, B1. split; [tauto|]. intro G. split; [exact G|lia]. }
    assert (L0 : forall e, orel sm_eqv (pruned lt good e (find2 es0 k e)) (nm_find e evc)).
    { intro e. eapply orel_trans; [apply sm_eqv_trans| |apply L].
      apply pruned_eqv; [intro sm; apply find2_sorted, H_wf|intro sm; now apply find2_sorted|now apply find2_eqv]. }
    split.
    - intros e sm Fe. destruct (orel_some_r _ (L0 e) Fe) as (x & Hx & Eqx).
      unfold pruned in Hx. destruct (memb e good) eqn:Mg; [|discriminate].
      destruct (find2 es0 k e) as [sm0|] eqn:F0; [|discriminate].
      apply nonempty_some in Hx as [-> Ne].
      split; [now apply (Hgood e sm0)|]. split; [|eauto].
      intro C. apply Ne. now apply (sm_eqv_nil_iff _ _ Eqx).
    - intros e sm0 G F0 Hne. pose proof (L0 e) as Le. unfold pruned in Le. rewrite F0 in Le.
      rewrite (proj2 (Hgood e sm0 F0) G) in Le.
      destruct (tfilter lt sm0); [congruence|]. exact (orel_some_l _ Le eq_refl).
  Qed.

  (** the test of line 180: a vertex stays iff it is typed within last_type
      and the j loop has left it an edge *)
  Lemma good_row_Good k tk evc :
    k < F -> nm_find k vs0 = Some tk -> good_row k evc -> (Good k <-> tk <= lt /\ evc <> []).
  Proof.
    intros HkF Hvk [Hin Hout]. split.
    - intro G. destruct (Good_vertex k G HkF) as (t & Ht & Lt). rewrite Hvk in Ht. inversion Ht; subst t.
      split; [exact Lt|]. inversion G as [|? t e sm0 _ _ _ Ge F0 Hne]; subst; [lia|].
      destruct (Hout e sm0 Ge F0 Hne) as (sm & Fe & _). intro C. now rewrite C in Fe.
    - intros [Lt Hne]. apply nm_nonempty_find in Hne as (e & sm & Fe).
      destruct (Hin e sm Fe) as (Ge & Ne & sm0 & F0 & Eq).
      apply (Good_step k tk e sm0); try assumption.
      intro C. rewrite C in Eq. apply Ne. now apply (sm_eqv_nil _ _ Eq).
  Qed.

  Lemma BI_init : BI F ((vs0, es0), [F]).
  Proof.
    apply BI_pointwise. split; [|split; [|split; [|exact H_wf]]].
    - intro v. cbn. split.
      + intros [<-|[]]. split; [constructor|lia].
      + intros [G L]. apply Good_le in G. left. lia.
    - intros v _. split; [reflexivity|apply orel_refl, ev_eqv_refl].
    - intros; lia.
  Qed.

  Lemma BI_step k st : BI (S k) st -> S k <= F -> BI k (prune_vertex lt st k).
  Proof.
    destruct st as [[vs es] good]. intros B HkF.
    pose proof B as (_ & Bf & _ & W)%BI_pointwise.
    destruct (Bf k ltac:(lia)) as [Hvk Hk_eqv].
    unfold prune_vertex. cbn [fst snd].
    destruct (nm_find k vs) as [tk|] eqn:Fk.
    2:{ (* not a vertex *)
      assert (NG : ~ Good k).
      { intro G. destruct (Good_vertex k G ltac:(lia)) as (t & Ht & _). congruence. }
      apply (BI_advance k vs es good); [exact B|lia|now left|intros; apply orel_refl, ev_eqv_refl|
                                        |intro v; tauto|exact W].
      apply settled_absent; [exact NG|exact Fk|].
      destruct (nm_find k es) as [ev|] eqn:E; [|reflexivity].
      destruct W as (K & _). destruct (K k ev E) as [t Ht]. cbn in Ht. congruence. }
    (* a vertex: the j loop on row k *)
    symmetry in Hvk.
    assert (Hends : forall e sm, find2 es k e = Some sm -> k < e <= F).
    { intros e sm Fe. destruct (orel_some_r _ (find2_eqv _ _ k e Hk_eqv) Fe) as (sm0 & F0 & _).
      apply H_fwd in F0. lia. }
    destruct (prune_edges_loop lt k F good vs es W (ex_intro _ tk Fk) Hends) as (W1 & L3 & Hother & evc & Hevc & L1).
    set (g1 := fold_left _ _ _) in *. clearbody g1. destruct g1 as [vs1 es1]. cbn [fst snd] in *.
    assert (Hvt : nm_find k vs1 = Some tk).
    { destruct (L3 k) as [E|(_ & _ & L)]; [now rewrite E|lia]. }
    rewrite Hvt, (find_or_empty_some k es1 evc Hevc).
    pose proof (pruned_row k vs es good evc B L1) as Hrow.
    pose proof (good_row_Good k tk evc HkF Hvk Hrow) as HG.
    (* a vertex that is not Good is erased with its row *)
    assert (Hdrop : ~ Good k -> BI k ((nm_erase k vs1, nm_erase k es1), good)).
    { intro NG. apply (BI_advance k vs es good); [exact B|lia| | | |intro v; tauto|exact (gwf_erase (vs1, es1) k W1)].
      - intros v N. rewrite nm_find_erase. destruct (k =? v) eqn:E; [apply Nat.eqb_eq in E; congruence|]. apply L3.
      - intros s N. rewrite nm_find_erase. destruct (k =? s) eqn:E; [apply Nat.eqb_eq in E; congruence|].
        now apply Hother.
      - apply settled_absent; [exact NG| |]; rewrite nm_find_erase, Nat.eqb_refl; reflexivity. }
    destruct (lt <? tk) eqn:Ltk.
    { apply Nat.ltb_lt in Ltk. apply Hdrop. rewrite HG. lia. }
    apply Nat.ltb_ge in Ltk. destruct evc as [|[e1 sm1] evr] eqn:Eevc.
    { apply Hdrop. rewrite HG. tauto. }
    rewrite <- Eevc in *.
    assert (Gk : Good k) by (apply HG; split; [exact Ltk|congruence]).
    apply (BI_advance k vs es good); [exact B|lia|intros v _; apply L3|intros s N; now apply Hother| | |exact W1].
    - now apply (settled_kept k tk vs1 es1 evc).
    - intro v. cbn [In]. split; [intros [<-|H]; [left; now split|now right]|].
      intros [[-> _]|H]; [now left|now right].
  Qed.

  Lemma BI_loop m st : m <= F -> BI m st -> BI 0 (fold_left (prune_vertex lt) (rev (seq 0 m)) st).
  Proof.
    revert st. induction m as [|m IH]; intros st L B; [exact B|].
    rewrite seq_S, rev_app_distr. cbn [rev app fold_left plus]. apply IH; [lia|]. now apply BI_step.
  Qed.

  Lemma backward_BI : BI 0 (fold_left (prune_vertex lt) (rev (seq 0 F)) ((vs0, es0), [F])).
  Proof. apply BI_loop; [lia|apply BI_init]. Qed.
End Backward.
