(** C06 proofs about layers (a) and (b): the vocabulary holds each entry once
    under its own code, the index built from it enumerates exactly the
    vocabulary, homophones are in weight order, the reverse table is exact. *)
From Coq Require Import List NArith ZArith Bool Arith Lia Permutation Sorted.
From Coq.Strings Require Import Byte.
From RimeV Require Import Base.Bytes Dict.TableLists Dict.Vocab Dict.TableIx.
Import ListNotations.

Lemma bytes_eqb_refl a : bytes_eqb a a = true.
Proof. induction a as [|x a IH]; cbn; [reflexivity|]. now rewrite (Byte.byte_dec_lb (eq_refl x)). Qed.

Lemma bytes_eqb_eq a b : bytes_eqb a b = true <-> a = b.
Proof.
  split; [|intros ->; apply bytes_eqb_refl].
  revert b. induction a as [|x a IH]; intros [|y b] H; cbn in H; try discriminate; [reflexivity|].
  apply andb_prop in H. destruct H as [H1 H2]. apply Byte.byte_dec_bl in H1. subst. f_equal. now apply IH.
Qed.

Lemma bytes_ltb_irrefl a : bytes_ltb a a = false.
Proof. induction a as [|x a IH]; cbn; [reflexivity|]. now rewrite N.ltb_irrefl. Qed.

Lemma sorted_keys_cons {A} k (p : page A) r : StronglySorted lt (map fst ((k, p) :: r)) ->
  StronglySorted lt (map fst r) /\ Forall (fun kp => k < fst kp) r.
Proof. cbn. intros H. inversion H; subst. split; [assumption|]. now apply Forall_map. Qed.

Lemma lvl_find_none_lt {A} k (v : lvl A) :
  Forall (fun kp => k < fst kp) v -> lvl_find k v = None.
Proof.
  induction 1 as [|[k' p] r Hk _ IH]; cbn; [reflexivity|].
  cbn in Hk. destruct (Nat.eqb_spec k' k); [lia|]. exact IH.
Qed.

Lemma flat_map_seq_lvl {A Y} (g : nat -> page A -> list Y) (v : lvl A) : forall n a,
  StronglySorted lt (map fst v) ->
  Forall (fun kp => a <= fst kp < a + n) v ->
  flat_map (fun i => match lvl_find i v with Some p => g i p | None => [] end) (seq a n) =
  flat_map (fun kp => g (fst kp) (snd kp)) v.
Proof.
  intros n. revert v. induction n as [|n IH]; intros v a Hs Hb.
  - destruct Hb as [|kp r Hk _]; [reflexivity|lia].
  - destruct v as [|[k p] r]; [apply flat_map_nil_all; reflexivity|].
    destruct (sorted_keys_cons _ _ _ Hs) as [Hs' Hlt]. inversion Hb as [|? ? Hk Hb']; subst. cbn [fst] in Hk.
    assert (Hr : Forall (fun kp => S a <= fst kp < S a + n) r).
    { eapply Forall_impl; [|exact (Forall_and Hlt Hb')]. cbn. lia. }
    cbn [seq flat_map lvl_find]. destruct (Nat.eqb_spec k a) as [->|Hne].
    + cbn [flat_map fst snd]. f_equal. rewrite <- (IH r (S a) Hs' Hr).
      apply flat_map_ext_in. intros i Hi. apply in_seq in Hi.
      cbn [lvl_find]. destruct (Nat.eqb_spec a i); [lia|reflexivity].
    + rewrite lvl_find_none_lt by (eapply Forall_impl; [|exact Hlt]; cbn; lia).
      apply (IH ((k, p) :: r) (S a) Hs). constructor; [cbn; lia|exact Hr].
Qed.

(** * Well-formed vocabulary levels: keys strictly increasing and below the number of syllables *)

Definition wf_lvl {A} (wf_next : A -> Prop) (S : nat) (v : lvl A) : Prop :=
  StronglySorted lt (map fst v) /\
  Forall (fun kp => fst kp < S /\ match p_next (snd kp) with Some n => wf_next n | None => True end) v.

(* entries of a tail page have more syllables than the index is deep *)
Definition wf4 (v : voc4) : Prop := Forall (fun e => 3 < length (e_code e)) v.
Definition wf3 (S : nat) : voc3 -> Prop := wf_lvl wf4 S.
Definition wf2 (S : nat) : voc2 -> Prop := wf_lvl (wf3 S) S.
Definition wf1 (S : nat) : voc1 -> Prop := wf_lvl (wf2 S) S.

Lemma wf_lvl_nil {A} (P : A -> Prop) S : wf_lvl P S [].
Proof. split; constructor. Qed.

Lemma upd_split {A} k (f : page A -> page A) (v : lvl A) :
  exists l1 p l2, upd k f v = l1 ++ (k, f p) :: l2 /\ (v = l1 ++ (k, p) :: l2 \/ p = page0 /\ v = l1 ++ l2).
Proof.
  induction v as [|[k' p'] r IH]; cbn [upd]; [exists [], page0, []; auto|].
  destruct (k <? k'); [exists [], page0, ((k', p') :: r); auto|].
  destruct (Nat.eqb_spec k k') as [<-|_]; [exists [], p', r; auto|].
  destruct IH as (l1 & p & l2 & -> & H). exists ((k', p') :: l1), p, l2. split; [reflexivity|].
  destruct H as [->|[-> ->]]; auto.
Qed.

Lemma upd_in {A} k (f : page A -> page A) (v : lvl A) k' p' : In (k', p') (upd k f v) ->
  In (k', p') v \/ (k' = k /\ (p' = f page0 \/ exists p, In (k, p) v /\ p' = f p)).
Proof.
  destruct (upd_split k f v) as (l1 & p & l2 & -> & H). rewrite in_app_iff. cbn [In].
  intros [Hin|[[= <- <-]|Hin]]; [left|right; split; [reflexivity|]|left];
    destruct H as [->|[-> ->]]; rewrite ?in_app_iff; cbn [In]; auto.
  right. exists p. rewrite in_app_iff. cbn [In]. auto.
Qed.

Lemma upd_keys_in {A} k (f : page A -> page A) (v : lvl A) x :
  In x (map fst (upd k f v)) -> x = k \/ In x (map fst v).
Proof.
  intros Hx. apply in_map_iff in Hx. destruct Hx as ([k' p'] & <- & Hin). apply upd_in in Hin.
  destruct Hin as [Hin|[-> _]]; [right; exact (in_map fst _ _ Hin)|now left].
Qed.

Lemma upd_wf {A} (P : A -> Prop) S k (f : page A -> page A) (v : lvl A) :
  k < S ->
  (forall p, match p_next p with Some n => P n | None => True end ->
             match p_next (f p) with Some n => P n | None => True end) ->
  wf_lvl P S v -> wf_lvl P S (upd k f v).
Proof.
  intros Hk Hf [Hs Hb]. pose proof (conj Hk (Hf page0 I)) as Hnew. induction v as [|[k' p] r IH].
  - split; repeat constructor; apply Hnew.
  - cbn [upd]. destruct (sorted_keys_cons _ _ _ Hs) as [Hs' Hlt]. inversion Hb as [|? ? [H1 H2] Hb']; subst.
    destruct (Nat.ltb_spec k k'); [|destruct (Nat.eqb_spec k k') as [->|Hne]].
    + split; [|now constructor]. cbn [map fst]. constructor; [exact Hs|]. constructor; [assumption|].
      apply Forall_map. eapply Forall_impl; [|exact Hlt]. cbn. lia.
    + split; [exact Hs|]. constructor; [|assumption]. split; [assumption|]. now apply Hf.
    + destruct (IH Hs' Hb') as [IHs IHb]. split; [|now constructor]. cbn [map fst]. constructor; [assumption|].
      apply Forall_forall. intros x Hx. apply upd_keys_in in Hx. destruct Hx as [->|Hx]; [lia|].
      apply Forall_map in Hlt. rewrite Forall_forall in Hlt. now apply Hlt.
Qed.

Lemma ins_lvl_wf {A} (P : A -> Prop) S (dflt : A) deeper e q code (v : lvl A) :
  P dflt -> q ++ code = e_code e ->
  (forall a rest n, rest <> [] -> (q ++ [a]) ++ rest = e_code e ->
                    Forall (fun x => x < S) rest -> P n -> P (deeper rest n)) ->
  Forall (fun x => x < S) code ->
  wf_lvl P S v -> wf_lvl P S (ins_lvl dflt deeper e code v).
Proof.
  intros Hd Hq Hdeep Hc Hv. destruct code as [|a [|b rest]]; cbn [ins_lvl]; [assumption| |].
  - inversion Hc; subst. apply upd_wf; [assumption| |assumption]. intros p Hp. exact Hp.
  - inversion Hc as [|? ? Ha Hrest]; subst. apply upd_wf; [assumption| |assumption].
    intros p Hp. cbn. apply (Hdeep a); [discriminate| |assumption|].
    + rewrite <- app_assoc. exact Hq.
    + destruct (p_next p); assumption.
Qed.

Lemma ins1_wf S e v : Forall (fun x => x < S) (e_code e) -> wf1 S v -> wf1 S (ins1 e (e_code e) v).
Proof.
  intros Hc Hv. apply (ins_lvl_wf (wf2 S) S [] (ins2 e) e []); auto; [apply wf_lvl_nil|].
  intros a r2 n2 _ Hq2 Hc2 Hn2. apply (ins_lvl_wf (wf3 S) S [] (ins3 e) e [a]); auto; [apply wf_lvl_nil|].
  intros b r3 n3 _ Hq3 Hc3 Hn3. apply (ins_lvl_wf wf4 S [] (ins4 e) e [a; b]); auto; [constructor|].
  intros c r4 n4 Hr Hq4 _ Hn4. unfold ins4, wf4. apply Forall_app. split; [exact Hn4|].
  constructor; [|constructor]. rewrite <- Hq4. destruct r4; [congruence|cbn; lia].
Qed.

Lemma vocab_of_wf S es :
  Forall (fun e => Forall (fun x => x < S) (e_code e)) es -> wf1 S (vocab_of es).
Proof.
  intros Hes. apply (fold_left_inv (wf1 S)); [apply wf_lvl_nil|]. intros v e He Hv.
  apply ins1_wf; [|exact Hv]. rewrite Forall_forall in Hes. now apply Hes.
Qed.

Lemma sort_lvl_wf {A} (P : A -> Prop) S (sn : A -> A) (v : lvl A) :
  (forall n, P n -> P (sn n)) -> wf_lvl P S v -> wf_lvl P S (sort_lvl sn v).
Proof.
  intros Hsn [Hs Hb]. split.
  - unfold sort_lvl. rewrite map_map. cbn. exact Hs.
  - unfold sort_lvl. rewrite Forall_map. eapply Forall_impl; [|exact Hb].
    intros [k p] [H1 H2]. cbn in *. split; [assumption|]. destruct (p_next p); cbn; [now apply Hsn|exact I].
Qed.

Lemma insert_desc_in e l x : In x (insert_desc e l) -> x = e \/ In x l.
Proof.
  induction l as [|y l IH]; cbn.
  - intros [<-|[]]. now left.
  - destruct (dec_ltb (e_w y) (e_w e)); cbn.
    + intros [<-|H]; [now left|now right].
    + intros [<-|H]; [right; now left|]. destruct (IH H); [now left|right; now right].
Qed.

Lemma sort_entries_in l x : In x (sort_entries l) -> In x l.
Proof.
  induction l as [|y l IH]; cbn; [tauto|]. intros H. apply insert_desc_in in H. destruct H as [->|H]; [now left|right; auto].
Qed.

Lemma sort1_wf S v : wf1 S v -> wf1 S (sort1 v).
Proof.
  apply sort_lvl_wf. intros v2. apply sort_lvl_wf. intros v3. apply sort_lvl_wf.
  intros v4 H. unfold wf4 in *. rewrite Forall_forall in *. intros x Hx. apply H. now apply sort_entries_in.
Qed.

(** * The index enumerates exactly the vocabulary, in map order *)

Section Enum.
  Variable F : Type.
  Variable cast : dec -> F.

  Definition conv (o : out) : iout F :=
    (fst o, {| ie_text := fst (snd o); ie_w := cast (snd (snd o)) |}).

  Definition node_of {A B} (bn : A -> B) (k : nat) (p : page A) : inode F B :=
    {| n_key := k; n_entries := map (build_entry cast) (p_entries p); n_next := option_map bn (p_next p) |}.

  Lemma find_node_build {A B} (bn : A -> B) k (v : lvl A) :
    find_node k (build_trunk F cast bn v) = option_map (node_of bn k) (lvl_find k v).
  Proof.
    unfold find_node. induction v as [|[k' p] r IH]; cbn; [reflexivity|].
    destruct (Nat.eqb_spec k' k) as [->|Hne]; [reflexivity|]. exact IH.
  Qed.

  Lemma emit_conv code es :
    emit code (map (build_entry cast) es) = map conv (map (fun e => (code, (e_text e, e_w e))) es).
  Proof. unfold emit. rewrite !map_map. reflexivity. Qed.

  Lemma emit_tail_build prefix v : emit_tail prefix (build_tail cast v) = map conv (flat4 prefix v).
  Proof. unfold emit_tail, build_tail, flat4. rewrite !map_map. reflexivity. Qed.

  Lemma flat_lvl_conv {A B} (P : A -> Prop) (bn : A -> B) (enum_next : list nat -> B -> list (iout F))
        (flat_next : list nat -> A -> list out) S prefix (v : lvl A) :
    (forall q n, P n -> enum_next q (bn n) = map conv (flat_next q n)) ->
    wf_lvl P S v ->
    flat_map (fun i => match lvl_find i v with
                       | Some p => emit (prefix ++ [i]) (map (build_entry cast) (p_entries p)) ++
                                   match p_next p with Some n => enum_next (prefix ++ [i]) (bn n) | None => [] end
                       | None => []
                       end) (seq 0 S) = map conv (flat_lvl flat_next prefix v).
  Proof.
    intros Hnext [Hs Hb].
    rewrite flat_map_seq_lvl; [|exact Hs|eapply Forall_impl; [|exact Hb]; intros kp [H _]; lia].
    unfold flat_lvl. clear Hs. induction Hb as [|[k p] r [Hk Hp] _ IH]; cbn [flat_map fst snd]; [reflexivity|].
    rewrite map_app, IH. f_equal. rewrite map_app, emit_conv. f_equal.
    cbn [snd] in Hp. destruct (p_next p) as [n|]; [|reflexivity]. now apply Hnext.
  Qed.

  Lemma enum_trunk_build {A B} (P : A -> Prop) (bn : A -> B) (enum_next : list nat -> B -> list (iout F))
        (flat_next : list nat -> A -> list out) S prefix (v : lvl A) :
    (forall q n, P n -> enum_next q (bn n) = map conv (flat_next q n)) ->
    wf_lvl P S v ->
    enum_trunk F enum_next S prefix (build_trunk F cast bn v) = map conv (flat_lvl flat_next prefix v).
  Proof.
    intros Hnext Hv. rewrite <- (flat_lvl_conv P bn enum_next flat_next S prefix v Hnext Hv).
    apply flat_map_ext_in. intros i _. rewrite find_node_build.
    destruct (lvl_find i v) as [p|]; cbn; [|reflexivity]. destruct (p_next p); reflexivity.
  Qed.

  Lemma enum_trunk2_build S prefix v : wf2 S v ->
    enum_trunk2 S prefix (build_trunk2 cast v) = map conv (flat2 prefix v).
  Proof.
    apply (enum_trunk_build (wf3 S)). intros q3 v3. apply (enum_trunk_build wf4). intros q4 v4 _.
    apply emit_tail_build.
  Qed.

  Lemma set_nth_length {A} i (x : A) l : length (set_nth i x l) = length l.
  Proof. revert i. induction l as [|y l IH]; intros [|i]; cbn; auto. Qed.

  Lemma set_nth_Forall {A} (P : A -> Prop) i x l : P x -> Forall P l -> Forall P (set_nth i x l).
  Proof.
    intros Hx Hl. revert i. induction Hl as [|y l Hy Hl IH]; intros [|i]; cbn; constructor; auto.
  Qed.

  Lemma nth_error_set_nth_eq {A} i (x : A) l : i < length l -> nth_error (set_nth i x l) i = Some x.
  Proof. revert i. induction l as [|y l IH]; intros [|i] H; cbn in *; try lia; [reflexivity|]. apply IH. lia. Qed.

  Lemma nth_error_set_nth_ne {A} i j (x : A) l : i <> j -> nth_error (set_nth i x l) j = nth_error l j.
  Proof.
    revert i j. induction l as [|y l IH]; intros [|i] [|j] H; cbn; try reflexivity; try lia. apply IH. lia.
  Qed.

  Definition hnode_of (p : page voc2) : hnode F :=
    {| h_entries := map (build_entry cast) (p_entries p); h_next := option_map (build_trunk2 cast) (p_next p) |}.

  Lemma build_head_Forall (P : hnode F -> Prop) S (v : voc1) :
    P (hnode0 F) -> Forall (fun kp => P (hnode_of (snd kp))) v -> Forall P (build_head cast S v).
  Proof.
    intros H0 Hv. unfold build_head. apply (fold_left_inv (Forall P)).
    - apply Forall_forall. intros x Hx. apply repeat_spec in Hx. now subst.
    - intros arr kp Hin Harr. apply set_nth_Forall; [|exact Harr]. rewrite Forall_forall in Hv. exact (Hv kp Hin).
  Qed.

  Lemma build_head_nth (v : voc1) : forall arr i,
    StronglySorted lt (map fst v) ->
    nth_error (fold_left (fun arr kp => set_nth (fst kp) (hnode_of (snd kp)) arr) v arr) i =
    match lvl_find i v with
    | Some p => if i <? length arr then Some (hnode_of p) else None
    | None => nth_error arr i
    end.
  Proof.
    induction v as [|[k p] r IH]; intros arr i Hs; cbn [fold_left lvl_find fst snd]; [reflexivity|].
    destruct (sorted_keys_cons _ _ _ Hs) as [Hs' Hlt]. rewrite IH by assumption. rewrite set_nth_length.
    destruct (Nat.eqb_spec k i) as [->|Hne].
    - rewrite (lvl_find_none_lt _ _ Hlt). destruct (Nat.ltb_spec i (length arr)).
      + now apply nth_error_set_nth_eq.
      + apply nth_error_None. now rewrite set_nth_length.
    - destruct (lvl_find i r); [reflexivity|]. now apply nth_error_set_nth_ne.
  Qed.

  Theorem enumerate_build_head S (v : voc1) :
    wf1 S v -> enumerate S (build_head cast S v) = map conv (flat1 v).
  Proof.
    intros Hv.
    etransitivity; [|exact (flat_lvl_conv (wf2 S) (build_trunk2 cast) (enum_trunk2 S) flat2 S [] v (enum_trunk2_build S) Hv)].
    apply flat_map_ext_in. intros i Hi. apply in_seq in Hi.
    change (build_head cast S v)
      with (fold_left (fun arr kp => set_nth (fst kp) (hnode_of (snd kp)) arr) v (repeat (hnode0 F) S)).
    rewrite build_head_nth by apply Hv. rewrite repeat_length.
    destruct (lvl_find i v) as [p|].
    - destruct (Nat.ltb_spec i S); [|lia]. cbn. destruct (p_next p); reflexivity.
    - rewrite (nth_error_nth' _ (hnode0 F)) by (rewrite repeat_length; lia). now rewrite nth_repeat.
  Qed.
End Enum.

(** * Every entry is filed once, under its own code *)

Definition te (e : entry) : bytes * dec := (e_text e, e_w e).
Definition out_of (e : entry) : out := (e_code e, te e).
Definition has_code (e : entry) : bool := negb (is_nil (e_code e)).

Definition pageflat {A} (fn : list nat -> A -> list out) (q : list nat) (k : nat) (p : page A) : list out :=
  map (fun e => (q ++ [k], te e)) (p_entries p) ++
  match p_next p with Some n => fn (q ++ [k]) n | None => [] end.

Lemma flat_lvl_pageflat {A} (fn : list nat -> A -> list out) q (v : lvl A) :
  flat_lvl fn q v = flat_map (fun kp => pageflat fn q (fst kp) (snd kp)) v.
Proof. reflexivity. Qed.

Lemma flat_upd {A} (fn : list nat -> A -> list out) q k (f : page A -> page A) (v : lvl A) extra :
  (forall p, Permutation (pageflat fn q k (f p)) (extra ++ pageflat fn q k p)) ->
  Permutation (flat_lvl fn q (upd k f v)) (extra ++ flat_lvl fn q v).
Proof.
  intros Hf. rewrite !flat_lvl_pageflat. destruct (upd_split k f v) as (l1 & p & l2 & -> & H).
  rewrite flat_map_app. cbn [flat_map fst snd]. rewrite Hf, <- app_assoc, Permutation_app_swap_app.
  destruct H as [->|[-> ->]]; rewrite flat_map_app; reflexivity.
Qed.

Lemma flat_ins_lvl {A} (fn : list nat -> A -> list out) (dflt : A) deeper e q code (v : lvl A) :
  code <> [] -> q ++ code = e_code e ->
  (forall q', fn q' dflt = []) ->
  (forall a rest n, rest <> [] -> (q ++ [a]) ++ rest = e_code e ->
      Permutation (fn (q ++ [a]) (deeper rest n)) (out_of e :: fn (q ++ [a]) n)) ->
  Permutation (flat_lvl fn q (ins_lvl dflt deeper e code v)) (out_of e :: flat_lvl fn q v).
Proof.
  intros Hne Hcode Hd Hdeep. change (out_of e :: flat_lvl fn q v) with ([out_of e] ++ flat_lvl fn q v).
  destruct code as [|a [|b rest]]; [congruence| |]; cbn [ins_lvl]; apply flat_upd; intros p.
  - unfold pageflat, add_entry. cbn [p_entries p_next]. rewrite map_app. cbn [map].
    rewrite Hcode. fold (out_of e). rewrite <- app_assoc. cbn [app].
    apply Permutation_sym. apply Permutation_middle.
  - unfold pageflat, on_next. cbn [p_entries p_next].
    etransitivity.
    + apply Permutation_app_head. apply Hdeep; [discriminate|]. rewrite <- app_assoc. exact Hcode.
    + cbn [app]. etransitivity; [apply Permutation_sym; apply Permutation_middle|]. constructor.
      destruct (p_next p); [reflexivity|]. now rewrite Hd.
Qed.

Lemma flat_ins4 e q rest n : q ++ rest = e_code e -> length q = 3 ->
  Permutation (flat4 q (ins4 e rest n)) (out_of e :: flat4 q n).
Proof.
  intros Hc Hl. unfold flat4, ins4. rewrite map_app. cbn [map].
  assert (Hs : skipn 3 (e_code e) = rest).
  { rewrite <- Hc, skipn_app, Hl, Nat.sub_diag. rewrite skipn_all2 by lia. reflexivity. }
  rewrite Hs, Hc. fold (te e). fold (out_of e). apply Permutation_sym. apply Permutation_cons_append.
Qed.

Lemma flat_ins1 e v : e_code e <> [] ->
  Permutation (flat1 (ins1 e (e_code e) v)) (out_of e :: flat1 v).
Proof.
  intros. unfold flat1. apply flat_ins_lvl; auto. intros a r2 n2 Hr2 Hq2.
  apply flat_ins_lvl; auto. intros b r3 n3 Hr3 Hq3.
  apply flat_ins_lvl; auto. intros c r4 n4 _ Hq4.
  apply flat_ins4; [assumption|reflexivity].
Qed.

Theorem flat1_vocab_of es : Permutation (flat1 (vocab_of es)) (map out_of (filter has_code es)).
Proof.
  apply (fold_left_ind (fun pre v => Permutation (flat1 v) (map out_of (filter has_code pre)))); [reflexivity|].
  intros pre e v IH. rewrite filter_app, map_app. cbn [filter]. unfold has_code at 2.
  destruct (e_code e) as [|a c] eqn:E; cbn [is_nil negb map]; [now rewrite app_nil_r|].
  rewrite <- E, flat_ins1 by (rewrite E; discriminate). now rewrite IH, Permutation_cons_append.
Qed.

(** * Sorting homophones permutes each page and nothing else *)

Lemma insert_desc_perm e l : Permutation (insert_desc e l) (e :: l).
Proof.
  induction l as [|x l IH]; cbn; [reflexivity|]. destruct (dec_ltb (e_w x) (e_w e)); [reflexivity|].
  etransitivity; [apply perm_skip; exact IH|]. apply perm_swap.
Qed.

Lemma sort_entries_perm l : Permutation (sort_entries l) l.
Proof.
  induction l as [|x l IH]; cbn; [reflexivity|]. etransitivity; [apply insert_desc_perm|]. now constructor.
Qed.

Lemma flat_sort_lvl {A} (fn : list nat -> A -> list out) (sn : A -> A) q (v : lvl A) :
  (forall q' n, Permutation (fn q' (sn n)) (fn q' n)) ->
  Permutation (flat_lvl fn q (sort_lvl sn v)) (flat_lvl fn q v).
Proof.
  intros Hn. unfold flat_lvl, sort_lvl. induction v as [|[k p] r IH]; cbn [map flat_map fst snd p_entries p_next]; [reflexivity|].
  apply Permutation_app; [|exact IH]. apply Permutation_app.
  - apply Permutation_map. apply sort_entries_perm.
  - destruct (p_next p); cbn; [apply Hn|reflexivity].
Qed.

Lemma flat1_sort1 v : Permutation (flat1 (sort1 v)) (flat1 v).
Proof.
  unfold flat1, sort1. apply flat_sort_lvl. intros q2 v2. apply flat_sort_lvl. intros q3 v3. apply flat_sort_lvl.
  intros q4 v4. unfold flat4. apply Permutation_map. apply sort_entries_perm.
Qed.

(** * enumerate_build, at the level of the entries handed to the Vocabulary *)

Lemma compiled_wf S (sort_original : bool) es :
  Forall (fun e => Forall (fun x => x < S) (e_code e)) es ->
  wf1 S (if sort_original then vocab_of es else sort1 (vocab_of es)).
Proof. intros Hes. destruct sort_original; [|apply sort1_wf]; now apply vocab_of_wf. Qed.

Lemma compiled_flat (sort_original : bool) es :
  Permutation (flat1 (if sort_original then vocab_of es else sort1 (vocab_of es))) (map out_of (filter has_code es)).
Proof. destruct sort_original; [|rewrite flat1_sort1]; apply flat1_vocab_of. Qed.

Theorem enumerate_build_entries {F} (cast : dec -> F) (S : nat) (sort_original : bool) (es : list entry) :
  Forall (fun e => Forall (fun x => x < S) (e_code e)) es ->
  let v := if sort_original then vocab_of es else sort1 (vocab_of es) in
  Permutation (enumerate S (build_head cast S v)) (map (conv F cast) (map out_of (filter has_code es))).
Proof.
  intros Hes v. rewrite enumerate_build_head by now apply compiled_wf.
  apply Permutation_map, compiled_flat.
Qed.

(** * The weight order is a total preorder *)

Lemma dec_scale_shift (d : dec) (k k0 : Z) : (k <= k0)%Z -> (k0 <= de d)%Z ->
  dec_scale d k = (dec_scale d k0 * 10 ^ Z.to_N (k0 - k))%N.
Proof.
  intros H1 H2. unfold dec_scale. rewrite <- N.mul_assoc, <- N.pow_add_r. f_equal. f_equal.
  rewrite <- Z2N.inj_add by lia. f_equal. lia.
Qed.

Lemma dec_leb_at (a b : dec) (k : Z) : (k <= de a)%Z -> (k <= de b)%Z ->
  dec_leb a b = N.leb (dec_scale a k) (dec_scale b k).
Proof.
  intros Ha Hb. unfold dec_leb. set (k0 := Z.min (de a) (de b)).
  rewrite (dec_scale_shift a k k0), (dec_scale_shift b k k0) by (subst k0; lia).
  assert (Hpos : (0 < 10 ^ Z.to_N (k0 - k))%N) by (apply N.neq_0_lt_0; apply N.pow_nonzero; discriminate).
  destruct (N.leb_spec (dec_scale a k0) (dec_scale b k0)) as [H|H].
  - symmetry. apply N.leb_le. now apply N.mul_le_mono_r.
  - symmetry. apply N.leb_gt. now apply N.mul_lt_mono_pos_r.
Qed.

Lemma dec_leb_total a b : dec_leb a b = true \/ dec_leb b a = true.
Proof.
  unfold dec_leb. rewrite (Z.min_comm (de b) (de a)).
  destruct (N.le_ge_cases (dec_scale a (Z.min (de a) (de b))) (dec_scale b (Z.min (de a) (de b)))) as [H|H];
    [left|right]; now apply N.leb_le.
Qed.

Lemma dec_leb_trans a b c : dec_leb a b = true -> dec_leb b c = true -> dec_leb a c = true.
Proof.
  set (k := Z.min (de a) (Z.min (de b) (de c))).
  rewrite (dec_leb_at a b k), (dec_leb_at b c k), (dec_leb_at a c k) by (subst k; lia).
  rewrite !N.leb_le. apply N.le_trans.
Qed.

Lemma dec_leb_refl a : dec_leb a a = true.
Proof. destruct (dec_leb_total a a); assumption. Qed.

Definition wdesc (a b : entry) : Prop := dec_leb (e_w b) (e_w a) = true.

Lemma insert_desc_sorted e l : StronglySorted wdesc l -> StronglySorted wdesc (insert_desc e l).
Proof.
  induction 1 as [|x l Hl IH Hx]; cbn; [repeat constructor|].
  unfold dec_ltb. destruct (dec_leb (e_w e) (e_w x)) eqn:E; cbn.
  - constructor; [exact IH|]. rewrite Forall_forall in *. intros y Hy. apply insert_desc_in in Hy.
    destruct Hy as [->|Hy]; [exact E|now apply Hx].
  - assert (Hxe : wdesc e x). { unfold wdesc. destruct (dec_leb_total (e_w x) (e_w e)); congruence. }
    constructor; [now constructor|]. constructor; [exact Hxe|].
    rewrite Forall_forall in *. intros y Hy. unfold wdesc in *. eapply dec_leb_trans; [apply Hx; exact Hy|exact Hxe].
Qed.

Lemma sort_entries_sorted l : StronglySorted wdesc (sort_entries l).
Proof. induction l as [|x l IH]; cbn; [constructor|]. now apply insert_desc_sorted. Qed.

Definition sorted_lvl {A} (Pn : A -> Prop) (v : lvl A) : Prop :=
  Forall (fun kp => StronglySorted wdesc (p_entries (snd kp)) /\
                    match p_next (snd kp) with Some n => Pn n | None => True end) v.
Definition sorted4 (v : voc4) : Prop := StronglySorted wdesc v.
Definition sorted3 : voc3 -> Prop := sorted_lvl sorted4.
Definition sorted2 : voc2 -> Prop := sorted_lvl sorted3.
Definition sorted1 : voc1 -> Prop := sorted_lvl sorted2.

Lemma sort_lvl_sorted {A} (Pn : A -> Prop) (sn : A -> A) (v : lvl A) :
  (forall n, Pn (sn n)) -> sorted_lvl Pn (sort_lvl sn v).
Proof.
  intros H. unfold sorted_lvl, sort_lvl. rewrite Forall_map. apply Forall_forall. intros [k p] _. cbn.
  split; [apply sort_entries_sorted|]. destruct (p_next p); cbn; auto.
Qed.

Lemma sort1_sorted v : sorted1 (sort1 v).
Proof.
  apply sort_lvl_sorted. intros v2. apply sort_lvl_sorted. intros v3. apply sort_lvl_sorted.
  intros v4. apply sort_entries_sorted.
Qed.

(** * same_code_sorted: in the enumeration, entries with one code are in non-increasing weight order *)

Definition Rw (x y : out) : Prop := fst x = fst y -> dec_leb (snd (snd y)) (snd (snd x)) = true.

Definition ext_of (q : list nat) (l : list out) : Prop :=
  forall x, In x l -> exists r, r <> [] /\ fst x = q ++ r.

Lemma pageflat_under {A} (fn : list nat -> A -> list out) (P : A -> Prop) q k (p : page A) x :
  (forall q' n, P n -> ext_of q' (fn q' n)) ->
  match p_next p with Some n => P n | None => True end ->
  In x (pageflat fn q k p) -> exists r, fst x = q ++ k :: r.
Proof.
  intros He Hp Hx. apply in_app_or in Hx. destruct Hx as [Hx|Hx].
  - apply in_map_iff in Hx. destruct Hx as [e [<- _]]. now exists [].
  - destruct (p_next p) as [n|]; [|destruct Hx]. destruct (He _ n Hp x Hx) as (r & _ & ->).
    exists r. now rewrite <- app_assoc.
Qed.

Lemma flat_lvl_under {A} (fn : list nat -> A -> list out) (P : A -> Prop) S q (v : lvl A) x :
  (forall q' n, P n -> ext_of q' (fn q' n)) -> wf_lvl P S v ->
  In x (flat_lvl fn q v) -> exists k r, In k (map fst v) /\ fst x = q ++ k :: r.
Proof.
  intros He [_ Hb] Hx. rewrite flat_lvl_pageflat in Hx. apply in_flat_map in Hx. destruct Hx as ([k p] & Hin & Hx).
  rewrite Forall_forall in Hb. destruct (Hb _ Hin) as [_ Hp].
  destruct (pageflat_under fn P q k p x He Hp Hx) as [r Hr]. exists k, r. split; [now apply (in_map fst) in Hin|exact Hr].
Qed.

Lemma flat_lvl_ext {A} (fn : list nat -> A -> list out) (P : A -> Prop) S q (v : lvl A) :
  (forall q' n, P n -> ext_of q' (fn q' n)) -> wf_lvl P S v -> ext_of q (flat_lvl fn q v).
Proof.
  intros He Hv x Hx. destruct (flat_lvl_under fn P S q v x He Hv Hx) as (k & r & _ & ->).
  exists (k :: r). split; [discriminate|reflexivity].
Qed.

Lemma flat_lvl_sorted {A} (fn : list nat -> A -> list out) (P Ps : A -> Prop) S q (v : lvl A) :
  (forall q' n, P n -> ext_of q' (fn q' n)) ->
  (forall q' n, P n -> Ps n -> StronglySorted Rw (fn q' n)) ->
  wf_lvl P S v -> sorted_lvl Ps v -> StronglySorted Rw (flat_lvl fn q v).
Proof.
  intros He Hs [Hk Hb] Hsv. rewrite flat_lvl_pageflat.
  induction v as [|[k p] r0 IH]; cbn [flat_map fst snd]; [constructor|].
  destruct (sorted_keys_cons _ _ _ Hk) as [Hk' Hlt]. inversion Hb as [|? ? [Hkb Hp] Hb']; subst.
  inversion Hsv as [|? ? [Hse Hsn] Hsv']; subst. cbn [snd] in *.
  apply StronglySorted_app; [|now apply IH|].
  - (* within a page: its own entries carry the code q ++ [k], those below it longer codes *)
    unfold pageflat. apply StronglySorted_app.
    + apply (StronglySorted_map _ wdesc); [|exact Hse]. intros x y Hxy _. exact Hxy.
    + destruct (p_next p) as [n|]; [|constructor]. now apply Hs.
    + intros x y Hx Hy Heq. apply in_map_iff in Hx. destruct Hx as [e [<- _]].
      destruct (p_next p) as [n|]; [|destruct Hy]. destruct (He _ n Hp y Hy) as (r & Hr & Hc).
      cbn [fst] in Heq. rewrite Hc, <- (app_nil_r (q ++ [k])) in Heq at 1. apply app_inv_head in Heq. congruence.
  - (* across pages: the codes differ in the key after q *)
    intros x y Hx Hy Heq. destruct (pageflat_under fn P q k p x He Hp Hx) as [r1 Hr1].
    rewrite <- flat_lvl_pageflat in Hy.
    destruct (flat_lvl_under fn P S q r0 y He (conj Hk' Hb') Hy) as (k' & r2 & Hin & Hr2).
    rewrite Hr1, Hr2 in Heq. apply app_inv_head in Heq. injection Heq as -> _.
    apply in_map_iff in Hin. destruct Hin as (kp & <- & Hin). rewrite Forall_forall in Hlt. specialize (Hlt _ Hin). lia.
Qed.

Lemma flat4_ext q v : wf4 v -> ext_of q (flat4 q v).
Proof.
  intros H x Hx. apply in_map_iff in Hx. destruct Hx as [e [<- He]]. exists (skipn 3 (e_code e)). split; [|reflexivity].
  unfold wf4 in H. rewrite Forall_forall in H. specialize (H e He).
  intros Hn. apply (f_equal (@length nat)) in Hn. rewrite skipn_length in Hn. cbn [length] in Hn. lia.
Qed.

Lemma flat4_sorted q v : sorted4 v -> StronglySorted Rw (flat4 q v).
Proof. intros H. unfold flat4. apply (StronglySorted_map _ wdesc); [|exact H]. intros x y Hxy _. exact Hxy. Qed.

Lemma flat3_ext S q v : wf3 S v -> ext_of q (flat3 q v).
Proof. apply (flat_lvl_ext flat4 wf4 S). intros; now apply flat4_ext. Qed.

Lemma flat2_ext S q v : wf2 S v -> ext_of q (flat2 q v).
Proof. apply (flat_lvl_ext flat3 (wf3 S) S). intros; now apply (flat3_ext S). Qed.

Theorem flat1_sorted S v : wf1 S v -> sorted1 v -> StronglySorted Rw (flat1 v).
Proof.
  apply (flat_lvl_sorted flat2 (wf2 S) sorted2 S); [apply flat2_ext|].
  intros q2 v2. apply (flat_lvl_sorted flat3 (wf3 S) sorted3 S); [apply flat3_ext|].
  intros q3 v3. apply (flat_lvl_sorted flat4 wf4 sorted4 S); [intros; now apply flat4_ext|].
  intros q4 v4 _. apply flat4_sorted.
Qed.

Section SameCode.
  Variable F : Type.
  Variable cast : dec -> F.
  Variable fle : F -> F -> bool.
  Hypothesis cast_mono : forall a b, dec_leb a b = true -> fle (cast a) (cast b) = true.

  Definition Rf (x y : iout F) : Prop := fst x = fst y -> fle (ie_w (snd y)) (ie_w (snd x)) = true.

  Theorem same_code_sorted_entries (S : nat) (es : list entry) :
    Forall (fun e => Forall (fun x => x < S) (e_code e)) es ->
    StronglySorted Rf (enumerate S (build_head cast S (sort1 (vocab_of es)))).
  Proof.
    intros Hes. assert (Hwf : wf1 S (sort1 (vocab_of es))) by (apply sort1_wf; now apply vocab_of_wf).
    rewrite enumerate_build_head by exact Hwf.
    apply (StronglySorted_map _ Rw); [|apply (flat1_sorted S); [exact Hwf|apply sort1_sorted]].
    intros x y Hxy Heq. cbn in *. apply cast_mono. now apply Hxy.
  Qed.
End SameCode.

(** * The collector: syllabary and entries *)

Lemma to_N_inj (a b : byte) : Byte.to_N a = Byte.to_N b -> a = b.
Proof.
  intros H. assert (H' : Byte.of_N (Byte.to_N a) = Byte.of_N (Byte.to_N b)) by now rewrite H.
  rewrite !Byte.of_to_N in H'. now injection H'.
Qed.

Lemma bytes_ltb_tricho a b : bytes_ltb a b = false -> bytes_ltb b a = false -> a = b.
Proof.
  revert b. induction a as [|x a IH]; intros [|y b]; cbn; try discriminate; [reflexivity|].
  destruct (N.ltb_spec (Byte.to_N x) (Byte.to_N y)); [discriminate|].
  destruct (N.ltb_spec (Byte.to_N y) (Byte.to_N x)); [discriminate|].
  intros H1 H2. assert (x = y) by (apply to_N_inj; lia). subst. f_equal. now apply IH.
Qed.

Lemma set_insert_in s l x : In x (set_insert s l) <-> x = s \/ In x l.
Proof.
  induction l as [|y l IH]; cbn; [intuition|].
  destruct (bytes_ltb s y) eqn:E1; cbn; [intuition|].
  destruct (bytes_ltb y s) eqn:E2; cbn.
  - rewrite IH. intuition.
  - assert (s = y) by now apply bytes_ltb_tricho. subst. intuition.
Qed.

Lemma fold_set_insert_in raw l x :
  In x (fold_left (fun s y => set_insert y s) raw l) <-> In x raw \/ In x l.
Proof.
  revert l. induction raw as [|y raw IH]; intros l; cbn; [intuition|].
  rewrite IH, set_insert_in. intuition.
Qed.

Lemma index_of_nth s l : In s l -> exists i, index_of s l = Some i /\ nth_error l i = Some s /\ i < length l.
Proof.
  induction l as [|x l IH]; cbn; [tauto|]. intros H.
  destruct (bytes_eqb x s) eqn:E.
  - apply bytes_eqb_eq in E. subst. exists 0. cbn. repeat split; lia.
  - destruct H as [->|H]; [rewrite bytes_eqb_refl in E; discriminate|].
    destruct (IH H) as [i [H1 [H2 H3]]]. exists (Datatypes.S i). rewrite H1. cbn. repeat split; [assumption|lia].
Qed.

Lemma id_of_nth syll s : In s syll -> nth_error syll (id_of syll s) = Some s /\ id_of syll s < length syll.
Proof. intros H. destruct (index_of_nth s syll H) as [i [H1 [H2 H3]]]. unfold id_of. rewrite H1. auto. Qed.


Definition run_rows (rows : list lineres) (c : collector) : collector := fold_left (fun c r => collect_row r c) rows c.

Fixpoint parse_lines (cs : colspec) (ec : bool) (lines : list bytes) : list lineres :=
  match lines with
  | [] => []
  | l :: r => let '(ec', res) := parse_line cs ec l in res :: parse_lines cs ec' r
  end.

Definition source_rows (files : list (colspec * list bytes)) : list lineres :=
  flat_map (fun f => parse_lines (fst f) true (snd f)) files.

Definition raw_of (t cs ws : bytes) : rawentry :=
  {| re_text := t; re_code := split_skip x20 cs; re_w := weight_of_str ws |}.

Lemma collect_lines_fold cs lines : forall ec c,
  collect_lines cs ec lines c = run_rows (parse_lines cs ec lines) c.
Proof.
  induction lines as [|l r IH]; intros ec c; cbn; [reflexivity|].
  destruct (parse_line cs ec l) as [ec' res]. cbn. apply IH.
Qed.

Lemma collect_files_fold files :
  collect_files files = run_rows (source_rows files) collector0.
Proof.
  unfold collect_files, source_rows. generalize collector0.
  induction files as [|f fs IH]; intros c; cbn [fold_left flat_map]; [reflexivity|].
  rewrite IH, collect_lines_fold. symmetry. apply fold_left_app.
Qed.

Definition is_single (r : rawentry) : bool := match re_code r with [_] => true | _ => false end.

Lemma create_entry_cases t cs ws c : let c' := create_entry t cs ws c in
  co_syll c' = fold_left (fun s x => set_insert x s) (split_skip x20 cs) (co_syll c) /\
  (co_entries c' = raw_of t cs ws :: co_entries c /\
     (co_words c' = co_words c \/ co_words c' = words_add t cs (co_words c)) \/
   co_entries c' = co_entries c /\ co_words c' = co_words c /\
     is_single (raw_of t cs ws) = true /\ existsb (bytes_eqb cs) (words_find t (co_words c)) = true).
Proof.
  unfold create_entry, is_single, raw_of. cbn [re_code].
  destruct (split_skip x20 cs) as [|x [|y rest]]; cbn; auto.
  destruct (existsb (bytes_eqb cs) (words_find t (co_words c))); cbn; auto 6.
Qed.

Definition co_inv (c : collector) : Prop :=
  Forall (fun r => Forall (fun x => In x (co_syll c)) (re_code r)) (co_entries c).

Lemma collect_row_inv row c : co_inv c -> co_inv (collect_row row c).
Proof.
  intros H. destruct row as [|t [|b cs] ws]; [exact H..|]. cbn [collect_row]. set (c' := create_entry _ _ _ c).
  destruct (create_entry_cases t (b :: cs) ws c) as [Hs He]. fold c' in Hs, He. unfold co_inv.
  assert (Hold : Forall (fun r => Forall (fun x => In x (co_syll c')) (re_code r)) (co_entries c)).
  { eapply Forall_impl; [|exact H]. intros r Hr. eapply Forall_impl; [|exact Hr].
    intros x Hx. rewrite Hs. apply fold_set_insert_in. now right. }
  destruct He as [[-> _]|[-> _]]; [|exact Hold]. constructor; [|exact Hold].
  apply Forall_forall. intros x Hx. rewrite Hs. apply fold_set_insert_in. now left.
Qed.

Lemma collect_files_inv files : co_inv (collect_files files).
Proof.
  rewrite collect_files_fold. apply (fold_left_inv co_inv); [constructor|]. intros c r _. apply collect_row_inv.
Qed.

Lemma entries_of_ids c : co_inv c ->
  Forall (fun e => Forall (fun x => x < length (co_syll c)) (e_code e)) (entries_of c).
Proof.
  intros H. unfold entries_of. rewrite Forall_map. apply Forall_rev.
  eapply Forall_impl; [|exact H]. intros r Hr. cbn. rewrite Forall_map.
  eapply Forall_impl; [|exact Hr]. intros x Hx. now apply id_of_nth.
Qed.

(** * enumerate_build for a whole source *)

Theorem enumerate_build_source {F} (cast : dec -> F) (sort_original : bool) (files : list (colspec * list bytes)) :
  let c := collect_files files in
  let S := length (co_syll c) in
  Permutation (enumerate S (build_head cast S (compile_vocab sort_original c)))
              (map (conv F cast) (map out_of (filter has_code (entries_of c)))).
Proof.
  intros c S. unfold compile_vocab.
  apply (enumerate_build_entries cast S sort_original (entries_of c)).
  apply entries_of_ids. apply collect_files_inv.
Qed.

Theorem same_code_sorted_source {F} (cast : dec -> F) (fle : F -> F -> bool)
        (cast_mono : forall a b, dec_leb a b = true -> fle (cast a) (cast b) = true)
        (files : list (colspec * list bytes)) :
  let c := collect_files files in
  let S := length (co_syll c) in
  StronglySorted (Rf F fle) (enumerate S (build_head cast S (compile_vocab false c))).
Proof.
  intros c S. unfold compile_vocab. apply (same_code_sorted_entries F cast fle cast_mono).
  apply entries_of_ids. apply collect_files_inv.
Qed.

(** * Source rows and collected entries: nothing invented, nothing lost *)

Definition words_inv (c : collector) : Prop :=
  forall t cs, In cs (words_find t (co_words c)) ->
  exists r, In r (co_entries c) /\ re_text r = t /\ re_code r = split_skip x20 cs.

Lemma words_find_add t t' c w cs :
  In cs (words_find t (words_add t' c w)) -> (t = t' /\ cs = c) \/ In cs (words_find t w).
Proof.
  induction w as [|[k v] r IH]; cbn.
  - destruct (bytes_eqb t' t) eqn:E; cbn; [|tauto]. apply bytes_eqb_eq in E. intros [<-|[]]. left. auto.
  - destruct (bytes_eqb k t') eqn:E1; cbn.
    + apply bytes_eqb_eq in E1. subst k. destruct (bytes_eqb t' t) eqn:E2; cbn; [|tauto].
      apply bytes_eqb_eq in E2. intros [<-|H]; [left; auto|right; assumption].
    + destruct (bytes_eqb k t); [tauto|exact IH].
Qed.

Definition coded (r : lineres) : list rawentry :=
  match r with LRow t (b :: cs) ws => [raw_of t (b :: cs) ws] | _ => [] end.

Lemma coded_in row r : In r (coded row) -> exists t cs ws, row = LRow t cs ws /\ cs <> [] /\ r = raw_of t cs ws.
Proof. destruct row as [|t [|b cs] ws]; intros []; [|contradiction]. now exists t, (b :: cs), ws. Qed.

Lemma collect_row_entries row c :
  co_entries (collect_row row c) = coded row ++ co_entries c \/
  co_entries (collect_row row c) = co_entries c /\
  exists t cs ws, row = LRow t cs ws /\ is_single (raw_of t cs ws) = true /\
                  existsb (bytes_eqb cs) (words_find t (co_words c)) = true.
Proof.
  destruct row as [|t [|b cs] ws]; [now left..|]. cbn [collect_row coded].
  destruct (create_entry_cases t (b :: cs) ws c) as [_ [[E _]|(E & _ & H)]]; [now left|right].
  split; [exact E|]. now exists t, (b :: cs), ws.
Qed.

Lemma collect_row_words_inv row c : words_inv c -> words_inv (collect_row row c).
Proof.
  intros H. destruct row as [|word [|b cs] weight]; [exact H..|]. cbn [collect_row].
  assert (Hold : forall r0 t cs0, In cs0 (words_find t (co_words c)) ->
            exists r, In r (r0 :: co_entries c) /\ re_text r = t /\ re_code r = split_skip x20 cs0).
  { intros r0 t cs0 Hin. destruct (H t cs0 Hin) as [r [H1 H2]]. exists r. split; [now right|assumption]. }
  intros t cs0.
  destruct (create_entry_cases word (b :: cs) weight c) as [_ [[-> [->| ->]]|(-> & -> & _)]]; [apply Hold| |apply H].
  intros Hin. apply words_find_add in Hin. destruct Hin as [[-> ->]|Hin]; [|now apply Hold].
  eexists. split; [left; reflexivity|]. cbn. auto.
Qed.

Lemma run_rows_mono rows c r : In r (co_entries c) -> In r (co_entries (run_rows rows c)).
Proof.
  intros H. apply (fold_left_inv (fun c' => In r (co_entries c'))); [exact H|]. intros c' row _ H'.
  destruct (collect_row_entries row c') as [->|[-> _]]; [apply in_or_app; now right|exact H'].
Qed.

Lemma run_rows_sound rows c r : In r (co_entries (run_rows rows c)) ->
  In r (co_entries c) \/ exists t cs ws, In (LRow t cs ws) rows /\ cs <> [] /\ r = raw_of t cs ws.
Proof.
  apply (fold_left_inv (fun c' => In r (co_entries c') -> In r (co_entries c) \/
            exists t cs ws, In (LRow t cs ws) rows /\ cs <> [] /\ r = raw_of t cs ws)); [now left|].
  intros c' row Hrow IH.
  destruct (collect_row_entries row c') as [->|[-> _]]; [|exact IH]. intros H. apply in_app_or in H.
  destruct H as [H|H]; [right|now apply IH]. destruct (coded_in row r H) as (t & cs & ws & -> & H').
  now exists t, cs, ws.
Qed.

(* nothing lost: every source row with a code is represented by an entry with its text and code; a
   multi-syllable row by itself, a one-syllable row possibly by an earlier definition of the same
   word with the same code ("duplicate word definition") *)
Lemma run_rows_complete rows : forall c t cs ws, words_inv c -> In (LRow t cs ws) rows -> cs <> [] ->
  exists r, In r (co_entries (run_rows rows c)) /\ re_text r = t /\ re_code r = split_skip x20 cs /\
            (is_single r = false -> r = raw_of t cs ws).
Proof.
  induction rows as [|x xs IH]; intros c t cs ws Hw Hin Hne; [destruct Hin|].
  cbn [run_rows fold_left]. fold (run_rows xs (collect_row x c)).
  destruct Hin as [->|Hin]; [|apply IH; [now apply collect_row_words_inv|assumption..]].
  destruct (collect_row_entries (LRow t cs ws) c) as [E|[E (t' & cs' & ws' & [= <- <- <-] & Hs & Hex)]].
  - exists (raw_of t cs ws). split; [|cbn; auto]. apply run_rows_mono. rewrite E.
    destruct cs; [congruence|now left].
  - apply existsb_exists in Hex. destruct Hex as [cs' [Hin' Heq]]. apply bytes_eqb_eq in Heq. subst cs'.
    destruct (Hw t cs Hin') as [r [H1 [H2 H3]]].
    exists r. split; [apply run_rows_mono; rewrite E; exact H1|]. repeat split; [assumption..|].
    intros Hf. unfold is_single, raw_of in Hf, Hs. cbn [re_code] in Hs. rewrite H3 in Hf. rewrite Hf in Hs. discriminate.
Qed.

Lemma run_rows_multi rows c :
  filter (fun r => negb (is_single r)) (rev (co_entries (run_rows rows c))) =
  filter (fun r => negb (is_single r)) (rev (co_entries c)) ++
  filter (fun r => negb (is_single r)) (flat_map coded rows).
Proof.
  apply (fold_left_ind (fun pre c' => filter _ (rev (co_entries c')) = _ ++ filter _ (flat_map coded pre))).
  { cbn. now rewrite app_nil_r. }
  intros pre x c' IH. rewrite flat_map_app, filter_app, app_assoc, <- IH. cbn [flat_map]. rewrite app_nil_r.
  destruct (collect_row_entries x c') as [->|[-> (t & cs & ws & -> & Hs & _)]].
  - rewrite rev_app_distr, filter_app. f_equal. now destruct x as [|t [|b cs] ws].
  - destruct cs; cbn [coded filter]; [|rewrite Hs]; cbn; now rewrite app_nil_r.
Qed.

Theorem source_nothing_invented files r :
  In r (co_entries (collect_files files)) ->
  exists t cs ws, In (LRow t cs ws) (source_rows files) /\ cs <> [] /\ r = raw_of t cs ws.
Proof.
  rewrite collect_files_fold. intros H. destruct (run_rows_sound _ _ _ H) as [[]|H']. exact H'.
Qed.

Theorem source_nothing_lost files t cs ws :
  In (LRow t cs ws) (source_rows files) -> cs <> [] ->
  exists r, In r (co_entries (collect_files files)) /\ re_text r = t /\ re_code r = split_skip x20 cs /\
            (is_single r = false -> r = raw_of t cs ws).
Proof. rewrite collect_files_fold. apply run_rows_complete. intros t' cs' []. Qed.

Theorem source_phrases_one_for_one files :
  filter (fun r => negb (is_single r)) (rev (co_entries (collect_files files))) =
  filter (fun r => negb (is_single r)) (flat_map coded (source_rows files)).
Proof. rewrite collect_files_fold. rewrite run_rows_multi. reflexivity. Qed.

(** * reverse_lookup_exact: the reverse table records for a text exactly its one-syllable codes *)

Lemma lvl_find_In {A} i (v : lvl A) p : lvl_find i v = Some p -> In (i, p) v.
Proof.
  induction v as [|[k q] r IH]; cbn; [discriminate|].
  destruct (Nat.eqb_spec k i) as [->|]; [intros [= ->]; now left|right; auto].
Qed.

Lemma In_lvl_find {A} i (v : lvl A) p : StronglySorted lt (map fst v) -> In (i, p) v -> lvl_find i v = Some p.
Proof.
  induction v as [|[k q] r IH]; intros Hs H; [destruct H|destruct H as [E|H]]; cbn.
  - injection E as -> ->. now rewrite Nat.eqb_refl.
  - destruct (sorted_keys_cons _ _ _ Hs) as [Hs' Hlt]. rewrite Forall_forall in Hlt. specialize (Hlt _ H).
    cbn in Hlt. destruct (Nat.eqb_spec k i); [lia|auto].
Qed.

Lemma flat1_top S v i text : wf1 S v ->
  (exists w, In ([i], (text, w)) (flat1 v)) <->
  exists p e, lvl_find i v = Some p /\ In e (p_entries p) /\ e_text e = text.
Proof.
  intros [Hs Hb]. unfold flat1. split.
  - intros [w H]. rewrite flat_lvl_pageflat, in_flat_map in H. destruct H as [[k p] [Hin Hx]].
    apply in_app_or in Hx. destruct Hx as [Hx|Hx].
    + apply in_map_iff in Hx. destruct Hx as [e [[= -> <- _] He]]. exists p, e. split; [now apply In_lvl_find|auto].
    + exfalso. rewrite Forall_forall in Hb. destruct (Hb _ Hin) as [_ Hp]. destruct p as [es [n|]]; [|destruct Hx].
      cbn [fst snd p_next app] in *. destruct (flat2_ext S [k] n Hp _ Hx) as [r [Hr Hc]]. cbn in Hc. congruence.
  - intros (p & e & Hf & He & <-). exists (e_w e). rewrite flat_lvl_pageflat, in_flat_map.
    exists (i, p). split; [now apply lvl_find_In|]. apply in_or_app. left. apply in_map_iff. now exists e.
Qed.

(* what ReverseDb::Build records for a text: the syllables whose top-level page holds an entry with that text *)
Lemma rev_codes_spec syll v text s :
  In s (rev_codes syll v text) <->
  exists i, nth_error syll i = Some s /\
            exists p e, lvl_find i v = Some p /\ In e (p_entries p) /\ e_text e = text.
Proof.
  unfold rev_codes. rewrite in_map_iff. split.
  - intros [[i s'] [<- Hin]]. apply filter_In in Hin. destruct Hin as [Hc Ht]. cbn [fst snd] in *.
    apply in_combine_seq in Hc. destruct Hc as [_ Hn]. rewrite Nat.sub_0_r in Hn.
    destruct (lvl_find i v) as [p|] eqn:Hf; [|discriminate].
    apply existsb_exists in Ht. destruct Ht as [e [He Hte]]. apply bytes_eqb_eq in Hte. exists i. split; [exact Hn|now exists p, e].
  - intros (i & Hn & p & e & Hf & He & Ht). exists (i, s). split; [reflexivity|]. apply filter_In. split.
    + apply in_combine_seq. rewrite Nat.sub_0_r. split; [lia|assumption].
    + cbn [fst]. rewrite Hf. apply existsb_exists. exists e. split; [assumption|]. now apply bytes_eqb_eq.
Qed.

Lemma compiled_top S (sort_original : bool) es i text :
  Forall (fun e => Forall (fun x => x < S) (e_code e)) es ->
  (exists p e, lvl_find i (if sort_original then vocab_of es else sort1 (vocab_of es)) = Some p /\
               In e (p_entries p) /\ e_text e = text) <->
  exists e, In e es /\ e_code e = [i] /\ e_text e = text.
Proof.
  intros Hes. rewrite <- (flat1_top S) by now apply compiled_wf. split.
  - intros [w H]. rewrite compiled_flat in H. apply in_map_iff in H. destruct H as [e [[= Hc Ht _] He]].
    apply filter_In in He. exists e. tauto.
  - intros (e & He & Hc & <-). exists (e_w e). rewrite compiled_flat. apply in_map_iff. exists e.
    split; [unfold out_of; now rewrite Hc|]. apply filter_In. split; [assumption|]. unfold has_code. now rewrite Hc.
Qed.

Theorem reverse_lookup_entries S syll (sort_original : bool) es text s :
  Forall (fun e => Forall (fun x => x < S) (e_code e)) es ->
  let v := if sort_original then vocab_of es else sort1 (vocab_of es) in
  In s (rev_codes syll v text) <->
  exists i, nth_error syll i = Some s /\ exists e, In e es /\ e_code e = [i] /\ e_text e = text.
Proof.
  intros Hes v. rewrite rev_codes_spec.
  split; intros (i & Hn & H); exists i; (split; [exact Hn|]); now apply (compiled_top S sort_original es i text Hes).
Qed.

Theorem reverse_lookup_source (sort_original : bool) (files : list (colspec * list bytes)) text s :
  let c := collect_files files in
  In s (rev_codes (co_syll c) (compile_vocab sort_original c) text) <->
  exists r, In r (co_entries c) /\ re_text r = text /\ re_code r = [s].
Proof.
  intros c. unfold compile_vocab.
  pose proof (collect_files_inv files) as Hinv. fold c in Hinv.
  rewrite (reverse_lookup_entries _ (co_syll c) sort_original (entries_of c) text s (entries_of_ids c Hinv)).
  assert (Hid : forall r s', In r (co_entries c) -> re_code r = [s'] ->
                nth_error (co_syll c) (id_of (co_syll c) s') = Some s').
  { intros r s' Hr E. unfold co_inv in Hinv. rewrite Forall_forall in Hinv. specialize (Hinv r Hr). rewrite E in Hinv.
    inversion Hinv as [|? ? Hs' _]. now apply id_of_nth. }
  unfold entries_of. split.
  - intros (i & Hn & e & He & Hc & Ht). apply in_map_iff in He. destruct He as [r [<- Hr]]. apply in_rev in Hr.
    exists r. split; [assumption|]. split; [exact Ht|]. cbn in Hc.
    destruct (re_code r) as [|s' [|]] eqn:E; try discriminate. injection Hc as <-.
    specialize (Hid r s' Hr E). congruence.
  - intros [r [Hr [Ht Hc]]]. exists (id_of (co_syll c) s). split; [now apply (Hid r)|].
    exists (short_of (co_syll c) r). split; [apply in_map; now apply in_rev in Hr|].
    split; [cbn; now rewrite Hc|exact Ht].
Qed.

(** * The arrays std::lower_bound searches are key-sorted *)

Section IndexSorted.
  Variable F : Type.
  Variable cast : dec -> F.

  Definition keys_sorted {A} (t : list (inode F A)) : Prop := StronglySorted lt (map n_key t).
  Definition ix_sorted3 (t : trunk3 F) : Prop := keys_sorted t.
  Definition ix_sorted2 (t : trunk2 F) : Prop :=
    keys_sorted t /\ Forall (fun n => match n_next n with Some t3 => ix_sorted3 t3 | None => True end) t.
  Definition ix_sorted_head (h : head F) : Prop :=
    Forall (fun n => match h_next n with Some t2 => ix_sorted2 t2 | None => True end) h.

  Lemma build_trunk_keys {A B} (bn : A -> B) (v : lvl A) :
    map n_key (build_trunk F cast bn v) = map fst v.
  Proof. unfold build_trunk. rewrite map_map. reflexivity. Qed.

  Lemma build_trunk3_sorted S v : wf3 S v -> ix_sorted3 (build_trunk3 cast v).
  Proof. intros [Hs _]. unfold ix_sorted3, keys_sorted, build_trunk3. now rewrite build_trunk_keys. Qed.

  Lemma build_trunk2_sorted S v : wf2 S v -> ix_sorted2 (build_trunk2 cast v).
  Proof.
    intros [Hs Hb]. split.
    - unfold keys_sorted, build_trunk2. now rewrite build_trunk_keys.
    - unfold build_trunk2, build_trunk. rewrite Forall_map. eapply Forall_impl; [|exact Hb].
      intros [k p] [_ Hp]. cbn in *. destruct (p_next p) as [n|]; cbn; [|exact I]. now apply (build_trunk3_sorted S).
  Qed.

  Theorem build_head_sorted S v : wf1 S v -> ix_sorted_head (build_head cast S v).
  Proof.
    intros [_ Hb]. apply build_head_Forall; [exact I|]. eapply Forall_impl; [|exact Hb].
    intros [k p] [_ Hp]. cbn in *. destruct (p_next p) as [n|]; cbn; [|exact I]. now apply (build_trunk2_sorted S).
  Qed.
End IndexSorted.

Theorem index_keys_sorted_source {F} (cast : dec -> F) (sort_original : bool) (files : list (colspec * list bytes)) :
  let c := collect_files files in
  ix_sorted_head F (build_head cast (length (co_syll c)) (compile_vocab sort_original c)).
Proof.
  intros c. apply (build_head_sorted F cast (length (co_syll c))).
  apply compiled_wf, entries_of_ids, collect_files_inv.
Qed.
