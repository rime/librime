(** C08 - generic lemmas about the data structures of Dict/Syll.v:
    strings, the prism lookup, nmaps, the ordered queue, key sorting. *)
From Coq Require Import List Arith Bool Lia Sorted.
From RimeV Require Import Base.ListX Dict.Syll.
Import ListNotations.

Lemma sorted_lt_nodup (l : list nat) : StronglySorted lt l -> NoDup l.
Proof. apply StronglySorted_NoDup, Nat.lt_irrefl. Qed.

Lemma sorted_length_bound (l : list nat) b :
  StronglySorted lt l -> Forall (fun x => x < b) l -> length l <= b.
Proof.
  intros Hs H. rewrite <- (seq_length b 0). apply NoDup_incl_length; [now apply sorted_lt_nodup|].
  intros x Hx. apply in_seq. rewrite Forall_forall in H. specialize (H x Hx). lia.
Qed.

Definition nonempty {A} (l : list A) : option (list A) := match l with [] => None | _ :: _ => Some l end.

Lemma nonempty_some {A} (a x : list A) : nonempty a = Some x -> x = a /\ a <> [].
Proof. destruct a; [discriminate|]. intro H. inversion H. split; [reflexivity|discriminate]. Qed.

Lemma str_eqb_eq a b : str_eqb a b = true <-> a = b.
Proof.
  revert b. induction a as [|x a IH]; intros [|y b]; cbn; split; intro H; try discriminate; try reflexivity.
  - apply andb_true_iff in H as [H1 H2]. apply Nat.eqb_eq in H1. apply IH in H2. now subst.
  - inversion H; subst. rewrite Nat.eqb_refl. cbn. now apply IH.
Qed.

Lemma str_eqb_refl a : str_eqb a a = true.
Proof. now apply str_eqb_eq. Qed.

Lemma lookup_In k P ds : lookup k P = Some ds -> In (k, ds) P.
Proof.
  induction P as [|[k' d'] r IH]; cbn; [discriminate|].
  destruct (str_eqb k' k) eqn:E.
  - intro H. inversion H; subst. apply str_eqb_eq in E. subst. now left.
  - intro H. right. now apply IH.
Qed.

Lemma In_lookup k P ds : NoDup (map fst P) -> In (k, ds) P -> lookup k P = Some ds.
Proof.
  induction P as [|[k' d'] r IH]; cbn; [tauto|].
  intros ND [H|H].
  - inversion H; subst. now rewrite str_eqb_refl.
  - inversion ND as [|? ? Hn ND']; subst.
    destruct (str_eqb k' k) eqn:E.
    + apply str_eqb_eq in E. subst. exfalso. apply Hn. now apply (in_map fst) in H.
    + now apply IH.
Qed.

Lemma sub_length inp p l : p + l <= length inp -> length (sub inp p l) = l.
Proof. intro H. unfold sub. rewrite firstn_length, skipn_length. lia. Qed.

Lemma cps_spec P key l ds :
  In (l, ds) (common_prefix_search P key) <->
  1 <= l /\ l <= length key /\ lookup (firstn l key) P = Some ds.
Proof.
  unfold common_prefix_search. rewrite in_flat_map. split.
  - intros [x [Hx Hi]]. apply in_seq in Hx.
    destruct (lookup (firstn x key) P) eqn:E; cbn in Hi; [|tauto].
    destruct Hi as [Hi|[]]. inversion Hi; subst. repeat split; try lia. exact E.
  - intros (H1 & H2 & H3). exists l. split; [apply in_seq; lia|]. rewrite H3. now left.
Qed.

Lemma cps_keys P key :
  map fst (common_prefix_search P key) =
  filter (fun l => match lookup (firstn l key) P with Some _ => true | None => false end)
         (seq 1 (length key)).
Proof.
  unfold common_prefix_search. induction (seq 1 (length key)) as [|l r IH]; cbn; [reflexivity|].
  destruct (lookup (firstn l key) P); cbn; now rewrite IH.
Qed.

Lemma cps_length P key : length (common_prefix_search P key) <= length key.
Proof.
  pose proof (f_equal (@length _) (cps_keys P key)) as H. rewrite map_length in H. unfold pmatch. rewrite H.
  etransitivity; [apply filter_length_le|]. now rewrite seq_length.
Qed.

Lemma cps_nodup P key : NoDup (map fst (common_prefix_search P key)).
Proof. rewrite cps_keys. apply NoDup_filter, seq_NoDup. Qed.

Section NM.
  Context {V : Type}.
  Implicit Types m : nmap V.

  Lemma nm_find_set k k' v m :
    nm_find k' (nm_set k v m) = if k =? k' then Some v else nm_find k' m.
  Proof.
    induction m as [|[k0 v0] r IH]; cbn [nm_find nm_set]; [reflexivity|].
    destruct (k0 =? k) eqn:E; [|destruct (k <? k0)]; cbn [nm_find]; [|reflexivity|].
    - apply Nat.eqb_eq in E. subst k0. now destruct (k =? k').
    - rewrite IH. destruct (k0 =? k') eqn:E'; [|reflexivity].
      apply Nat.eqb_eq in E'. subst k0. now rewrite Nat.eqb_sym, E.
  Qed.

  Lemma nm_find_set_eq k v m : nm_find k (nm_set k v m) = Some v.
  Proof. now rewrite nm_find_set, Nat.eqb_refl. Qed.

  Lemma nm_find_set_neq k k' v m : k <> k' -> nm_find k' (nm_set k v m) = nm_find k' m.
  Proof. intro N. rewrite nm_find_set. now apply Nat.eqb_neq in N as ->. Qed.

  Lemma nm_find_erase k k' m :
    nm_find k' (nm_erase k m) = if k =? k' then None else nm_find k' m.
  Proof.
    unfold nm_erase. induction m as [|[k0 v0] r IH]; cbn [nm_find filter fst negb]; [now destruct (k =? k')|].
    destruct (k0 =? k) eqn:E; cbn [nm_find filter fst negb].
    - apply Nat.eqb_eq in E. subst k0. rewrite IH. destruct (k =? k'); reflexivity.
    - rewrite IH. destruct (k0 =? k') eqn:E2; [|reflexivity].
      apply Nat.eqb_eq in E2. subst k0. rewrite Nat.eqb_sym, E. reflexivity.
  Qed.

  Lemma nm_set_length_new k v m : nm_find k m = None -> length (nm_set k v m) = S (length m).
  Proof.
    induction m as [|[k0 v0] r IH]; cbn [nm_find nm_set length]; [reflexivity|].
    destruct (k0 =? k); [discriminate|]. intro H.
    destruct (k <? k0); cbn [length]; [reflexivity|]. now rewrite IH.
  Qed.

  Lemma nm_find_In k v m : nm_find k m = Some v -> In (k, v) m.
  Proof.
    induction m as [|[k0 v0] r IH]; cbn; [discriminate|].
    destruct (k0 =? k) eqn:E.
    - intro H. inversion H; subst. apply Nat.eqb_eq in E. subst. now left.
    - intro H. right. now apply IH.
  Qed.

  Lemma nm_nonempty_find m : m <> [] -> exists k v, nm_find k m = Some v.
  Proof.
    destruct m as [|[k v] r]; [congruence|]. intros _. exists k, v. cbn. now rewrite Nat.eqb_refl.
  Qed.

  Lemma nm_find_nonempty k v m : nm_find k m = Some v -> m <> [].
  Proof. destruct m; cbn; [discriminate|congruence]. Qed.

  Lemma nm_set_nonempty k v m : nm_set k v m <> [].
  Proof.
    destruct m as [|[k' v'] r]; cbn [nm_set]; [congruence|].
    destruct (k' =? k); [congruence|]. destruct (k <? k'); congruence.
  Qed.

  (** strictly ascending keys = std::map iteration order *)
  Definition nm_sorted m : Prop := StronglySorted lt (map fst m).

  Lemma nm_sorted_nil : nm_sorted (@nil (nat * V)).
  Proof. constructor. Qed.

  Lemma nm_set_keys k v m x : In x (map fst (nm_set k v m)) <-> x = k \/ In x (map fst m).
  Proof.
    induction m as [|[k0 v0] r IH]; cbn [nm_set map fst In]; [intuition|].
    destruct (k0 =? k) eqn:E; cbn [nm_set map fst In].
    - apply Nat.eqb_eq in E. subst. intuition.
    - destruct (k <? k0); cbn [nm_set map fst In]; [intuition|]. rewrite IH. intuition.
  Qed.

  Lemma nm_sorted_set k v m : nm_sorted m -> nm_sorted (nm_set k v m).
  Proof.
    unfold nm_sorted. induction m as [|[k0 v0] r IH]; cbn [nm_set map fst In]; intro S.
    - constructor; constructor.
    - inversion S as [|? ? S' F]; subst.
      destruct (k0 =? k) eqn:E; cbn [nm_set map fst In].
      + apply Nat.eqb_eq in E. subst. now constructor.
      + destruct (k <? k0) eqn:E2; cbn [nm_set map fst In].
        * apply Nat.ltb_lt in E2. constructor; [now constructor|].
          constructor; [exact E2|]. eapply Forall_impl; [|exact F]. cbn [nm_set map fst In]. intros; lia.
        * apply Nat.ltb_ge in E2. apply Nat.eqb_neq in E.
          constructor; [now apply IH|].
          apply Forall_forall. intros x Hx. apply nm_set_keys in Hx as [->|Hx]; [lia|].
          rewrite Forall_forall in F. now apply F.
  Qed.

  Lemma nm_sorted_filter (f : nat * V -> bool) m : nm_sorted m -> nm_sorted (filter f m).
  Proof.
    unfold nm_sorted. induction m as [|a r IH]; cbn; intro S; [constructor|].
    inversion S as [|? ? S' F]; subst.
    destruct (f a); cbn; [|now apply IH].
    constructor; [now apply IH|]. apply Forall_forall. intros x Hx.
    rewrite Forall_forall in F. apply F. apply in_map_iff in Hx as [y [<- Hy]].
    apply filter_In in Hy as [Hy _]. now apply in_map.
  Qed.

  Lemma nm_sorted_erase k m : nm_sorted m -> nm_sorted (nm_erase k m).
  Proof. apply nm_sorted_filter. Qed.

  Lemma nm_sorted_In_find k v m : nm_sorted m -> In (k, v) m -> nm_find k m = Some v.
  Proof.
    unfold nm_sorted. induction m as [|[k0 v0] r IH]; cbn; [tauto|].
    intros S [H|H].
    - inversion H; subst. now rewrite Nat.eqb_refl.
    - inversion S as [|? ? S' F]; subst.
      destruct (k0 =? k) eqn:E.
      + apply Nat.eqb_eq in E. subst. rewrite Forall_forall in F.
        specialize (F k (in_map fst _ _ H)). cbn in F. lia.
      + now apply IH.
  Qed.

  Lemma nm_sorted_tail a m : nm_sorted (a :: m) -> nm_sorted m.
  Proof. unfold nm_sorted. cbn. intro S. now inversion S. Qed.

  Lemma nm_sorted_nodup m : nm_sorted m -> NoDup (map fst m).
  Proof. apply sorted_lt_nodup. Qed.

  Lemma nm_keys_find k m : In k (map fst m) -> exists v, nm_find k m = Some v.
  Proof.
    induction m as [|[k0 v0] r IH]; cbn; [tauto|]. intros [->|H].
    - exists v0. now rewrite Nat.eqb_refl.
    - destruct (k0 =? k); [eauto|now apply IH].
  Qed.

  Lemma nm_find_keys k v m : nm_find k m = Some v -> In k (map fst m).
  Proof. intro H. apply nm_find_In in H. now apply (in_map fst) in H. Qed.

  Lemma nm_find_fresh k m : ~ In k (map fst m) -> nm_find k m = None.
  Proof. intro N. destruct (nm_find k m) eqn:F; [|reflexivity]. apply nm_find_keys in F. contradiction. Qed.

  Lemma nm_find_app k (a b : nmap V) :
    nm_find k (a ++ b) = match nm_find k a with Some v => Some v | None => nm_find k b end.
  Proof. induction a as [|[k' v] a IH]; cbn; [reflexivity|]. now destruct (k' =? k). Qed.

  Lemma nm_empty_find m : (forall k, nm_find k m = None) -> m = [].
  Proof.
    destruct m as [|[k v] r]; [reflexivity|]. intro H. specialize (H k). cbn in H.
    rewrite Nat.eqb_refl in H. discriminate.
  Qed.

  (** needs key order: among duplicate keys, dropping the first binding of [k]
      would uncover a later one *)
  Lemma nm_find_filter (f : nat * V -> bool) k m :
    nm_sorted m ->
    nm_find k (filter f m) = match nm_find k m with
                             | Some v => if f (k, v) then Some v else None
                             | None => None
                             end.
  Proof.
    induction m as [|[k0 v0] r IH]; intro S; cbn [filter nm_find]; [reflexivity|].
    pose proof (nm_sorted_tail _ _ S) as S'.
    destruct (k0 =? k) eqn:E.
    - apply Nat.eqb_eq in E. subst k0. destruct (f (k, v0)) eqn:Ef.
      + cbn [nm_find]. now rewrite Nat.eqb_refl.
      + rewrite IH by assumption.
        destruct (nm_find k r) as [v|] eqn:F; [|reflexivity].
        exfalso. apply nm_sorted_nodup in S. inversion S as [|? ? Hn _]; subst.
        apply Hn. eapply nm_find_keys; eauto.
    - destruct (f (k0, v0)); cbn [nm_find]; [rewrite E|]; now apply IH.
  Qed.
End NM.

(** graph->edges[k] read without creating the entry *)
Lemma find_or_empty_ind {V} (Q : nmap V -> Prop) k (m : nmap (nmap V)) :
  Q [] -> (forall x, nm_find k m = Some x -> Q x) -> Q (find_or_empty k m).
Proof. intros H0 H1. unfold find_or_empty. destruct (nm_find k m); auto. Qed.

Lemma find_or_empty_some {V} k (m : nmap (nmap V)) x : nm_find k m = Some x -> find_or_empty k m = x.
Proof. unfold find_or_empty. now intros ->. Qed.

Lemma find_or_empty_none {V} k (m : nmap (nmap V)) : nm_find k m = None -> find_or_empty k m = [].
Proof. unfold find_or_empty. now intros ->. Qed.

Definition vle_p (a b : vertex) : Prop := vle a b = true.

Lemma vle_spec a b : vle a b = true <-> fst a < fst b \/ (fst a = fst b /\ snd a <= snd b).
Proof.
  unfold vle. rewrite orb_true_iff, andb_true_iff, Nat.ltb_lt, Nat.eqb_eq, Nat.leb_le. tauto.
Qed.

Lemma vle_total a b : vle a b = false -> vle b a = true.
Proof. rewrite <- not_true_iff_false, !vle_spec. lia. Qed.

Lemma vle_trans a b c : vle a b = true -> vle b c = true -> vle a c = true.
Proof. rewrite !vle_spec. lia. Qed.

Lemma q_push_In x q y : In y (q_push x q) <-> y = x \/ In y q.
Proof.
  induction q as [|z r IH]; cbn; [intuition|].
  destruct (vle x z); cbn; [intuition|]. rewrite IH. intuition.
Qed.

Lemma q_push_length x q : length (q_push x q) = S (length q).
Proof.
  induction q as [|z r IH]; cbn; [reflexivity|]. destruct (vle x z); cbn; [reflexivity|]. now rewrite IH.
Qed.

Definition q_sorted (q : list vertex) : Prop := StronglySorted vle_p q.

Lemma q_push_sorted x q : q_sorted q -> q_sorted (q_push x q).
Proof.
  unfold q_sorted. induction q as [|z r IH]; cbn; intro S.
  - constructor; constructor.
  - inversion S as [|? ? S' F]; subst.
    destruct (vle x z) eqn:E.
    + constructor; [exact S|]. constructor; [exact E|].
      eapply Forall_impl; [|exact F]. intros w Hw. unfold vle_p in *. eapply vle_trans; eauto.
    + constructor; [now apply IH|]. apply Forall_forall. intros w Hw.
      apply q_push_In in Hw as [->|Hw].
      * now apply vle_total.
      * rewrite Forall_forall in F. now apply F.
Qed.

Lemma q_sorted_head x q y : q_sorted (x :: q) -> In y q -> vle x y = true.
Proof.
  intros S H. inversion S as [|? ? S' F]; subst. rewrite Forall_forall in F. now apply F.
Qed.

Lemma q_sorted_tail x q : q_sorted (x :: q) -> q_sorted q.
Proof. intro S. now inversion S. Qed.

Lemma insert_key_In x l y : In y (insert_key x l) <-> y = x \/ In y l.
Proof.
  induction l as [|z r IH]; cbn; [intuition|].
  destruct (key_le (fst x) (fst z)); cbn; [intuition|]. rewrite IH. intuition.
Qed.

Lemma sort_keys_In l y : In y (sort_keys l) <-> In y l.
Proof.
  induction l as [|z r IH]; cbn; [tauto|]. rewrite insert_key_In, IH. intuition.
Qed.

Lemma expand_search_In P key limit l ds :
  In (l, ds) (expand_search P key limit) ->
  exists k, In (k, ds) P /\ is_prefix key k = true /\ l = length k.
Proof.
  unfold expand_search. intro H. apply in_firstn in H.
  apply in_map_iff in H as [[k d] [E H]]. cbn in E. inversion E; subst.
  apply (proj1 (sort_keys_In _ _)) in H. apply filter_In in H as [H1 H2]. cbn in H2. now exists k.
Qed.

Lemma is_prefix_spec a b : is_prefix a b = true <-> exists c, b = a ++ c.
Proof.
  unfold is_prefix. rewrite str_eqb_eq. split.
  - intro H. exists (skipn (length a) b). rewrite H at 1. now rewrite firstn_skipn.
  - intros [c ->]. rewrite firstn_app, Nat.sub_diag, firstn_all. cbn. now rewrite app_nil_r.
Qed.
