(** List facts shared by the proofs about the table (C06) and about the algebra and the prism (C09). *)
From Coq Require Import List Arith Lia.
From RimeV Require Export Base.ListX.
Import ListNotations.

Lemma flat_map_nil_all {A B} (f : A -> list B) l : (forall x, In x l -> f x = []) -> flat_map f l = [].
Proof.
  induction l as [|x l IH]; intros H; cbn; [reflexivity|].
  rewrite (H x (or_introl eq_refl)). apply IH. intros y Hy. apply H. now right.
Qed.

Lemma flat_map_ext_in {A B} (f g : A -> list B) l :
  (forall x, In x l -> f x = g x) -> flat_map f l = flat_map g l.
Proof.
  induction l as [|x l IH]; intros H; cbn; [reflexivity|].
  rewrite (H x (or_introl eq_refl)). f_equal. apply IH. intros y Hy. apply H. now right.
Qed.

Lemma fold_left_ind {A B} (P : list B -> A -> Prop) (f : A -> B -> A) l a :
  P [] a -> (forall pre b a', P pre a' -> P (pre ++ [b]) (f a' b)) -> P l (fold_left f l a).
Proof. intros Ha H. apply fold_left_prefix_inv; [exact Ha|]. intros pre b _ a' _. apply H. Qed.

Lemma in_combine_seq {A} (l : list A) i x a :
  In (i, x) (combine (seq a (length l)) l) <-> a <= i /\ nth_error l (i - a) = Some x.
Proof.
  revert a. induction l as [|y l IH]; intros a; cbn [length seq combine].
  - cbn. split; [tauto|]. intros [_ H]. destruct (i - a); discriminate.
  - cbn [In]. rewrite IH. split.
    + intros [H|[H1 H2]].
      * injection H as -> ->. rewrite Nat.sub_diag. cbn. auto.
      * split; [lia|]. replace (i - a) with (S (i - S a)) by lia. exact H2.
    + intros [H1 H2]. destruct (Nat.eq_dec i a) as [->|Hne].
      * rewrite Nat.sub_diag in H2. cbn in H2. injection H2 as ->. now left.
      * right. split; [lia|]. replace (i - a) with (S (i - S a)) in H2 by lia. exact H2.
Qed.

Lemma in_combine_swap {A B} (l : list A) (l' : list B) a b : In (a, b) (combine l l') <-> In (b, a) (combine l' l).
Proof.
  revert l'. induction l as [|x l IH]; intros [|y l']; cbn; try tauto.
  rewrite IH. split; (intros [H|H]; [left; congruence|now right]).
Qed.
