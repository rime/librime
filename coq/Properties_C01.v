(** C01 – no API call sequence crashes, hangs or corrupts memory.
    Property theorems only.  PARTIAL by nature (see DESIGN.md §4 C01, §6): what
    is proved here is (a) the handle ledger of the API's output structs – "the
    objects it hands out can be freed exactly once" – for every get_*/free_*
    pair of the current source and every call sequence; (b) the totality of the
    modelled session core of coq/Eng ([C01_core_total] and the partial forms
    before it).  Memory safety of all unmodelled C++ is explored by the
    sanitizer-backed harness. *)
From Coq Require Import List String Bool.
From RimeV Require Import Api.Ledger Api.LedgerProofs Gen.ApiHandles.
Import ListNotations.

(** every get/free pair of the current rime_api_impl.h has the safe shape
    (finite domain: the list regenerated from the clang AST on every run) *)
Theorem C01_api_pairs_shape_ok : forallb shape_ok api_pairs = true.
Proof. vm_compute. reflexivity. Qed.
Print Assumptions C01_api_pairs_shape_ok.

Theorem C01_api_pairs_present : 3 <= List.length api_pairs.
Proof. vm_compute. repeat constructor. Qed.
Print Assumptions C01_api_pairs_present.

(** for every pair and EVERY sequence of get/free calls on a client struct
    (free twice, get twice, free before any get, …): no allocation is freed
    twice and nothing that did not come from `new` is deleted *)
Theorem C01_handles_never_freed_twice :
  forall ps, In ps api_pairs -> forall ops, exists s', run ps ops init = inl s'.
Proof.
  intros ps Hin ops.
  pose proof (proj1 (forallb_forall _ _) C01_api_pairs_shape_ok ps Hin) as Hok.
  destruct (ledger_safe ps Hok ops init (inv_init ps)) as (s' & Hr & _). now exists s'.
Qed.
Print Assumptions C01_handles_never_freed_twice.

(** … and the matching free releases every allocation the get made (freed exactly once) *)
Theorem C01_free_after_get_releases_all :
  forall ps, In ps api_pairs -> forall ops w s,
  run ps ops init = inl s ->
  exists s', do_free ps (do_get ps w s) = inl s' /\
             forall t, In t (tokens_of (do_get ps w s)) -> ~ In t (live s') /\ In t (freed s').
Proof.
  intros ps Hin ops w s Hrun.
  pose proof (proj1 (forallb_forall _ _) C01_api_pairs_shape_ok ps Hin) as Hok.
  destruct (ledger_safe ps Hok ops init (inv_init ps)) as (s0 & Hr & HI).
  rewrite Hrun in Hr. inversion Hr; subst s0.
  exact (get_then_free_releases_all ps Hok w s HI).
Qed.
Print Assumptions C01_free_after_get_releases_all.

(** non-vacuity: a free that does not clear the struct is refuted by get; free; free *)
Definition bad_pair : pair_shape :=
  {| ps_get := "g"; ps_free := "f"; ps_get_fields := [("text"%string, FromNew)]; ps_free_fields := ["text"%string];
     ps_get_clears_first := true; ps_free_clears := false |}.
Theorem C01_unclearing_free_refuted :
  run bad_pair [Get ["text"%string]; Free; Free] init = inr (DoubleFree "text").
Proof. vm_compute. reflexivity. Qed.
Print Assumptions C01_unclearing_free_refuted.

(** ---- appended by the Eng builder: the modelled session core (coq/Eng) ----
    [Eng.Api.step] reports [ObsCrash e] from the first modelled call on that
    reaches an undefined or throwing C++ operation ([Eng.Ctx.err]).  The full
    totality theorem is [C01_core_total] at the end of this file (proof:
    Eng/TotalFull.v): no crash of any kind over all histories, for translators
    whose candidates lie inside their segment; the statement without that
    hypothesis ([TotalProofs.core_total_full]) is refuted
    ([C01_core_total_needs_candidate_shape]).  The earlier partial theorems are kept: *)
From RimeV Require Eng.Api Eng.Ctx Eng.Engine Eng.Oracle Eng.Spec Eng.CommitProofs Eng.TotalFull Eng.TotalProofs Eng.PunctProofs Eng.KbProofs Eng.WfProofs Eng.Procs Eng.AsciiProofs Eng.Keys.

(** for EVERY history of API operations with arbitrary arguments (keys with any
    code/mask, indices up to SIZE_MAX, carets beyond the end, options, …), any
    configuration with page_size >= 1, either editor and any translator whose
    candidate lists are shorter than 2^31 - page_size, given the source fact
    that Context::DeleteCandidate looks the candidate up first: no modelled call
    dereferences a null candidate and none builds an invalid page range
    (PARTIAL: two of the four kinds of undefined operation) *)
Theorem C01_core_total_partial :
  forall cfg translate, RimeV.Eng.TotalProofs.total_hyps cfg translate ->
  forall ops, List.Forall RimeV.Eng.TotalProofs.no_null_no_bad_range_obs
                          (snd (RimeV.Eng.Api.run cfg translate ops)).
Proof. exact RimeV.Eng.TotalProofs.core_total_partial. Qed.
Print Assumptions C01_core_total_partial.

(** for every key sequence over the C05 editing alphabet (letters, BackSpace,
    Delete, KP_Left, KP_Right, Home, End, Escape), both editors, ANY translator:
    no undefined operation of any kind, CalculateSegmentation within its fuel *)
Theorem C01_core_total_edit_keys :
  forall fluid dlog translate keys,
    List.Forall (fun k => RimeV.Eng.Spec.ekey_ok (RimeV.Eng.Oracle.synth_cfg fluid dlog) k = true) keys ->
    List.forallb RimeV.Eng.CommitProofs.not_crash
      (snd (RimeV.Eng.Api.run (RimeV.Eng.Oracle.synth_cfg fluid dlog) translate
                              (List.map RimeV.Eng.Spec.op_of_ekey keys))) = true.
Proof. exact RimeV.Eng.TotalProofs.core_total_edit. Qed.
Print Assumptions C01_core_total_edit_keys.

(** … and with candidates that end at or after the start of their segment, for
    EVERY history the only undefined operation the modelled core can still reach
    is std::string::substr with pos > size: no null dereference, no invalid page
    range, and CalculateSegmentation finishes within its |input| + 1 rounds in
    every reachable state (PARTIAL: three of the four kinds; see
    TotalProofs.core_total_full for the full statement and what is missing).
    The statement covers EVERY processor / segmentor chain of the
    model (punctuator, punct_segmentor included); the model has CommitHistory,
    whose Push(composition, input) can read a popped record unless the source
    resets [last] in its raw branch – the source fact [cf_hist_guard]
    (Gen/EngFacts.v: commit_history_guard, discharged for the synthetic
    configurations from the current source; [C01_commit_history_dangling] is the
    witness for the other shape). *)
Theorem C01_core_total_except_substr :
  forall cfg translate, RimeV.Eng.TotalProofs.total_hyps cfg translate ->
  RimeV.Eng.Engine.cf_hist_guard cfg = true ->
  RimeV.Eng.Engine.cf_kb_guard cfg = true ->
  (forall i s c, List.In c (translate i s) -> RimeV.Eng.Cand.si_start s <= RimeV.Eng.Cand.c_end c) ->
  forall ops, List.Forall RimeV.Eng.WfProofs.obs_only_substr (snd (RimeV.Eng.Api.run cfg translate ops)).
Proof. exact RimeV.Eng.TotalProofs.core_total_except_substr. Qed.
Print Assumptions C01_core_total_except_substr.

(** FULL: for EVERY history of API operations with arbitrary arguments, any
    configuration with page_size >= 1, either editor, given the source fact that
    Context::DeleteCandidate looks the candidate up first, and any translator
    whose candidate lists are shorter than 2^31 - page_size and whose candidates
    end inside the segment they were made for and cover at least one byte of it
    ([cands_fit]: si_start s < c_end c <= si_start s + |segment input|): NO
    observation is a crash – no std::string::substr with pos > size, no null
    candidate dereference, no invalid page range, and CalculateSegmentation
    finishes within its |input| + 1 rounds.  (Invariant: open segments hold only
    candidates that fit, closed ones a fitting selected candidate and a menu
    bounded by the end Segment::Reopen restores, raw segments cover only bytes
    the abc segmentor refuses, the last segment is open or empty; Compose
    re-establishes it from the weaker form Reopen leaves behind, and swallows
    the one raw segment with a stale length that OnSelect can cut short.) *)
(** [plain_chain cfg] = segmentors [abc_segmentor, fallback_segmentor], no punctuator
    among the processors (the key binder with ANY binding table is allowed), and the two source facts
    (CommitHistory::Push resets [last]; KeyBinder replays with redirecting_ set).  For chains with
    punct_segmentor the statement is false as it stands ([C01_punct_chain_stale_menu]). *)
Theorem C01_core_total :
  forall cfg translate, RimeV.Eng.TotalProofs.total_hyps cfg translate ->
  RimeV.Eng.TotalFull.plain_chain cfg ->
  RimeV.Eng.TotalFull.cands_fit translate ->
  forall ops, List.forallb RimeV.Eng.CommitProofs.not_crash (snd (RimeV.Eng.Api.run cfg translate ops)) = true.
Proof. exact RimeV.Eng.TotalProofs.core_total. Qed.
Print Assumptions C01_core_total.

(** non-vacuity: the synthetic schemas of the correspondence checks (both
    editors, the oracle translator) meet every hypothesis *)
Theorem C01_core_total_synth :
  forall fluid dlog ops,
    List.forallb RimeV.Eng.CommitProofs.not_crash
      (snd (RimeV.Eng.Api.run (RimeV.Eng.Oracle.synth_cfg fluid dlog) RimeV.Eng.Oracle.oracle_translate ops)) = true.
Proof. exact RimeV.Eng.TotalProofs.core_total_synth. Qed.
Print Assumptions C01_core_total_synth.

Theorem C01_oracle_translator_cands_fit : RimeV.Eng.TotalFull.cands_fit RimeV.Eng.Oracle.oracle_translate.
Proof. exact RimeV.Eng.TotalProofs.oracle_cands_fit. Qed.
Print Assumptions C01_oracle_translator_cands_fit.

(** the candidate-shape hypothesis cannot be dropped: with a translator whose
    candidate ends beyond the input, "a" + select_candidate(0) makes GetPreedit
    call substr with pos > size (the statement without the hypothesis is false) *)
Theorem C01_core_total_needs_candidate_shape : ~ RimeV.Eng.TotalProofs.core_total_full.
Proof. exact RimeV.Eng.TotalProofs.core_total_full_refuted. Qed.
Print Assumptions C01_core_total_needs_candidate_shape.

(** ---- CommitHistory and the punctuator chains ---- *)
(** the source shape of CommitHistory::Push(composition, input) WITHOUT the reset of [last]
    in its raw branch (librime before c6a26de): on synth_fluid, `a x, select 3, space,
    (x space) x 21, a, commit_composition` dereferences a popped record
    (replays/eng-commit-history-dangling-last.txt: heap-use-after-free under ASan) *)
Theorem C01_commit_history_dangling :
  let cfg := RimeV.Eng.Oracle.synth_cfg_gen true true true true false in
  RimeV.Eng.TotalProofs.total_hyps cfg RimeV.Eng.Oracle.oracle_translate /\
  RimeV.Eng.TotalFull.cands_fit RimeV.Eng.Oracle.oracle_translate /\
  RimeV.Eng.Engine.cf_segmentors cfg = (RimeV.Eng.Engine.SgAbc :: RimeV.Eng.Engine.SgFallback :: nil)%list /\
  ~ List.In RimeV.Eng.Engine.PPunctuator (RimeV.Eng.Engine.cf_processors cfg) /\
  List.existsb (fun o => match o with RimeV.Eng.Api.ObsCrash RimeV.Eng.Ctx.ErrDangling => true | _ => false end)
          (snd (RimeV.Eng.Api.run cfg RimeV.Eng.Oracle.oracle_translate RimeV.Eng.PunctProofs.dangling_ops)) = true.
Proof. exact RimeV.Eng.PunctProofs.commit_history_dangling. Qed.
Print Assumptions C01_commit_history_dangling.

(** the current source fact is the guarded shape: the synthetic configurations carry it *)
Theorem C01_commit_history_guard_in_source : RimeV.Eng.Oracle.hist_guard_in_source = true.
Proof. reflexivity. Qed.
Print Assumptions C01_commit_history_guard_in_source.

(** chains with punct_segmentor: the hypotheses of [C01_core_total] (candidates inside their
    segment, in the form TranslateSegments needs) do NOT suffice – after a full_shape toggle
    the punct segmentor takes the byte that the fallback segmentor would have re-absorbed
    into a closed raw segment cut short by a partial candidate; Segment::Reopen revives the
    stale menu and GetPreedit throws std::out_of_range
    (replays/eng-stale-raw-menu-after-shape-toggle.txt, confirmed on the real code) *)
Theorem C01_punct_chain_stale_menu :
  let cfg := RimeV.Eng.Oracle.synth_punct_cfg_gen true true true true true in
  RimeV.Eng.TotalProofs.total_hyps cfg (RimeV.Eng.Oracle.synth_translate cfg) /\
  RimeV.Eng.Engine.cf_hist_guard cfg = true /\
  RimeV.Eng.PunctProofs.cands_fit_seg (RimeV.Eng.Oracle.synth_translate cfg) /\
  RimeV.Eng.Engine.cf_segmentors cfg
  = (RimeV.Eng.Engine.SgAbc :: RimeV.Eng.Engine.SgPunct :: RimeV.Eng.Engine.SgFallback :: nil)%list /\
  List.existsb (fun o => match o with RimeV.Eng.Api.ObsCrash RimeV.Eng.Ctx.ErrSubstr => true | _ => false end)
          (snd (RimeV.Eng.Api.run cfg (RimeV.Eng.Oracle.synth_translate cfg) RimeV.Eng.PunctProofs.stale_menu_ops)) = true.
Proof. exact RimeV.Eng.PunctProofs.punct_chain_stale_menu. Qed.
Print Assumptions C01_punct_chain_stale_menu.

(** what IS proved for the punctuator schemas: no null dereference, no invalid page range
    (PARTIAL; the full statement with its extra hypothesis is
    [RimeV.Eng.PunctProofs.core_total_punct_full], not proved) *)
Theorem C01_core_total_partial_synth_punct :
  forall fluid dlog ops,
    List.Forall RimeV.Eng.TotalProofs.no_null_no_bad_range_obs
      (snd (RimeV.Eng.Api.run (RimeV.Eng.Oracle.synth_punct_cfg fluid dlog)
                              (RimeV.Eng.Oracle.synth_translate (RimeV.Eng.Oracle.synth_punct_cfg fluid dlog)) ops)).
Proof. exact RimeV.Eng.PunctProofs.core_total_partial_synth_punct. Qed.
Print Assumptions C01_core_total_partial_synth_punct.

(** ---- the key binder ---- *)
(** source fact (gen/eng_facts.py, re-read on every run): KeyBinder::ProcessKeyEvent declines every
    key while redirecting_ is set and PerformKeyBinding sets it around the replay loop *)
Theorem C01_key_binder_guard_in_source : RimeV.Eng.Oracle.kb_guard_in_source = true.
Proof. reflexivity. Qed.
Print Assumptions C01_key_binder_guard_in_source.

(** termination of the redirect: with that fact, for EVERY configuration (any binding table:
    self-sending, cyclic, chained bindings) a key event nests ProcessKey exactly once – the replay
    runs in a chain where the key binder declines everything – so any nesting fuel >= 1 gives the
    same result (no unbounded recursion) *)
Theorem C01_key_binder_replay_depth :
  forall cfg translate, RimeV.Eng.Engine.cf_kb_guard cfg = true ->
  forall fuel s k,
    RimeV.Eng.Procs.process_key_n cfg translate (S fuel) false s k =
    RimeV.Eng.Procs.process_key_gen cfg translate
      (RimeV.Eng.Procs.key_binder_process cfg translate (Some (RimeV.Eng.KbProofs.process_key_replayed cfg translate)) false) s k.
Proof. exact RimeV.Eng.KbProofs.kb_replay_depth. Qed.
Print Assumptions C01_key_binder_replay_depth.

(** ... and no history of API operations ever reports the nesting error (nor a null dereference
    or an invalid page range; the dangling commit-history pointer only without its own guard) *)
Theorem C01_crash_kinds :
  forall cfg translate, RimeV.Eng.TotalProofs.total_hyps cfg translate ->
  forall ops, List.Forall (RimeV.Eng.WfProofs.crash_kind_ok cfg) (snd (RimeV.Eng.Api.run cfg translate ops)).
Proof. intros cfg translate (H1 & H2 & H3). exact (RimeV.Eng.WfProofs.crash_kinds cfg translate H1 H2 H3). Qed.
Print Assumptions C01_crash_kinds.

(** the source shape WITHOUT the flag: the self-sending binding Control+s -> Control+s of the synthetic
    table uses up every nesting depth of the model (the C++ recurses until the stack is exhausted) *)
Theorem C01_key_binder_unguarded_recursion :
  let cfg := RimeV.Eng.Oracle.synth_kb_cfg_gen true true true false true in
  snd (RimeV.Eng.Api.run cfg (RimeV.Eng.Oracle.synth_translate cfg) RimeV.Eng.KbProofs.kb_selfsend_ops)
  = (RimeV.Eng.Api.ObsCrash RimeV.Eng.Ctx.ErrRecursion :: nil)%list.
Proof. exact RimeV.Eng.KbProofs.kb_unguarded_recursion. Qed.
Print Assumptions C01_key_binder_unguarded_recursion.

(** FULL totality with a key binder: the synthetic binding table over the plain chain *)
Theorem C01_core_total_synth_kbplain :
  forall fluid dlog ops,
    List.forallb RimeV.Eng.CommitProofs.not_crash
      (snd (RimeV.Eng.Api.run (RimeV.Eng.Oracle.synth_kbplain_cfg fluid dlog) RimeV.Eng.Oracle.oracle_translate ops)) = true.
Proof. exact RimeV.Eng.KbProofs.core_total_synth_kbplain. Qed.
Print Assumptions C01_core_total_synth_kbplain.

(** PARTIAL for the stock-like chain (key_binder + punctuator components): the crash kinds above *)
Theorem C01_crash_kinds_synth_kb :
  forall fluid dlog ops,
    List.Forall (RimeV.Eng.WfProofs.crash_kind_ok (RimeV.Eng.Oracle.synth_kb_cfg fluid dlog))
      (snd (RimeV.Eng.Api.run (RimeV.Eng.Oracle.synth_kb_cfg fluid dlog)
                              (RimeV.Eng.Oracle.synth_translate (RimeV.Eng.Oracle.synth_kb_cfg fluid dlog)) ops)).
Proof. exact RimeV.Eng.KbProofs.crash_kinds_synth_kb. Qed.
Print Assumptions C01_crash_kinds_synth_kb.

(** * ascii_composer / ascii_segmentor in the modelled core *)

(** full totality (no undefined operation over all histories, mode-switch keys of every style, Caps Lock, the
    tap window on any clock) for the plain chain with ascii_composer and key_binder in front *)
Theorem C01_core_total_synth_acplain :
  forall fluid dlog ops,
    List.forallb RimeV.Eng.CommitProofs.not_crash
      (snd (RimeV.Eng.Api.run (RimeV.Eng.Oracle.synth_acplain_cfg fluid dlog) RimeV.Eng.Oracle.oracle_translate ops)) = true.
Proof. exact RimeV.Eng.AsciiProofs.core_total_synth_acplain. Qed.
Print Assumptions C01_core_total_synth_acplain.

(** the stock chain order with ascii_segmentor and the punctuator components: every crash the model can reach is of
    one of the admitted kinds (no null dereference, no invalid page range; recursion / dangling only in the source
    shapes without their guards) *)
Theorem C01_crash_kinds_synth_ascii :
  forall fluid dlog ops,
    List.Forall (RimeV.Eng.WfProofs.crash_kind_ok (RimeV.Eng.Oracle.synth_ascii_cfg fluid dlog))
      (snd (RimeV.Eng.Api.run (RimeV.Eng.Oracle.synth_ascii_cfg fluid dlog)
                              (RimeV.Eng.Oracle.synth_translate (RimeV.Eng.Oracle.synth_ascii_cfg fluid dlog)) ops)).
Proof. exact RimeV.Eng.AsciiProofs.crash_kinds_synth_ascii. Qed.
Print Assumptions C01_crash_kinds_synth_ascii.

(** what the mode-switch machinery does, for any configuration: in ascii mode and idle every ordinary key is rejected
    ("direct commit") and only the pressed-flags change *)
Theorem C01_ascii_mode_idle_rejects :
  forall cfg translate s k,
    RimeV.Eng.AsciiProofs.ordinary_key k = true ->
    RimeV.Eng.Ctx.get_option (RimeV.Eng.Engine.st_ctx s) RimeV.Eng.Ctx.opt_ascii_mode = true ->
    RimeV.Eng.Ctx.is_composing (RimeV.Eng.Engine.st_ctx s) = false ->
    RimeV.Eng.Procs.ascii_composer_process cfg translate s k = (RimeV.Eng.Procs.ac_unpress s, RimeV.Eng.Procs.PRejected).
Proof. exact RimeV.Eng.AsciiProofs.ascii_mode_idle_rejects. Qed.
Print Assumptions C01_ascii_mode_idle_rejects.

(** a Shift / Control key released 500 ms or more after it went down toggles nothing *)
Theorem C01_ascii_tap_window :
  forall cfg translate s k,
    negb ((RimeV.Eng.Keys.k_shift k && RimeV.Eng.Keys.k_ctrl k) || RimeV.Eng.Keys.k_alt k || RimeV.Eng.Keys.k_super k) = true ->
    RimeV.Eng.Procs.ac_style_is_noop (RimeV.Eng.Procs.ac_caps_style cfg) = true ->
    List.existsb (BinInt.Z.eqb (RimeV.Eng.Keys.k_code k))
      [RimeV.Eng.Procs.XK_Shift_L; RimeV.Eng.Procs.XK_Shift_R; RimeV.Eng.Procs.XK_Control_L; RimeV.Eng.Procs.XK_Control_R] = true ->
    RimeV.Eng.Keys.k_release k = true ->
    BinNat.N.le (RimeV.Eng.Engine.ac_expire (RimeV.Eng.Engine.st_ac s)) (RimeV.Eng.Engine.st_clock s) ->
    RimeV.Eng.Engine.st_ctx (fst (RimeV.Eng.Procs.ascii_composer_process cfg translate s k)) = RimeV.Eng.Engine.st_ctx s /\
    snd (RimeV.Eng.Procs.ascii_composer_process cfg translate s k) = RimeV.Eng.Procs.PNoop.
Proof. exact RimeV.Eng.AsciiProofs.tap_window. Qed.
Print Assumptions C01_ascii_tap_window.

(** inline ascii mode ends with the composition: the slot on update_notifier_ switches ascii_mode off and disconnects *)
Theorem C01_inline_ascii_leaves_with_the_composition :
  forall c, RimeV.Eng.Ctx.cx_conn c = true -> RimeV.Eng.Ctx.is_composing c = false ->
    RimeV.Eng.Ctx.get_option (RimeV.Eng.Engine.ac_on_update c) RimeV.Eng.Ctx.opt_ascii_mode = false /\
    RimeV.Eng.Ctx.cx_conn (RimeV.Eng.Engine.ac_on_update c) = false.
Proof. exact RimeV.Eng.AsciiProofs.inline_leaves_ascii_mode. Qed.
Print Assumptions C01_inline_ascii_leaves_with_the_composition.

(** source facts (gen/eng_facts.py, re-read from src/rime/gear/ascii_composer.cc on every run): the constants the model of
    AsciiComposer::ProcessKeyEvent writes as literals *)
Theorem C01_ascii_composer_source_constants :
  RimeV.Gen.EngFacts.ascii_facts_recognised = true /\ RimeV.Gen.EngFacts.ascii_toggle_window_ms = BinNat.N.of_nat 500 /\
  RimeV.Gen.EngFacts.ascii_window_strict = true /\
  RimeV.Gen.EngFacts.ascii_push_lo = BinInt.Z.of_nat 32 /\ RimeV.Gen.EngFacts.ascii_push_hi = BinInt.Z.of_nat 128.
Proof. exact RimeV.Eng.AsciiProofs.ascii_source_constants. Qed.
Print Assumptions C01_ascii_composer_source_constants.
