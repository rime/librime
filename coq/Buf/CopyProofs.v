(** C20 – proofs about the copy-site model: every idiom accepted by [idiom_ok]
    meets [copy_post] for all strings, all sizes >= 1 and all caller memories;
    the bare [strncpy(dest, src, n)] idiom does not. *)
From Coq Require Import List Arith Lia Bool.
From Coq.Strings Require Import Byte.
From RimeV Require Import Base.ListX Buf.CopyModel.
Import ListNotations.

Lemma strncpy_bytes_length src k : length (strncpy_bytes src k) = k.
Proof.
  unfold strncpy_bytes. rewrite app_length, firstn_length, repeat_length. lia.
Qed.

Lemma firstn_strncpy_bytes src c k :
  k <= c -> k <= length src -> firstn k (strncpy_bytes src c) = firstn k src.
Proof.
  intros Hc Hs. unfold strncpy_bytes.
  rewrite firstn_app, firstn_firstn, firstn_length.
  replace (Nat.min k c) with k by lia.
  replace (k - Nat.min c (length src)) with 0 by lia.
  cbn [firstn]. apply app_nil_r.
Qed.

Lemma nth_strncpy_bytes_pad src c :
  length src < c -> nth (length src) (strncpy_bytes src c) x01 = x00.
Proof.
  intros H. unfold strncpy_bytes.
  rewrite firstn_all2 by lia.
  rewrite app_nth2 by lia. rewrite Nat.sub_diag.
  destruct (c - length src) eqn:E; [lia|]. reflexivity.
Qed.

Lemma write0_spec bs buf :
  length bs <= length buf -> write0 bs buf = Some (bs ++ skipn (length bs) buf).
Proof. intros H. unfold write0. apply Nat.leb_le in H. now rewrite H. Qed.

Lemma poke_spec i b buf :
  i < length buf -> poke i b buf = Some (firstn i buf ++ b :: skipn (S i) buf).
Proof. intros H. unfold poke. apply Nat.ltb_lt in H. now rewrite H. Qed.

(** [poke] right behind, or on the last byte of, what [write0] has just written:
    the written bytes cut at [p], the NUL, the caller's old bytes. *)
Lemma poke_write (bs buf : bytes) p (x : byte) :
  p <= length bs <= S p ->
  let b1 := bs ++ skipn (length bs) buf in
  firstn p b1 ++ x :: skipn (S p) b1 = firstn p bs ++ x :: skipn (S p) buf.
Proof.
  intros H b1. unfold b1. rewrite firstn_app, skipn_app, skipn_skipn.
  replace (p - length bs) with 0 by lia. rewrite (skipn_all2 bs) by lia.
  replace (length bs + (S p - length bs)) with (S p) by lia.
  cbn [firstn app]. now rewrite app_nil_r.
Qed.

(** The buffer every accepted idiom leaves: [p] bytes that agree with [src] up to
    the cut [k = min (length src) (n-1)] and are NUL at [k] if longer, a NUL, the old bytes. *)
Lemma terminated_post src n buf pre p :
  let k := Nat.min (length src) (n - 1) in
  length pre = p -> k <= p < n -> n <= length buf ->
  firstn k pre = firstn k src -> (k < p -> nth k pre x01 = x00) ->
  copy_post src n buf (pre ++ x00 :: skipn (S p) buf).
Proof.
  intros k <- Hp Hn Hf Hz. unfold copy_post. fold k. cbv zeta. clearbody k. repeat split.
  - rewrite app_length. cbn [length]. rewrite skipn_length. lia.
  - rewrite skipn_app, skipn_all2 by lia. cbn [app].
    destruct (n - length pre) as [|d] eqn:E; [lia|]. rewrite skipn_cons, skipn_skipn. f_equal. lia.
  - rewrite firstn_app. replace (k - length pre) with 0 by lia. cbn [firstn]. now rewrite app_nil_r.
  - destruct (Nat.eq_dec k (length pre)) as [E|E].
    + rewrite app_nth2 by lia. now rewrite E, Nat.sub_diag.
    + rewrite app_nth1 by lia. apply Hz. lia.
Qed.

Lemma write_poke_post src n buf bs p :
  let k := Nat.min (length src) (n - 1) in
  p <= length bs <= S p -> k <= p < n -> n <= length buf ->
  firstn k bs = firstn k src -> (k < p -> nth k bs x01 = x00) ->
  exists b1 b, write0 bs buf = Some b1 /\ poke p x00 b1 = Some b /\ copy_post src n buf b.
Proof.
  intros k Hbs Hp Hn Hf Hz. eexists _, _.
  split; [apply write0_spec; lia|]. split; [apply poke_spec; rewrite app_length, skipn_length; lia|].
  rewrite poke_write by exact Hbs. apply terminated_post; fold k; try assumption.
  - rewrite firstn_length. lia.
  - rewrite firstn_firstn. now replace (Nat.min k p) with k by lia.
  - intros Hk. rewrite nth_firstn_lt by exact Hk. now apply Hz.
Qed.

Lemma n_pos_eqb n : 1 <= n -> Nat.eqb n 0 = false.
Proof. intros. apply Nat.eqb_neq. lia. Qed.

Definition pair_spec (s1 s2 : stmt) : Prop :=
  forall f g src n buf, 1 <= n -> n <= length buf ->
  exists b1 b, exec_stmt (S f) s1 src n buf = Some b1 /\ exec_stmt (S g) s2 src n b1 = Some b /\
               copy_post src n buf b.

(** strncpy(dest, src, n) or strncpy(dest, src, n - 1); dest[n - 1] = 0 *)
Lemma strncpy_poke c : c = SzN \/ c = SzNm1 -> pair_spec (Strncpy c) (PokeNul SzNm1).
Proof.
  intros Hc f g src n buf Hn Hb.
  assert (exists k, eval_sz c (length src) n = Some k /\ n - 1 <= k <= n) as (k & Hk & Hkn).
  { destruct Hc as [-> | ->]; cbn [eval_sz]; rewrite ?(n_pos_eqb n Hn); eexists; split; try reflexivity; lia. }
  cbn [exec_stmt eval_sz]. rewrite Hk, (n_pos_eqb n Hn).
  apply write_poke_post; rewrite ?strncpy_bytes_length; try lia.
  - apply firstn_strncpy_bytes; lia.
  - intros Hlt. replace (Nat.min (length src) (n - 1)) with (length src) in * by lia.
    apply nth_strncpy_bytes_pad. lia.
Qed.

(** memcpy(dest, src, k); dest[k] = 0 with k = min(len, n - 1) *)
Lemma memcpy_poke : pair_spec (Memcpy SzMinLenNm1) (PokeNul SzMinLenNm1).
Proof.
  intros f g src n buf Hn Hb. cbn [exec_stmt eval_sz]. rewrite (n_pos_eqb n Hn).
  set (k := Nat.min (length src) (n - 1)).
  replace (Nat.leb k (length src + 1)) with true by (symmetry; apply Nat.leb_le; lia).
  replace (firstn k (src ++ [x00])) with (firstn k src).
  2: { rewrite firstn_app. replace (k - length src) with 0 by lia. symmetry. apply app_nil_r. }
  apply write_poke_post; rewrite ?firstn_length; fold k; try lia.
  apply firstn_firstn_same.
Qed.

Definition site_spec (l : list stmt) : Prop :=
  forall src n buf, 1 <= n -> n <= length buf -> no_nul src ->
  exists b, run l src n buf = Some b /\ copy_post src n buf b.

(** snprintf(dest, n, "%s", src) *)
Lemma snprintf_site : site_spec [Snprintf SzN].
Proof.
  intros src [|m] buf Hn Hb _; [lia|]. unfold run. cbn [exec exec_stmt eval_sz].
  rewrite write0_spec by (rewrite app_length, firstn_length; cbn [length]; lia).
  eexists. split; [reflexivity|].
  rewrite <- app_assoc, app_length, firstn_length, Nat.add_1_r. cbn [app].
  apply terminated_post; rewrite ?firstn_length; try lia.
  rewrite firstn_firstn. f_equal. lia.
Qed.

(** with [1 <= n] the guard [if (buffer_size > 0)] runs its body *)
Lemma exec_ifpos f body src n buf :
  1 <= n -> exec_stmt (S f) (IfPos body) src n buf = exec f body src n buf.
Proof.
  intros Hn. cbn [exec_stmt]. rewrite (n_pos_eqb n Hn).
  revert buf. induction body as [|s body IH]; intros buf; cbn [exec]; [reflexivity|].
  destruct (exec_stmt f s src n buf); [apply IH|reflexivity].
Qed.

(** the three places the guard takes around a copy and its terminator *)
Lemma pair_site s1 s2 : pair_spec s1 s2 -> site_spec [s1; s2].
Proof.
  intros P src n buf Hn Hb _. destruct (P 3 3 src n buf Hn Hb) as (b1 & b & H1 & H2 & Hpost).
  exists b. split; [|exact Hpost]. unfold run. cbn [exec]. now rewrite H1, H2.
Qed.

Lemma pair_site_guarded_tail s1 s2 : pair_spec s1 s2 -> site_spec [s1; IfPos [s2]].
Proof.
  intros P src n buf Hn Hb _. destruct (P 3 2 src n buf Hn Hb) as (b1 & b & H1 & H2 & Hpost).
  exists b. split; [|exact Hpost]. unfold run. cbn [exec]. rewrite H1, exec_ifpos by exact Hn.
  cbn [exec]. now rewrite H2.
Qed.

Lemma pair_site_guarded s1 s2 : pair_spec s1 s2 -> site_spec [IfPos [s1; s2]].
Proof.
  intros P src n buf Hn Hb _. destruct (P 2 2 src n buf Hn Hb) as (b1 & b & H1 & H2 & Hpost).
  exists b. split; [|exact Hpost]. unfold run. cbn [exec]. rewrite exec_ifpos by exact Hn.
  cbn [exec]. now rewrite H1, H2.
Qed.

(** case analysis on every variable the hypothesis [H : idiom_ok l = true] still
    matches on; the branches that return [false] go at once *)
Ltac inv_ok H :=
  repeat match type of H with
         | context [match ?x with _ => _ end] => is_var x; destruct x; try discriminate H; cbn in H
         end.

Theorem idiom_ok_sound l : idiom_ok l = true -> site_spec l.
Proof.
  intros H. unfold idiom_ok in H. inv_ok H; clear H;
    auto using pair_site, pair_site_guarded_tail, pair_site_guarded, strncpy_poke, memcpy_poke, snprintf_site.
Qed.

(** reflection of the boolean oracle used on implementation buffers *)
Lemma byte_eqb_eq x y : byte_eqb x y = true <-> x = y.
Proof. unfold byte_eqb. split; [apply Byte.byte_dec_bl | apply Byte.byte_dec_lb]. Qed.

Lemma bytes_eqb_eq a b : bytes_eqb a b = true <-> a = b.
Proof.
  revert b. induction a as [|x a IH]; intros [|y b]; cbn [bytes_eqb]; try (split; congruence).
  rewrite andb_true_iff, IH, byte_eqb_eq.
  split; [intros [-> ->]; reflexivity | intros [= -> ->]; auto].
Qed.

Lemma copy_postb_spec src n buf b : copy_postb src n buf b = true <-> copy_post src n buf b.
Proof.
  unfold copy_postb, copy_post. cbv zeta.
  rewrite !andb_true_iff, Nat.eqb_eq, !bytes_eqb_eq, byte_eqb_eq. tauto.
Qed.

Definition refute_src : bytes := [x61; x62; x63].
Definition refute_buf : bytes := [xa5; xa5; xa5; xa5].

Theorem strncpy_only_refuted :
  1 <= 2 /\ 2 <= length refute_buf /\ no_nul refute_src /\
  exists b, run [Strncpy SzN] refute_src 2 refute_buf = Some b /\ ~ copy_post refute_src 2 refute_buf b.
Proof.
  split; [lia|]. split; [cbn; lia|]. split.
  - unfold no_nul, refute_src. cbn. intros [H|[H|[H|[]]]]; discriminate H.
  - eexists. split; [vm_compute; reflexivity|].
    rewrite <- copy_postb_spec. vm_compute. discriminate.
Qed.

(** non-vacuity: the accepted idiom really produces the truncated string on a concrete case *)
Example idiom_ok_example :
  run [Strncpy SzN; PokeNul SzNm1] [x61; x62; x63; x64; x65] 3 [xa5; xa5; xa5; xa5; xa5]
  = Some [x61; x62; x00; xa5; xa5].
Proof. vm_compute. reflexivity. Qed.
