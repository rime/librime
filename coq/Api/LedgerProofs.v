(** C01 – proofs about the handle ledger: with a shape accepted by [shape_ok],
    every sequence of get/free calls is free of double and invalid frees, and
    a free directly after a get releases every allocation that get made. *)
From Coq Require Import List String Bool Arith Lia.
From RimeV Require Import Api.Ledger.
Import ListNotations.
Local Open Scope string_scope.

Lemma lookup_set f p g l :
  lookup g (set_field f p l) = if String.eqb f g then Some p else lookup g l.
Proof.
  unfold set_field. cbn [lookup]. destruct (String.eqb_spec f g) as [->|Hne]; [reflexivity|].
  induction l as [|[h q] l IH]; cbn; [reflexivity|].
  destruct (String.eqb_spec h f) as [->|Hh]; cbn.
  - destruct (String.eqb_spec f g); [contradiction|exact IH].
  - destruct (String.eqb h g); [reflexivity|exact IH].
Qed.

Lemma existsb_eqb_in f l : existsb (String.eqb f) l = true <-> In f l.
Proof.
  rewrite existsb_exists. split.
  - intros (x & Hx & E). apply String.eqb_eq in E. now subst.
  - intros H. exists f. split; [exact H|apply String.eqb_refl].
Qed.

Lemma nodupb_NoDup l : nodupb l = true -> NoDup l.
Proof.
  induction l as [|x l IH]; cbn; intros H; [constructor|].
  apply andb_true_iff in H. destruct H as [H1 H2]. constructor; [|now apply IH].
  intros Hin. apply existsb_eqb_in in Hin. now rewrite Hin in H1.
Qed.

Section Safety.
  Variable ps : pair_shape.
  Hypothesis Hok : shape_ok ps = true.

  Lemma shape_ok_parts :
    ps_get_clears_first ps = true /\ ps_free_clears ps = true /\ NoDup (ps_free_fields ps) /\
    (forall f k, In (f, k) (ps_get_fields ps) ->
       match k with FromNew => In f (ps_free_fields ps) | FromOther => ~ In f (ps_free_fields ps) end).
  Proof.
    pose proof Hok as H. unfold shape_ok in H. rewrite !andb_true_iff in H.
    destruct H as ((((_ & H1) & H2) & H3) & H4).
    repeat split; [exact H1|exact H2|now apply nodupb_NoDup|].
    intros f k Hin. apply (proj1 (forallb_forall _ _) H4) in Hin. cbn in Hin.
    destruct k; [now apply existsb_eqb_in|].
    intros Hc. apply existsb_eqb_in in Hc. now rewrite Hc in Hin.
  Qed.

  Let Hclr1 := proj1 shape_ok_parts.
  Let Hclr2 := proj1 (proj2 shape_ok_parts).
  Let Hnd := proj1 (proj2 (proj2 shape_ok_parts)).
  Let Hsrc := proj2 (proj2 (proj2 shape_ok_parts)).

  Record Inv (s : st) : Prop := {
    inv_live : forall f t, lookup f (fields s) = Some (Heap t) -> In t (live s);
    inv_inj : forall f g t, lookup f (fields s) = Some (Heap t) -> lookup g (fields s) = Some (Heap t) -> f = g;
    inv_lt : forall f t, lookup f (fields s) = Some (Heap t) -> t < next s;
    inv_live_lt : forall t, In t (live s) -> t < next s;
    inv_foreign : forall f, lookup f (fields s) = Some Foreign -> ~ In f (ps_free_fields ps)
  }.

  (** a cleared struct *)
  Lemma inv_no_fields s : fields s = [] -> (forall t, In t (live s) -> t < next s) -> Inv s.
  Proof. intros Hf H4. constructor; rewrite ?Hf; cbn; intros; try discriminate; auto. Qed.

  Lemma inv_init : Inv init.
  Proof. apply inv_no_fields; [reflexivity|intros t []]. Qed.

  (** One store into field [f] keeps the invariant if what is stored is a live
      token the allocator had not handed out before, or a foreign pointer in a
      field free does not delete.  ([inv_lt] follows from [inv_live] and [inv_live_lt].) *)
  Lemma inv_set s s' f p :
    Inv s -> fields s' = set_field f p (fields s) ->
    incl (live s) (live s') -> (forall t, In t (live s') -> t < next s') ->
    match p with Heap t => In t (live s') /\ next s <= t | Foreign => ~ In f (ps_free_fields ps) end ->
    Inv s'.
  Proof.
    intros [I1 I2 I3 _ I5] Hf Hincl H4 Hp.
    assert (H1 : forall g t, lookup g (fields s') = Some (Heap t) -> In t (live s')).
    { intros g t. rewrite Hf, lookup_set.
      destruct (String.eqb f g); [intros [= ->]; apply Hp|intros H; eapply Hincl, I1, H]. }
    constructor; auto.
    - intros g h t. rewrite Hf, !lookup_set.
      destruct (String.eqb_spec f g) as [<-|Hg], (String.eqb_spec f h) as [<-|Hh]; [reflexivity| | |apply I2].
      + intros [= ->] H. apply I3 in H. lia.
      + intros H [= ->]. apply I3 in H. lia.
    - intros g t H. apply H4, (H1 g t H).
    - intros g. rewrite Hf, lookup_set.
      destruct (String.eqb_spec f g) as [<-|Hg]; [intros [= ->]; exact Hp|apply I5].
  Qed.

  (** [fill] is a sequence of stores of the two kinds *)
  Lemma fill_ind (Q : st -> Prop) sh which :
    (forall f s, In (f, FromNew) sh -> Q s ->
       Q {| fields := set_field f (Heap (next s)) (fields s); live := next s :: live s;
            freed := freed s; next := S (next s) |}) ->
    (forall f s, In (f, FromOther) sh -> Q s ->
       Q {| fields := set_field f Foreign (fields s); live := live s; freed := freed s; next := next s |}) ->
    forall s, Q s -> Q (fill sh which s).
  Proof.
    induction sh as [|[f k] sh IH]; intros Hnew Hoth s Hs; [exact Hs|]. cbn [fill].
    assert (IH' : forall s, Q s -> Q (fill sh which s))
      by (apply IH; intros; [apply Hnew|apply Hoth]; auto; now right).
    destruct (existsb _ which); [|now apply IH'].
    destruct k; apply IH'; [apply Hnew|apply Hoth]; auto; now left.
  Qed.

  Lemma fill_inv which s : Inv s -> Inv (fill (ps_get_fields ps) which s).
  Proof.
    apply fill_ind; intros f s0 Hin HI.
    - apply (inv_set s0 _ f (Heap (next s0)) HI); cbn.
      + reflexivity.
      + apply incl_tl, incl_refl.
      + intros t [<-|Ht]; [lia|]. apply (inv_live_lt _ HI) in Ht. lia.
      + auto.
    - apply (inv_set s0 _ f Foreign HI); cbn; [reflexivity|apply incl_refl|apply (inv_live_lt _ HI)|].
      exact (Hsrc f FromOther Hin).
  Qed.

  Lemma get_inv w s : Inv s -> Inv (do_get ps w s).
  Proof.
    intros HI. unfold do_get. rewrite Hclr1. apply fill_inv, inv_no_fields; [reflexivity|exact (inv_live_lt _ HI)].
  Qed.

  Lemma release_effect fs : forall s s', release fs s = inl s' ->
    next s' = next s /\ incl (live s') (live s) /\ incl (freed s) (freed s') /\
    forall f t, In f fs -> lookup f (fields s) = Some (Heap t) -> ~ In t (live s') /\ In t (freed s').
  Proof.
    induction fs as [|f fs IH]; intros s s' Hr; cbn [release] in Hr.
    - injection Hr as <-. repeat split; auto using incl_refl; contradiction.
    - destruct (lookup f (fields s)) as [[t|]|] eqn:El; [|discriminate|].
      + destruct (existsb (Nat.eqb t) (live s)); [|discriminate].
        apply IH in Hr. cbn in Hr. destruct Hr as (Hn & Hl & Hfr & Hrel).
        split; [exact Hn|]. split; [intros u Hu; apply Hl, filter_In in Hu; tauto|].
        split; [intros u Hu; apply Hfr; now right|].
        intros g u [<-|Hg] Hlg; [|exact (Hrel g u Hg Hlg)].
        rewrite El in Hlg. injection Hlg as <-. split; [|apply Hfr; now left].
        intros Hin. apply Hl, filter_In in Hin. destruct Hin as [_ Hin]. now rewrite Nat.eqb_refl in Hin.
      + apply IH in Hr. destruct Hr as (Hn & Hl & Hfr & Hrel). repeat (split; [assumption|]).
        intros g u [<-|Hg] Hlg; [congruence|exact (Hrel g u Hg Hlg)].
  Qed.

  Lemma release_ok fs : forall s,
    NoDup fs ->
    (forall f g t, lookup f (fields s) = Some (Heap t) -> lookup g (fields s) = Some (Heap t) -> f = g) ->
    (forall f, In f fs -> lookup f (fields s) <> Some Foreign) ->
    (forall f t, In f fs -> lookup f (fields s) = Some (Heap t) -> In t (live s)) ->
    exists s', release fs s = inl s'.
  Proof.
    induction fs as [|f fs IH]; intros s Hnd' Hinj Hfor Hlive; [now exists s|].
    inversion Hnd' as [|? ? Hnotin Hnd'']; subst. cbn [release].
    destruct (lookup f (fields s)) as [[t|]|] eqn:El.
    - replace (existsb (Nat.eqb t) (live s)) with true.
      2: { symmetry. apply existsb_exists. exists t. split; [apply (Hlive f t); auto; now left|apply Nat.eqb_refl]. }
      apply IH; cbn; auto.
      + intros g Hg. apply Hfor. now right.
      + intros g u Hg Hlg. apply filter_In. split; [apply (Hlive g u); auto; now right|].
        apply negb_true_iff, Nat.eqb_neq. intros ->. apply Hnotin. now rewrite (Hinj f g t El Hlg).
    - exfalso. apply (Hfor f); [now left|exact El].
    - apply IH; auto; intros g; intros; [apply Hfor|apply (Hlive g)]; auto; now right.
  Qed.

  Lemma free_inv s : Inv s ->
    exists s', do_free ps s = inl s' /\ Inv s' /\
               (forall f t, In f (ps_free_fields ps) -> lookup f (fields s) = Some (Heap t) ->
                            ~ In t (live s') /\ In t (freed s')).
  Proof.
    intros HI. destruct (release_ok (ps_free_fields ps) s Hnd (inv_inj _ HI)) as [s1 Hr].
    { intros f Hin Hl. exact (inv_foreign _ HI f Hl Hin). }
    { intros f t _. apply (inv_live _ HI). }
    destruct (release_effect _ _ _ Hr) as (Hn & Hl & _ & Hrel).
    unfold do_free. rewrite Hr, Hclr2. eexists. split; [reflexivity|]. split; [|exact Hrel].
    apply inv_no_fields; [reflexivity|]. cbn. intros t Ht. rewrite Hn. apply (inv_live_lt _ HI), Hl, Ht.
  Qed.

  (** no double free, no invalid free – for every sequence of get/free calls *)
  Theorem ledger_safe ops : forall s, Inv s -> exists s', run ps ops s = inl s' /\ Inv s'.
  Proof.
    induction ops as [|[w|] ops IH]; intros s HI; cbn [run].
    - now exists s.
    - apply IH. now apply get_inv.
    - destruct (free_inv s HI) as (s1 & -> & HI1 & _). now apply IH.
  Qed.

  Definition heap_ok (l : list (string * ptr)) : Prop :=
    forall f t, In (f, Heap t) l -> lookup f l = Some (Heap t) /\ In f (ps_free_fields ps).

  Lemma heap_ok_set f p l :
    (forall t, p = Heap t -> In f (ps_free_fields ps)) -> heap_ok l -> heap_ok (set_field f p l).
  Proof.
    intros Hp Hl g t Hin. rewrite lookup_set. destruct Hin as [[= <- ->]|Hin].
    - rewrite String.eqb_refl. eauto.
    - apply filter_In in Hin. destruct Hin as [Hin Hne]. cbn in Hne.
      rewrite String.eqb_sym in Hne. apply negb_true_iff in Hne. rewrite Hne. now apply Hl.
  Qed.

  Lemma get_heap_ok w s : heap_ok (fields (do_get ps w s)).
  Proof.
    unfold do_get. rewrite Hclr1. apply (fill_ind (fun s => heap_ok (fields s))).
    - intros g s0 Hg. apply heap_ok_set. intros _ _. exact (Hsrc g FromNew Hg).
    - intros g s0 _. apply heap_ok_set. discriminate.
    - intros g v [].
  Qed.

  Lemma free_releases_all s : Inv s -> heap_ok (fields s) ->
    exists s', do_free ps s = inl s' /\
               forall t, In t (tokens_of s) -> ~ In t (live s') /\ In t (freed s').
  Proof.
    intros HI Hh. destruct (free_inv s HI) as (s' & Hfree & _ & Hrel).
    exists s'. split; [exact Hfree|]. intros t Hin.
    apply in_flat_map in Hin. destruct Hin as ([f [u|]] & Hinf & Ht); cbn in Ht; [|contradiction].
    destruct Ht as [<-|[]]. destruct (Hh f u Hinf) as [Hl Hdel]. exact (Hrel f u Hdel Hl).
  Qed.

  Theorem get_then_free_releases_all w s : Inv s ->
    exists s', do_free ps (do_get ps w s) = inl s' /\
               forall t, In t (tokens_of (do_get ps w s)) -> ~ In t (live s') /\ In t (freed s').
  Proof. intros HI. apply free_releases_all; [now apply get_inv|apply get_heap_ok]. Qed.
End Safety.
