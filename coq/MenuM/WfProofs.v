(** C04 proofs: the representation invariant [wf] of translation
    states (what the C++ constructors and Next establish and keep), its
    consequence "not exhausted -> Peek is not null", and with it the exactness
    of Page::is_last_page. *)
From Coq Require Import List Arith ZArith NArith Bool Lia.
From RimeV Require Import Base.ListX MenuM.Gen MenuM.Menu MenuM.GenProofs MenuM.MenuProofs.
Import ListNotations.

Fixpoint wf (t : tr) : bool :=
  match t with
  | TUnique _ _ | TEcho _ _ | TFifo _ => true
  | TUnion ts =>
      (fix all (l : list tr) : bool :=
         match l with [] => true | x :: r => wf x && negb (exhausted x) && all r end) ts
  | TMerged ts k e =>
      (fix all (l : list tr) : bool := match l with [] => true | x :: r => wf x && all r end) ts
      && (e || match nth_error ts k with Some x => negb (exhausted x) | None => false end)
  | TCache t0 e | TDistinct t0 e _ | TUniquified t0 e _ | TCharset t0 e => wf t0 && (e || negb (exhausted t0))
  | TPrefetch t0 q e | TSimplified _ t0 q e => wf t0 && (e || negb (is_nil q) || negb (exhausted t0))
  end.

Definition live (x : tr) : bool := wf x && negb (exhausted x).

Lemma wf_union ts : wf (TUnion ts) = forallb live ts.
Proof. induction ts as [|x r IH]; [reflexivity|]. cbn [wf forallb] in *. unfold live at 1. now rewrite IH. Qed.

Lemma wf_merged ts k e :
  wf (TMerged ts k e) =
  forallb wf ts && (e || match nth_error ts k with Some x => negb (exhausted x) | None => false end).
Proof. reflexivity. Qed.

Lemma peek_merged ts k :
  peek (TMerged ts k false) = match nth_error ts k with Some x => peek x | None => None end.
Proof.
  cbn [peek]. revert k. induction ts as [|x r IH]; intros k; [destruct k; reflexivity|].
  destruct k; [reflexivity|]. cbn [nth_error]. apply IH.
Qed.

Lemma height_merged_nth ts k e x : nth_error ts k = Some x -> height x < height (TMerged ts k e).
Proof.
  cbn [height]. revert k. induction ts as [|y r IH]; intros k H; [destruct k; discriminate|].
  destruct k; cbn [nth_error] in H.
  - injection H as ->. lia.
  - specialize (IH k H). lia.
Qed.

Lemma wf_peek t : wf t = true -> exhausted t = false -> peek t <> None.
Proof.
  (* [tr] nests through lists: induction on a bound of the height *)
  enough (G : forall n t, height t <= n -> wf t = true -> exhausted t = false -> peek t <> None)
    by exact (G (height t) t (le_n _)).
  clear t. induction n as [|n IH]; intros t Hh Hw He.
  { destruct t; cbn [height] in Hh; lia. }
  destruct t as [cd e|cd e|l|ts|ts k e|t e|t e s|t q e|t e|t e yl|cv t q e];
    cbn [exhausted] in He; cbn [height] in Hh; try subst e.
  1-3: try destruct l; discriminate.
  (* the six wrappers of one translation: a live wrapper with nothing queued sits on a live translation *)
  3-8: cbn [peek]; try (destruct q as [|p q]; [|discriminate]); cbn [wf orb is_nil negb] in Hw;
    apply andb_true_iff in Hw; destruct Hw as [Hw Hx]; apply negb_true_iff in Hx;
    apply IH; [lia|assumption|assumption].
  - destruct ts as [|x r]; [discriminate|]. cbn [peek]. rewrite wf_union in Hw. cbn [forallb] in Hw.
    apply andb_true_iff in Hw. destruct Hw as [Hw _]. apply andb_true_iff in Hw. destruct Hw as [Hw Hx].
    apply negb_true_iff in Hx. apply IH; [lia|assumption|assumption].
  - rewrite peek_merged. rewrite wf_merged in Hw. apply andb_true_iff in Hw. destruct Hw as [Hall Hk].
    cbn [orb] in Hk. destruct (nth_error ts k) as [x|] eqn:En; [|discriminate].
    apply negb_true_iff in Hk. apply IH; [| |assumption].
    + pose proof (height_merged_nth ts k false x En). cbn [height] in *. lia.
    + rewrite forallb_forall in Hall. apply Hall. eapply nth_error_In; eassumption.
Qed.

Definition nx_wf (nx : tr -> cache -> bool * tr * cache) : Prop :=
  forall t c, wf t = true -> wf (r_tr (nx t c)) = true.

Lemma steps_wf nx : nx_wf nx -> forall t c t' c', steps nx t c t' c' -> wf t = true -> wf t' = true.
Proof. intros H t c t' c'. induction 1 as [|t c t' c' _ IH|k p t c t' c' _ IH]; auto. Qed.

Lemma forms_of_nonnil conv x : is_nil (forms_of conv x) = false.
Proof. unfold forms_of. destruct (conv x) as [[h tl]|]; reflexivity. Qed.

Lemma settle_wf nx conv t c t' c' : nx_wf nx -> wf t = true -> settle nx conv t c = (t', c') -> wf t' = true.
Proof.
  intros Hnx Hw. unfold settle. destruct (exhausted t) eqn:E; [intros [= <- <-]; cbn [wf orb]; now rewrite Hw|].
  pose proof (Hnx t c Hw) as H.
  destruct (peek t) as [x|] eqn:Ep; [|now destruct (wf_peek t Hw E)].
  destruct (nx t c) as [[r0 t1] c1]. intros [= <- <-]. cbn [r_tr fst snd wf orb] in *.
  rewrite H, forms_of_nonnil. reflexivity.
Qed.

Lemma wf_wrap t e : wf t = true -> e = true \/ exhausted t = false -> wf t && (e || negb (exhausted t)) = true.
Proof. intros -> [->| ->]; [reflexivity|apply orb_true_r]. Qed.

Lemma compare_wf x o c : wf x = true -> wf (snd (compare x o c)) = true.
Proof. intro H. destruct x; cbn [compare snd]; exact H. Qed.

Lemma scan_wf c suf : forall pre, forallb wf pre = true -> forallb wf suf = true ->
  match scan pre suf c with
  | SFound k ts' => forallb wf ts' = true /\ exists x, nth_error ts' k = Some x /\ exhausted x = false
  | SErase ts' => forallb wf ts' = true
  | SNone ts' => forallb wf ts' = true
  end.
Proof.
  induction suf as [|cur rest IH]; intros pre Hp Hs; cbn [scan]; [exact Hp|].
  cbn [forallb] in Hs. apply andb_true_iff in Hs. destruct Hs as [Hc Hr].
  pose proof (compare_wf cur (hd_error rest) c Hc) as Hc'.
  destruct (compare cur (hd_error rest) c) as [cmp cur']. cbn [snd] in Hc'.
  destruct (Z.leb cmp 0).
  - destruct (exhausted cur') eqn:E.
    + apply forallb_app_true. now split.
    + split.
      * apply forallb_app_true. split; [exact Hp|]. cbn [forallb]. now rewrite Hc', Hr.
      * exists cur'. split; [|exact E]. rewrite nth_error_app2 by lia. now rewrite Nat.sub_diag.
  - apply IH; [|exact Hr]. apply forallb_app_true. split; [exact Hp|]. cbn [forallb]. now rewrite Hc'.
Qed.

Lemma elect_loop_wf c fuel : forall k0 ts, forallb wf ts = true ->
  let r := elect_loop fuel k0 ts c in
  forallb wf (fst r) = true /\
  (snd r < length (fst r) -> exists x, nth_error (fst r) (snd r) = Some x /\ exhausted x = false).
Proof.
  induction fuel as [|f IH]; intros k0 ts Hw; cbn [elect_loop].
  - cbn [fst snd]. split; [exact Hw|lia].
  - rewrite <- (firstn_skipn k0 ts) in Hw. apply forallb_app_true in Hw.
    pose proof (scan_wf c (skipn k0 ts) (firstn k0 ts) (proj1 Hw) (proj2 Hw)) as H.
    destruct (scan (firstn k0 ts) (skipn k0 ts) c) as [k ts'|ts'|ts']; cbn [fst snd].
    + destruct H as [H1 H2]. split; [exact H1|intros _; exact H2].
    + now apply IH.
    + split; [exact H|lia].
Qed.

Lemma elect_wf ts k c : forallb wf ts = true -> wf (elect ts k c) = true.
Proof.
  intro Hw. unfold elect. destruct ts as [|t0 ts0]; [reflexivity|].
  pose proof (elect_loop_wf c (S (length (t0 :: ts0))) 0 (t0 :: ts0) Hw) as H. cbn zeta in H.
  destruct (elect_loop (S (length (t0 :: ts0))) 0 (t0 :: ts0) c) as [ts' k']. cbn [fst snd] in H.
  destruct H as [H1 H2]. rewrite wf_merged, H1. cbn [andb].
  destruct (Nat.leb (length ts') k') eqn:L; [reflexivity|]. apply Nat.leb_gt in L.
  destruct (H2 L) as [x [Hx He]]. rewrite Hx, He. reflexivity.
Qed.

Lemma forallb_remove_at {A} (f : A -> bool) k l : forallb f l = true -> forallb f (remove_at k l) = true.
Proof.
  revert k. induction l as [|x l IH]; intros k H; [destruct k; reflexivity|].
  cbn [forallb] in H. apply andb_true_iff in H. destruct H as [H1 H2].
  destruct k; cbn [remove_at forallb]; [exact H2|]. now rewrite H1, IH.
Qed.
Lemma forallb_replace_at {A} (f : A -> bool) k y l :
  forallb f l = true -> f y = true -> forallb f (replace_at k y l) = true.
Proof.
  revert k. induction l as [|x l IH]; intros k H Hy; [destruct k; reflexivity|].
  cbn [forallb] in H. apply andb_true_iff in H. destruct H as [H1 H2].
  destruct k; cbn [replace_at forallb]; [now rewrite Hy, H2|]. now rewrite H1, IH.
Qed.

Lemma nstep_wf nx : nx_wf nx -> forall t c t' c', nstep nx t c t' c' -> wf t = true -> wf t' = true.
Proof.
  intros H t c t' c' N Hw. pose proof (steps_wf _ H) as Hs.
  assert (Hn : forall t c r0 t1 c1, nx t c = (r0, t1, c1) -> wf t = true -> wf t1 = true).
  { intros t0 c0 r0 t1 c1 En. specialize (H t0 c0). now rewrite En in H. }
  destruct N.
  (* the wrappers of one translation [t0], which is well-formed *)
  7-15: cbn [wf] in Hw; apply andb_true_iff in Hw as [H0 Hq].
  1-3: reflexivity.
  - rewrite wf_union in *. cbn [forallb] in Hw. apply andb_true_iff in Hw as [H0 Hr].
    unfold live in H0. apply andb_true_iff in H0 as [H0 _]. apply (Hn _ _ _ _ _ En) in H0.
    destruct (exhausted t1) eqn:X; [exact Hr|]. cbn [forallb]. unfold live at 1. now rewrite H0, X, Hr.
  - rewrite wf_merged in *. apply andb_true_iff in Hw as [Hall _]. now rewrite Hall.
  - rewrite wf_merged in Hw. apply andb_true_iff in Hw as [Hall _].
    assert (Hx : wf x = true).
    { rewrite forallb_forall in Hall. apply Hall. eapply nth_error_In; eassumption. }
    apply (Hn _ _ _ _ _ En) in Hx. apply elect_wf.
    destruct (exhausted x1); [now apply forallb_remove_at|now apply forallb_replace_at].
  - apply wf_wrap; [exact (Hn _ _ _ _ _ En H0)|]. destruct (exhausted t1); auto.
  - apply wf_wrap; [exact (Hs _ _ _ _ St (Hn _ _ _ _ _ En H0))|exact L].
  - apply wf_wrap; [exact (Hs _ _ _ _ St (Hn _ _ _ _ _ En H0))|exact L].
  - apply wf_wrap; [exact (Hs _ _ _ _ St (Hn _ _ _ _ _ En H0))|exact L].
  - cbn [wf is_nil negb orb]. rewrite (Hn _ _ _ _ _ En H0). destruct (exhausted t1); reflexivity.
  - cbn [wf]. rewrite H0. destruct (is_nil q), (exhausted t0); reflexivity.
  - cbn [wf is_nil negb orb]. now rewrite H0.
  - exact (settle_wf _ _ _ _ _ _ H H0 Es).
  - exact (settle_wf _ _ _ _ _ _ H (Hn _ _ _ _ _ En H0) Es).
Qed.

Lemma next_d_wf d : nx_wf (next_d d).
Proof.
  induction d as [|d IH]; intros t c Hw; [reflexivity|].
  destruct (exhausted t) eqn:E; [now rewrite next_d_exhausted|].
  exact (nstep_wf _ IH _ _ _ _ (next_d_nstep d t c E) Hw).
Qed.

Lemma merged_add_wf m t c : wf m = true -> wf t = true -> wf (merged_add m t c) = true.
Proof.
  intros Hm Ht. destruct m; cbn [merged_add]; try exact Hm.
  destruct (exhausted t); [exact Hm|]. apply elect_wf.
  rewrite wf_merged in Hm. apply andb_true_iff in Hm. destruct Hm as [Hm _].
  apply forallb_app_true. split; [exact Hm|]. cbn [forallb]. now rewrite Ht.
Qed.

Lemma add_filter_wf m f : wf (m_res m) = true -> wf (m_res (add_filter m f)) = true.
Proof.
  destruct m as [t c]. unfold add_filter. cbn [m_res m_cache]. intro Hw. set (d := height t).
  pose proof (steps_wf _ (next_d_wf d)) as Hs. destruct f.
  - unfold mk_uniquified.
    destruct (uniquify _ _ _ _ _ _) as [[[r t'] e'] c'] eqn:E. apply uniquify_spec in E as [H L].
    apply wf_wrap; [exact (Hs _ _ _ _ H Hw)|exact L].
  - unfold mk_single_char. destruct (exhausted t) eqn:E; [cbn [m_res wf]; now rewrite Hw|].
    destruct (rearrange _ _ _ _ _ _) as [[t' q] c'] eqn:R. apply rearrange_spec in R as [H L].
    cbn [m_res wf orb]. rewrite (Hs _ _ _ _ H Hw). destruct (L (or_intror E)) as [-> | ->]; [reflexivity|apply orb_true_r].
  - unfold mk_charset.
    destruct (locate _ _ _ _) as [[found t'] c'] eqn:E. apply locate_spec in E as [H L].
    apply wf_wrap; [exact (Hs _ _ _ _ H Hw)|]. destruct found; auto.
  - unfold mk_simplified.
    destruct (settle _ _ _ _) as [t' c'] eqn:E. exact (settle_wf _ _ _ _ _ _ (next_d_wf d) Hw E).
Qed.

Lemma build_menu_wf ts fs : forallb wf ts = true -> wf (m_res (build_menu ts fs)) = true.
Proof.
  intro Hts. unfold build_menu.
  assert (A : forall l m, forallb wf l = true -> wf (m_res m) = true ->
                          wf (m_res (fold_left add_translation l m)) = true).
  { induction l as [|t l IH]; intros m Hl Hm; [exact Hm|]. cbn [fold_left forallb] in *.
    apply andb_true_iff in Hl. destruct Hl as [Ht Hl]. apply IH; [exact Hl|].
    cbn [add_translation m_res]. now apply merged_add_wf. }
  assert (B : forall l m, wf (m_res m) = true -> wf (m_res (fold_left add_filter l m)) = true).
  { induction l as [|f l IH]; intros m Hm; [exact Hm|]. cbn [fold_left]. apply IH. now apply add_filter_wf. }
  apply B, A; [exact Hts|reflexivity].
Qed.

Lemma fetched_wf m m' : fetched m m' -> wf (m_res m) = true -> wf (m_res m') = true.
Proof. induction 1 as [|m m' _ _ IH]; [trivial|]. intro H. apply IH. now apply next_d_wf. Qed.

Lemma prepare_wf n m : wf (m_res m) = true -> wf (m_res (prepare n m)) = true.
Proof. apply fetched_wf, prepare_fetched. Qed.

Lemma full_list_grows m : wf (m_res m) = true -> exhausted (m_res m) = false ->
  length (m_cache m) < length (full_list m).
Proof.
  intros Hw He. rewrite <- (full_list_fetch m He).
  pose proof (full_list_length (fetch m)) as H1. pose proof (fetch_shown m) as H2.
  destruct (peek (m_res m)) eqn:Ep; [|now destruct (wf_peek _ Hw He)].
  apply (f_equal (@length _)) in H2. rewrite app_length, !map_length in H2. cbn [length] in H2. lia.
Qed.

(** Page::is_last_page is set exactly when nothing follows the page *)
Lemma create_page_last ps pno m pg :
  wf (m_res m) = true -> fst (create_page ps pno m) = Some pg ->
  (pg_last pg = true <-> length (full_list m) <= ps * pno + ps).
Proof.
  intros Hw. rewrite create_page_eq. cbn [fst]. set (m' := prepare (ps * pno + ps) m).
  destruct (_ && _); [discriminate|]. intro H. injection H as <-. cbn [pg_last].
  rewrite <- (prepare_full (ps * pno + ps) m). fold m'.
  destruct (exhausted (m_res m')) eqn:E; cbn [andb].
  - rewrite (full_list_exhausted _ E), Nat.eqb_eq. lia.
  - split; [discriminate|]. intro G. pose proof (full_list_grows m' (prepare_wf _ _ Hw) E).
    destruct (prepare_post (ps * pno + ps) m) as [P|P]; fold m' in P; [lia|congruence].
Qed.

(** RimeGetContext reports no menu exactly when the full list is empty *)
Lemma menu_empty_spec m : wf (m_res m) = true -> (menu_empty m = true <-> full_list m = []).
Proof.
  intro Hw. unfold menu_empty. split.
  - intro H. apply andb_true_iff in H. destruct H as [H1 H2].
    rewrite (full_list_exhausted _ H2). destruct (m_cache m); [reflexivity|discriminate].
  - intro H. pose proof (full_list_length m) as Hl. rewrite H in Hl. cbn in Hl.
    destruct (m_cache m) eqn:Ec; [|cbn in Hl; lia]. cbn [is_nil andb].
    destruct (exhausted (m_res m)) eqn:E; [reflexivity|].
    pose proof (full_list_grows m Hw E). rewrite H, Ec in *. cbn in *. lia.
Qed.
