(** C04 proofs: facts about Next of every translation kind, for every nesting
    budget [d].  [next_d_shown]: Next never changes the text/comment of a cache
    entry (the uniquifier rewrites entries but keeps what is shown), hence not
    the length of the cache either; [next_d_rem]: [rem] never grows and strictly
    shrinks when the translation was not exhausted.  The loops inside Next are
    dealt with once, as sequences of [steps], and so is Next itself: [nstep] says
    what one call does to a live translation of each kind ([next_d_nstep]), and
    the facts about Next are case analyses of [nstep]. *)
From Coq Require Import List Arith ZArith NArith Bool Lia.
From RimeV Require Import MenuM.Gen MenuM.Menu.
Import ListNotations.

Definition r_tr (x : bool * tr * cache) : tr := snd (fst x).
Definition r_cache (x : bool * tr * cache) : cache := snd x.

Definition rsum (ts : list tr) : nat := rem (TUnion ts).

Lemma rsum_cons x r : rsum (x :: r) = S (rem x + rsum r).
Proof. reflexivity. Qed.
Lemma rsum_nil : rsum [] = 0.
Proof. reflexivity. Qed.
Lemma rem_merged ts k e : rem (TMerged ts k e) = if e then 0 else S (rsum ts).
Proof. reflexivity. Qed.
Lemma rem_union ts : rem (TUnion ts) = rsum ts.
Proof. reflexivity. Qed.

Lemma rsum_app a b : rsum (a ++ b) = rsum a + rsum b.
Proof.
  induction a as [|x a IH]; [reflexivity|].
  cbn [app]. rewrite !rsum_cons, IH. lia.
Qed.

Lemma rem_exhausted t : rem t = 0 <-> exhausted t = true.
Proof.
  destruct t as [c []|c []|[]|[]|ts k []|t []|t [] s|t q []|t []|t [] yl|cv t q []]; cbn [rem exhausted length];
    split; intro; (reflexivity || discriminate).
Qed.

Lemma rem_pos t : exhausted t = false -> 0 < rem t.
Proof.
  intro H. destruct (rem t) eqn:E; [|lia].
  apply rem_exhausted in E. congruence.
Qed.

(** The loops inside Next.  Each of them only applies Next of the inner translation and the uniquifier's
    rewrite of a cache entry ([steps]); what these two keep, the loops keep. *)

Section Loops.
  Variable nx : tr -> cache -> bool * tr * cache.

  Inductive steps : tr -> cache -> tr -> cache -> Prop :=
  | steps_refl t c : steps t c t c
  | steps_nx t c t' c' : steps (r_tr (nx t c)) (r_cache (nx t c)) t' c' -> steps t c t' c'
  | steps_rw k p t c t' c' : steps t (rewrite_at k p c) t' c' -> steps t c t' c'.

  Lemma steps_step t c r0 t1 c1 t' c' : nx t c = (r0, t1, c1) -> steps t1 c1 t' c' -> steps t c t' c'.
  Proof. intros E H. apply steps_nx. now rewrite E. Qed.

  (** DistinctTranslation's do-while takes its first step unconditionally; it stops on an
      exhausted translation (flag set) or on a live one *)
  Lemma distinct_loop_spec f : forall t seen c t' e' c',
    distinct_loop nx (S f) t seen c = (t', e', c') ->
    steps (r_tr (nx t c)) (r_cache (nx t c)) t' c' /\ (e' = true \/ exhausted t' = false).
  Proof.
    induction f as [|f IH]; intros t seen c t' e' c'.
    2: remember (S f) as g.   (* so that cbn unfolds one round of the loop only *)
    all: cbn [distinct_loop]; destruct (nx t c) as [[r0 t1] c1]; cbn [r_tr r_cache fst snd].
    all: destruct (exhausted t1) eqn:E; [intros [= <- <- <-]; split; [apply steps_refl|now left]|].
    all: destruct (peek t1) as [p|]; [|intros [= <- <- <-]; split; [apply steps_refl|now right]].
    all: destruct (has_text seen (c_text p)); [|intros [= <- <- <-]; split; [apply steps_refl|now right]].
    - intros [= <- <- <-]. split; [apply steps_refl|now left].
    - subst g. intro H. apply IH in H as [St L]. split; [apply steps_nx; exact St|exact L].
  Qed.

  Lemma locate_spec fuel : forall t c found t' c',
    locate nx fuel t c = (found, t', c') -> steps t c t' c' /\ (found = true -> exhausted t' = false).
  Proof.
    induction fuel as [|f IH]; intros t c found t' c'; cbn [locate].
    { intros [= <- <- <-]. split; [apply steps_refl|discriminate]. }
    destruct (exhausted t) eqn:E; [intros [= <- <- <-]; split; [apply steps_refl|discriminate]|].
    assert (G : (let '(_, t1, c1) := nx t c in locate nx f t1 c1) = (found, t', c') ->
                steps t c t' c' /\ (found = true -> exhausted t' = false)).
    { destruct (nx t c) as [[r0 t1] c1] eqn:En. intro H. apply IH in H as [St L].
      split; [exact (steps_step _ _ _ _ _ _ _ En St)|exact L]. }
    destruct (peek t) as [p|]; [|exact G]. destruct (charset_ok p); [|exact G].
    intros [= <- <- <-]. split; [apply steps_refl|intros _; exact E].
  Qed.

  Lemma locate_exh fuel t c : exhausted t = true -> fst (fst (locate nx fuel t c)) = false.
  Proof. intro H. destruct fuel; cbn [locate]; [reflexivity|]. now rewrite H. Qed.

  Lemma uniquify_spec fuel yl : forall t c r t' e' c',
    uniquify nx fuel yl t (exhausted t) c = (r, t', e', c') ->
    steps t c t' c' /\ (e' = true \/ exhausted t' = false).
  Proof.
    induction fuel as [|f IH]; intros t c r t' e' c'; cbn [uniquify].
    { intros [= <- <- <- <-]. split; [apply steps_refl|now left]. }
    destruct (exhausted t) eqn:E; [intros [= <- <- <- <-]; split; [apply steps_refl|now left]|].
    destruct (peek t) as [p|]; [|intros [= <- <- <- <-]; split; [apply steps_refl|now right]].
    destruct (find_text (c_text p) c) as [k|].
    - destruct (nx t (rewrite_at k p c)) as [[r0 t1] c1] eqn:En. intro H. apply IH in H as [St L].
      split; [exact (steps_rw k p _ _ _ _ (steps_step _ _ _ _ _ _ _ En St))|exact L].
    - destruct (has_text yl (c_text p)); [|intros [= <- <- <- <-]; split; [apply steps_refl|now right]].
      destruct (nx t c) as [[r0 t1] c1] eqn:En. intro H. apply IH in H as [St L].
      split; [exact (steps_step _ _ _ _ _ _ _ En St)|exact L].
  Qed.

  Lemma rearrange_spec fuel : forall t top bottom c t' q c',
    rearrange nx fuel t top bottom c = (t', q, c') ->
    steps t c t' c' /\
    (is_nil (top ++ bottom) = false \/ exhausted t = false -> is_nil q = false \/ exhausted t' = false).
  Proof.
    induction fuel as [|f IH]; intros t top bottom c t' q c'; cbn [rearrange].
    { intros [= <- <- <-]. split; [apply steps_refl|trivial]. }
    destruct (exhausted t) eqn:E.
    { intros [= <- <- <-]. split; [apply steps_refl|intros [Hl|Hl]; [now left|discriminate]]. }
    destruct (peek t) as [p|]; [|intros [= <- <- <-]; split; [apply steps_refl|now right]].
    destruct (negb (is_table_phrase p)); [intros [= <- <- <-]; split; [apply steps_refl|now right]|].
    destruct (nx t c) as [[r0 t1] c1] eqn:En.
    destruct (is_single_char p); intro H; apply IH in H as [St L];
      (split; [exact (steps_step _ _ _ _ _ _ _ En St)|]); intros _; apply L; left.
    - now destruct top.
    - destruct top; [now destruct bottom|reflexivity].
  Qed.

  (** One call of Next on a live translation, over the inner translations' Next [nx]: the new state
      and cache.  The loops of Distinct, Charset and Uniquified appear as what their specifications
      say: the inner translation takes a step, then some more, and the wrapper's flag is set unless
      the inner translation is live. *)
  Inductive nstep : tr -> cache -> tr -> cache -> Prop :=
  | ns_unique cd c : nstep (TUnique cd false) c (TUnique cd true) c
  | ns_echo cd c : nstep (TEcho cd false) c (TEcho cd true) c
  | ns_fifo x l c : nstep (TFifo (x :: l)) c (TFifo l) c
  | ns_union t0 ts c r0 t1 c1 (En : nx t0 c = (r0, t1, c1)) :
      nstep (TUnion (t0 :: ts)) c (TUnion (if exhausted t1 then ts else t1 :: ts)) c1
  | ns_merged_out ts k c (Ek : nth_error ts k = None) : nstep (TMerged ts k false) c (TMerged ts k true) c
  | ns_merged ts k x c r0 x1 c1 (Ek : nth_error ts k = Some x) (En : nx x c = (r0, x1, c1)) :
      nstep (TMerged ts k false) c (elect (if exhausted x1 then remove_at k ts else replace_at k x1 ts) k c1) c1
  | ns_cache t0 c r0 t1 c1 (En : nx t0 c = (r0, t1, c1)) : nstep (TCache t0 false) c (TCache t1 (exhausted t1)) c1
  | ns_distinct t0 seen seen' c r0 t1 c1 t2 e2 c2
      (En : nx t0 c = (r0, t1, c1)) (St : steps t1 c1 t2 c2) (L : e2 = true \/ exhausted t2 = false) :
      nstep (TDistinct t0 false seen) c (TDistinct t2 e2 seen') c2
  | ns_charset t0 c r0 t1 c1 t2 e2 c2
      (En : nx t0 c = (r0, t1, c1)) (St : steps t1 c1 t2 c2) (L : e2 = true \/ exhausted t2 = false) :
      nstep (TCharset t0 false) c (TCharset t2 e2) c2
  | ns_uniquified t0 yl yl' c r0 t1 c1 t2 e2 c2
      (En : nx t0 c = (r0, t1, c1)) (St : steps t1 c1 t2 c2) (L : e2 = true \/ exhausted t2 = false) :
      nstep (TUniquified t0 false yl) c (TUniquified t2 e2 yl') c2
  | ns_prefetch t0 c r0 t1 c1 (En : nx t0 c = (r0, t1, c1)) :
      nstep (TPrefetch t0 [] false) c (TPrefetch t1 [] (exhausted t1)) c1
  | ns_prefetch_q t0 p q c : nstep (TPrefetch t0 (p :: q) false) c (TPrefetch t0 q (is_nil q && exhausted t0)) c
  | ns_simplified_q cv t0 x y q c : nstep (TSimplified cv t0 (x :: y :: q) false) c (TSimplified cv t0 (y :: q) false) c
  | ns_simplified_one cv t0 x c t2 c2 (Es : settle nx cv t0 c = (t2, c2)) : nstep (TSimplified cv t0 [x] false) c t2 c2
  | ns_simplified_nil cv t0 c r0 t1 c1 t2 c2 (En : nx t0 c = (r0, t1, c1)) (Es : settle nx cv t1 c1 = (t2, c2)) :
      nstep (TSimplified cv t0 [] false) c t2 c2.
End Loops.

Lemma next_d_exhausted d t c : exhausted t = true -> next_d (S d) t c = (false, t, c).
Proof.
  destruct t as [cd e|cd e|[]|[]|ts k e|t e|t e s|t q e|t e|t e yl|cv t q e]; cbn [exhausted next_d];
    intro E; try rewrite E; (reflexivity || discriminate).
Qed.

Lemma next_d_nstep d t c : exhausted t = false ->
  nstep (next_d d) t c (r_tr (next_d (S d) t c)) (r_cache (next_d (S d) t c)).
Proof.
  destruct t as [cd e|cd e|l|ts|ts k e|t e|t e s|t q e|t e|t e yl|cv t q e]; cbn [exhausted next_d];
    intro E; try subst e.
  - constructor.
  - constructor.
  - destruct l; [discriminate|constructor].
  - destruct ts as [|t0 ts]; [discriminate|].
    destruct (next_d d t0 c) as [[r0 t1] c1] eqn:En. exact (ns_union _ _ _ _ _ _ _ En).
  - destruct (nth_error ts k) as [x|] eqn:Ek; [|now constructor].
    destruct (next_d d x c) as [[r0 x1] c1] eqn:En. exact (ns_merged _ _ _ _ _ _ _ _ Ek En).
  - destruct (next_d d t c) as [[r0 t1] c1] eqn:En. exact (ns_cache _ _ _ _ _ _ En).
  - destruct (distinct_loop _ _ _ _ _) as [[t2 e2] c2] eqn:El. apply distinct_loop_spec in El as [St L].
    destruct (next_d d t c) as [[r0 t1] c1] eqn:En. exact (ns_distinct _ _ _ _ _ _ _ _ _ _ _ En St L).
  - destruct q as [|p q]; [|constructor].
    destruct (next_d d t c) as [[r0 t1] c1] eqn:En. exact (ns_prefetch _ _ _ _ _ _ En).
  - destruct (next_d d t c) as [[r0 t1] c1] eqn:En. destruct r0; cbn [negb].
    + destruct (locate _ _ _ _) as [[found t2] c2] eqn:El. apply locate_spec in El as [St L].
      apply (ns_charset _ _ _ _ _ _ _ _ _ En St). destruct found; auto.
    + exact (ns_charset _ _ _ _ _ _ _ _ _ En (steps_refl _ _ _) (or_introl eq_refl)).
  - destruct (next_d d t c) as [[r0 t1] c1] eqn:En.
    destruct (uniquify _ _ _ _ _ _) as [[[r2 t2] e2] c2] eqn:El. apply uniquify_spec in El as [St L].
    exact (ns_uniquified _ _ _ _ _ _ _ _ _ _ _ En St L).
  - destruct q as [|x [|y q]]; [| |constructor].
    + destruct (next_d d t c) as [[r0 t1] c1] eqn:En. destruct (settle _ _ _ _) as [t2 c2] eqn:Es.
      exact (ns_simplified_nil _ _ _ _ _ _ _ _ _ En Es).
    + destruct (settle _ _ _ _) as [t2 c2] eqn:Es. exact (ns_simplified_one _ _ _ _ _ _ _ Es).
Qed.

Lemma rewrite_at_shown k p c : map shown (rewrite_at k p c) = map shown c.
Proof.
  revert k. induction c as [|x c IH]; intros k; [destruct k; reflexivity|].
  destruct k; cbn [rewrite_at map]; [reflexivity|]. now rewrite IH.
Qed.

Definition nx_shown (nx : tr -> cache -> bool * tr * cache) : Prop :=
  forall t c, map shown (r_cache (nx t c)) = map shown c.

Lemma steps_shown nx : nx_shown nx -> forall t c t' c', steps nx t c t' c' -> map shown c' = map shown c.
Proof.
  intros H t c t' c'. induction 1 as [|t c t' c' _ IH|k p t c t' c' _ IH]; [reflexivity| |]; rewrite IH.
  - apply H.
  - apply rewrite_at_shown.
Qed.

Lemma settle_shown nx conv t c t' c' : nx_shown nx -> settle nx conv t c = (t', c') -> map shown c' = map shown c.
Proof.
  intro H. unfold settle. destruct (exhausted t); [now intros [= <- <-]|].
  specialize (H t c). destruct (nx t c) as [[r t1] c1]. now intros [= <- <-].
Qed.

Lemma nstep_shown nx : nx_shown nx -> forall t c t' c', nstep nx t c t' c' -> map shown c' = map shown c.
Proof.
  intros H t c t' c' N. pose proof (steps_shown _ H) as Hs.
  assert (Hn : forall t c r0 t1 c1, nx t c = (r0, t1, c1) -> map shown c1 = map shown c).
  { intros t0 c0 r0 t1 c1 En. specialize (H t0 c0). now rewrite En in H. }
  (* the cache goes through [nx], then through [steps] or [settle], as far as it is touched at all *)
  destruct N; try rewrite (settle_shown _ _ _ _ _ _ H Es); try rewrite (Hs _ _ _ _ St);
    try rewrite (Hn _ _ _ _ _ En); reflexivity.
Qed.

Lemma next_d_shown d : nx_shown (next_d d).
Proof.
  induction d as [|d IH]; intros t c; [reflexivity|].
  destruct (exhausted t) eqn:E; [now rewrite next_d_exhausted|].
  exact (nstep_shown _ IH _ _ _ _ (next_d_nstep d t c E)).
Qed.

Lemma next_d_len d t c : length (r_cache (next_d d t c)) = length c.
Proof.
  pose proof (next_d_shown d t c) as H.
  apply (f_equal (@length _)) in H. now rewrite !map_length in H.
Qed.

Definition nx_rem (nx : tr -> cache -> bool * tr * cache) : Prop :=
  forall t c, rem (r_tr (nx t c)) <= rem t /\ (exhausted t = false -> rem (r_tr (nx t c)) < rem t).

Lemma nx_rem_pred nx : nx_rem nx <-> forall t c, rem (r_tr (nx t c)) <= pred (rem t).
Proof.
  split; intros H t c; specialize (H t c).
  - destruct H as [H1 H2]. destruct (exhausted t) eqn:E; [apply rem_exhausted in E; lia|].
    specialize (H2 eq_refl). lia.
  - split; [lia|]. intro E. apply rem_pos in E. lia.
Qed.

Lemma nx_rem_alive nx : nx_rem nx -> forall t c,
  exhausted (r_tr (nx t c)) = false -> rem (r_tr (nx t c)) < rem t.
Proof.
  intros H t c Hal. apply rem_pos in Hal. pose proof (proj1 (nx_rem_pred nx) H t c). lia.
Qed.

Lemma steps_rem nx : nx_rem nx -> forall t c t' c', steps nx t c t' c' -> rem t' <= rem t.
Proof.
  intros H t c t' c'. induction 1 as [|t c t' c' _ IH|k p t c t' c' _ IH]; [lia| |exact IH].
  destruct (H t c). lia.
Qed.

Lemma forms_of_length conv x : length (forms_of conv x) <= 6.
Proof.
  unfold forms_of. destruct (conv x) as [[h tl]|]; [apply firstn_le_length|cbn; lia].
Qed.

Lemma settle_rem nx conv t c t' c' : nx_rem nx -> settle nx conv t c = (t', c') -> rem t' <= 7 * rem t.
Proof.
  intro H. unfold settle. destruct (exhausted t) eqn:E; [intros [= <- <-]; cbn; lia|].
  destruct (H t c) as [_ Hlt]. specialize (Hlt E).
  destruct (nx t c) as [[r0 t1] c1]. intros [= <- <-]. cbn [r_tr fst snd rem] in *.
  assert (length (match peek t with Some x => forms_of conv x | None => [] end) <= 6).
  { destruct (peek t); [apply forms_of_length|cbn; lia]. }
  lia.
Qed.

Lemma rsum_remove_at k ts x : nth_error ts k = Some x -> rsum (remove_at k ts) + S (rem x) = rsum ts.
Proof.
  revert k. induction ts as [|y ts IH]; intros k H; [destruct k; discriminate|].
  destruct k; cbn [nth_error remove_at] in *.
  - injection H as ->. rewrite rsum_cons. lia.
  - rewrite !rsum_cons. specialize (IH k H). lia.
Qed.

Lemma rsum_replace_at k ts x y :
  nth_error ts k = Some x -> rsum (replace_at k y ts) + rem x = rsum ts + rem y.
Proof.
  revert k. induction ts as [|z ts IH]; intros k H; [destruct k; discriminate|].
  destruct k; cbn [nth_error replace_at] in *.
  - injection H as ->. rewrite !rsum_cons. lia.
  - rewrite !rsum_cons. specialize (IH k H). lia.
Qed.

Lemma compare_rem x o c : rem (snd (compare x o c)) <= rem x.
Proof.
  destruct x; cbn [compare snd]; try lia.
  cbn [rem]. destruct (negb (is_nil c) || _); destruct exh; lia.
Qed.

Lemma scan_rem c suf : forall pre,
  match scan pre suf c with
  | SFound _ ts' => rsum ts' <= rsum (pre ++ suf)
  | SErase ts' => rsum ts' < rsum (pre ++ suf)
  | SNone ts' => rsum ts' <= rsum (pre ++ suf)
  end.
Proof.
  induction suf as [|cur rest IH]; intros pre; cbn [scan].
  - rewrite app_nil_r. lia.
  - pose proof (compare_rem cur (hd_error rest) c) as Hc.
    destruct (compare cur (hd_error rest) c) as [cmp cur']. cbn [snd] in Hc.
    destruct (Z.leb cmp 0).
    + destruct (exhausted cur').
      * rewrite !rsum_app, rsum_cons. lia.
      * rewrite !rsum_app, !rsum_cons. lia.
    + specialize (IH (pre ++ [cur'])).
      assert (E : rsum ((pre ++ [cur']) ++ rest) <= rsum (pre ++ cur :: rest)).
      { rewrite !rsum_app, !rsum_cons, rsum_nil. lia. }
      destruct (scan (pre ++ [cur']) rest c); lia.
Qed.

Lemma elect_loop_rem c fuel : forall k0 ts, rsum (fst (elect_loop fuel k0 ts c)) <= rsum ts.
Proof.
  induction fuel as [|f IH]; intros k0 ts; cbn [elect_loop]; [cbn; lia|].
  pose proof (scan_rem c (skipn k0 ts) (firstn k0 ts)) as H. rewrite firstn_skipn in H.
  destruct (scan (firstn k0 ts) (skipn k0 ts) c) as [k ts'|ts'|ts']; cbn [fst]; try lia.
  specialize (IH 1 ts'). lia.
Qed.

Lemma elect_rem ts k c : rem (elect ts k c) <= S (rsum ts).
Proof.
  unfold elect. destruct ts as [|t0 ts0]; [cbn; lia|].
  pose proof (elect_loop_rem c (S (length (t0 :: ts0))) 0 (t0 :: ts0)) as H.
  destruct (elect_loop (S (length (t0 :: ts0))) 0 (t0 :: ts0) c) as [ts' k']. cbn [fst] in H.
  rewrite rem_merged. destruct (Nat.leb (length ts') k'); lia.
Qed.

Lemma nstep_rem nx : nx_rem nx -> forall t c t' c', nstep nx t c t' c' -> rem t' <= pred (rem t).
Proof.
  intros H t c t' c' N. pose proof (steps_rem _ H) as Hs.
  assert (Hn : forall t c r0 t1 c1, nx t c = (r0, t1, c1) -> rem t1 <= pred (rem t)).
  { intros t0 c0 r0 t1 c1 En. pose proof (proj1 (nx_rem_pred nx) H t0 c0) as G. now rewrite En in G. }
  destruct N; try apply Hn in En; try apply Hs in St; try apply (settle_rem _ _ _ _ _ _ H) in Es.
  (* the three loops: the flag is set, or the inner translation is live and has become smaller *)
  all: try (cbn [rem]; destruct e2; [lia|]; destruct L as [L|L]; [discriminate|]; apply rem_pos in L; lia).
  - cbn; lia.
  - cbn; lia.
  - cbn; lia.
  - rewrite !rem_union. destruct (exhausted t1) eqn:X; rewrite !rsum_cons; [lia|]. apply rem_pos in X. lia.
  - cbn; lia.
  - rewrite rem_merged. destruct (exhausted x1) eqn:X.
    + pose proof (elect_rem (remove_at k ts) k c1). pose proof (rsum_remove_at _ _ _ Ek). lia.
    + pose proof (elect_rem (replace_at k x1 ts) k c1). pose proof (rsum_replace_at k ts x x1 Ek).
      apply rem_pos in X. lia.
  - cbn [rem]. destruct (exhausted t1) eqn:X; [lia|]. apply rem_pos in X. lia.
  - cbn [rem length]. destruct (exhausted t1) eqn:X; [lia|]. apply rem_pos in X. lia.
  - cbn [rem length]. destruct (is_nil q && exhausted t0); lia.
  - cbn [rem length]. lia.
  - cbn [rem length]. lia.
  - cbn [rem length]. lia.
Qed.

Lemma next_d_rem d : nx_rem (next_d d).
Proof.
  apply nx_rem_pred. induction d as [|d IH]; intros t c; [cbn; lia|].
  destruct (exhausted t) eqn:E.
  - rewrite next_d_exhausted by exact E. apply rem_exhausted in E. cbn [r_tr fst snd]. lia.
  - exact (nstep_rem _ (proj2 (nx_rem_pred _) IH) _ _ _ _ (next_d_nstep d t c E)).
Qed.
