(** C04 proofs: rime::Menu and the API's page arithmetic.
    Everything here rests on three facts about Next (GenProofs): what is shown
    of a cache entry never changes, the cache length never changes, [rem]
    strictly decreases.

    [fetch m] is one round of Menu::Prepare's loop and [fetched m m'] says that
    [m'] is reached from [m] by such rounds.  Prepare, the drain that defines
    [full_list], and every operation of the API lead to fetched menus; what a
    round preserves (the shown prefix, the full list; later well-formedness and
    the no-duplicate invariants) is proved once, for [fetched]. *)
From Coq Require Import List Arith ZArith NArith Bool Lia.
From RimeV Require Import Base.ListX MenuM.Gen MenuM.Menu MenuM.GenProofs.
Import ListNotations.

Lemma skipn_all_iff {A} (l : list A) n : skipn n l = [] <-> length l <= n.
Proof.
  split; intro H; [|now apply skipn_all2].
  apply (f_equal (@length _)) in H. rewrite skipn_length in H. cbn in H. lia.
Qed.

Definition fetch (m : menu) : menu :=
  let r := next (m_res m) (match peek (m_res m) with Some p => m_cache m ++ [p] | None => m_cache m end) in
  mkMenu (r_tr r) (r_cache r).

Lemma drain_S f t c : drain (S f) t c =
  if exhausted t then (t, c) else let m := fetch (mkMenu t c) in drain f (m_res m) (m_cache m).
Proof.
  cbn [drain fetch m_res m_cache]. destruct (exhausted t); [reflexivity|]. now destruct (next t _) as [[r t'] c'].
Qed.

Lemma prepare_loop_S f n t c : prepare_loop (S f) n t c =
  if Nat.ltb (length c) n && negb (exhausted t)
  then let m := fetch (mkMenu t c) in prepare_loop f n (m_res m) (m_cache m) else (t, c).
Proof.
  cbn [prepare_loop fetch m_res m_cache]. destruct (_ && _); [|reflexivity]. now destruct (next t _) as [[r t'] c'].
Qed.

Lemma fetch_shown m :
  map shown (m_cache (fetch m)) =
  map shown (m_cache m) ++ match peek (m_res m) with Some p => [shown p] | None => [] end.
Proof.
  unfold fetch, next. cbn [m_cache]. rewrite (next_d_shown _ _ _).
  destruct (peek (m_res m)); [apply map_app|now rewrite app_nil_r].
Qed.

Lemma fetch_rem m : exhausted (m_res m) = false -> rem (m_res (fetch m)) < rem (m_res m).
Proof. intro H. now apply next_d_rem. Qed.

Inductive fetched : menu -> menu -> Prop :=
| fetched_refl m : fetched m m
| fetched_step m m' : exhausted (m_res m) = false -> fetched (fetch m) m' -> fetched m m'.

Lemma fetched_trans m1 m2 m3 : fetched m1 m2 -> fetched m2 m3 -> fetched m1 m3.
Proof. induction 1 as [|m m' E _ IH]; [trivial|]. intro H. apply fetched_step; auto. Qed.

Lemma drain_fetched f : forall t c, fetched (mkMenu t c) (let '(t', c') := drain f t c in mkMenu t' c').
Proof.
  induction f as [|f IH]; intros t c; [apply fetched_refl|]. rewrite drain_S.
  destruct (exhausted t) eqn:E; [apply fetched_refl|]. apply fetched_step; [exact E|].
  cbn zeta. destruct (fetch (mkMenu t c)) as [t1 c1]. apply IH.
Qed.

Lemma prepare_loop_fetched n f : forall t c,
  fetched (mkMenu t c) (let '(t', c') := prepare_loop f n t c in mkMenu t' c').
Proof.
  induction f as [|f IH]; intros t c; [apply fetched_refl|]. rewrite prepare_loop_S.
  destruct (Nat.ltb (length c) n); [|apply fetched_refl].
  destruct (exhausted t) eqn:E; [apply fetched_refl|]. apply fetched_step; [exact E|].
  cbn [andb negb]. cbn zeta. destruct (fetch (mkMenu t c)) as [t1 c1]. apply IH.
Qed.

Lemma prepare_fetched n m : fetched m (prepare n m).
Proof. destruct m as [t c]. apply prepare_loop_fetched. Qed.

(** [prepare_appends] for every fetched menu: what was shown at an index stays shown there *)
Lemma fetched_prefix m m' : fetched m m' -> exists suf, map shown (m_cache m') = map shown (m_cache m) ++ suf.
Proof.
  induction 1 as [m|m m' _ _ [suf IH]]; [exists []; now rewrite app_nil_r|].
  rewrite IH, fetch_shown, <- app_assoc. eexists. reflexivity.
Qed.

Lemma prepare_appends n m :
  exists suf, map shown (m_cache (prepare n m)) = map shown (m_cache m) ++ suf.
Proof. apply fetched_prefix, prepare_fetched. Qed.

Lemma drain_exhausted f t c : exhausted t = true -> drain f t c = (t, c).
Proof. intro H. destruct f; [reflexivity|]. now rewrite drain_S, H. Qed.

Lemma drain_enough : forall f1 f2 t c, rem t <= f1 -> rem t <= f2 -> drain f1 t c = drain f2 t c.
Proof.
  assert (Z : forall f t c, rem t <= 0 -> drain f t c = (t, c)).
  { intros f t c H. apply drain_exhausted, rem_exhausted. lia. }
  induction f1 as [|f1 IH]; intros [|f2] t c H1 H2; try (rewrite !Z by assumption; reflexivity).
  rewrite !drain_S. destruct (exhausted t) eqn:E; [reflexivity|].
  pose proof (fetch_rem (mkMenu t c) E). apply IH; cbn [m_res] in *; lia.
Qed.

Lemma drain_done : forall f t c, rem t <= f -> exhausted (fst (drain f t c)) = true.
Proof.
  induction f as [|f IH]; intros t c H.
  - cbn. apply rem_exhausted. lia.
  - rewrite drain_S. destruct (exhausted t) eqn:E; [exact E|].
    pose proof (fetch_rem (mkMenu t c) E). apply IH. cbn [m_res] in *. lia.
Qed.

Lemma drain_length : forall f t c, length (snd (drain f t c)) <= length c + rem t.
Proof.
  induction f as [|f IH]; intros t c; [cbn; lia|].
  rewrite drain_S. destruct (exhausted t) eqn:E; [cbn; lia|].
  pose proof (fetch_rem (mkMenu t c) E) as Hr. pose proof (fetch_shown (mkMenu t c)) as Hs.
  apply (f_equal (@length _)) in Hs. rewrite app_length, !map_length in Hs.
  cbn zeta. specialize (IH (m_res (fetch (mkMenu t c))) (m_cache (fetch (mkMenu t c)))).
  cbn [m_res m_cache] in *. destruct (peek t); cbn [length] in Hs; lia.
Qed.

Lemma full_list_exhausted m : exhausted (m_res m) = true -> full_list m = m_cache m.
Proof. intro H. unfold full_list. now rewrite drain_exhausted. Qed.

Lemma full_list_fetch m : exhausted (m_res m) = false -> full_list (fetch m) = full_list m.
Proof.
  intro E. unfold full_list at 2. pose proof (fetch_rem m E) as Hr.
  destruct (rem (m_res m)) as [|f]; [lia|]. rewrite drain_S, E. cbn zeta.
  destruct m as [t c]. cbn [m_res m_cache]. unfold full_list. f_equal. apply drain_enough; lia.
Qed.

Lemma fetched_full m m' : fetched m m' -> full_list m' = full_list m.
Proof. induction 1 as [|m m' E _ IH]; [reflexivity|]. now rewrite IH, full_list_fetch. Qed.

Lemma prepare_full n m : full_list (prepare n m) = full_list m.
Proof. apply fetched_full, prepare_fetched. Qed.

Lemma full_list_fetched m : exists t, fetched m (mkMenu t (full_list m)).
Proof.
  unfold full_list. destruct m as [t c]. cbn [m_res m_cache].
  pose proof (drain_fetched (rem t) t c) as H. destruct (drain (rem t) t c) as [t' c']. now exists t'.
Qed.

Lemma full_list_prefix m : exists suf, map shown (full_list m) = map shown (m_cache m) ++ suf.
Proof. destruct (full_list_fetched m) as [t H]. exact (fetched_prefix _ _ H). Qed.

Lemma full_list_length m : length (m_cache m) <= length (full_list m).
Proof.
  destruct (full_list_prefix m) as [suf H]. apply (f_equal (@length _)) in H.
  rewrite app_length, !map_length in H. lia.
Qed.

Lemma prepare_loop_post n : forall f t c, rem t <= f ->
  n <= length (snd (prepare_loop f n t c)) \/ exhausted (fst (prepare_loop f n t c)) = true.
Proof.
  induction f as [|f IH]; intros t c H.
  - right. apply rem_exhausted. cbn [prepare_loop fst]. lia.
  - rewrite prepare_loop_S. destruct (Nat.ltb (length c) n) eqn:L; [|left; apply Nat.ltb_ge in L; exact L].
    destruct (exhausted t) eqn:E; [now right|]. cbn [andb negb]. cbn zeta.
    pose proof (fetch_rem (mkMenu t c) E). apply IH. cbn [m_res] in *. lia.
Qed.

Lemma prepare_post n m : n <= length (m_cache (prepare n m)) \/ exhausted (m_res (prepare n m)) = true.
Proof.
  unfold prepare. pose proof (prepare_loop_post n _ (m_res m) (m_cache m) (le_n _)) as H.
  now destruct (prepare_loop _ n _ _).
Qed.

Lemma prepare_loop_noop f n t c : n <= length c -> prepare_loop f n t c = (t, c).
Proof.
  intro H. destruct f; [reflexivity|]. rewrite prepare_loop_S. apply Nat.ltb_ge in H. now rewrite H.
Qed.

Lemma prepare_noop n m : n <= length (m_cache m) -> prepare n m = m.
Proof. intro H. unfold prepare. rewrite prepare_loop_noop by exact H. now destruct m. Qed.

Lemma prepare_exhausted n m : exhausted (m_res m) = true -> prepare n m = m.
Proof.
  intro H. unfold prepare. apply rem_exhausted in H. rewrite H. now destruct m.
Qed.

Definition ok_item (F : list cand) (ic : nat * cand) : Prop :=
  nth_error (map shown F) (fst ic) = Some (shown (snd ic)).

Lemma cache_item_ok m i c : nth_error (m_cache m) i = Some c -> ok_item (full_list m) (i, c).
Proof.
  intro H. unfold ok_item. cbn [fst snd].
  destruct (full_list_prefix m) as [suf E]. rewrite E.
  rewrite nth_error_app1 by (rewrite map_length; apply nth_error_Some; congruence).
  now apply map_nth_error.
Qed.

Lemma number_from_ok F : forall l start,
  (forall j c, nth_error l j = Some c -> ok_item F (start + j, c)) ->
  Forall (ok_item F) (number_from start l).
Proof.
  induction l as [|x l IH]; intros start H; cbn [number_from]; constructor.
  - specialize (H 0 x eq_refl). now rewrite Nat.add_0_r in H.
  - apply IH. intros j c Hj. specialize (H (S j) c Hj). now rewrite Nat.add_succ_r in H.
Qed.

Lemma segment_ok m start k :
  Forall (ok_item (full_list m)) (number_from start (firstn k (skipn start (m_cache m)))).
Proof.
  apply number_from_ok. intros j c H. apply cache_item_ok.
  apply nth_error_firstn in H. now rewrite nth_error_skipn in H.
Qed.

(** Menu::GetCandidateAt is a Prepare followed by a read of the cache *)
Lemma get_candidate_at_eq i m :
  get_candidate_at i m = (nth_error (m_cache (prepare (S i) m)) i, prepare (S i) m).
Proof.
  unfold get_candidate_at. destruct (Nat.leb (length (m_cache m)) i) eqn:L.
  - destruct (Nat.leb (length (m_cache (prepare (S i) m))) i) eqn:L2; [|reflexivity].
    apply Nat.leb_le, nth_error_None in L2. now rewrite L2.
  - apply Nat.leb_gt in L. now rewrite prepare_noop by lia.
Qed.

Lemma get_candidate_at_spec i m :
  let r := get_candidate_at i m in
  full_list (snd r) = full_list m /\
  match fst r with
  | Some c => ok_item (full_list m) (i, c)
  | None => length (full_list m) <= i
  end.
Proof.
  rewrite get_candidate_at_eq. cbn [fst snd]. split; [apply prepare_full|].
  rewrite <- (prepare_full (S i) m).
  destruct (nth_error (m_cache (prepare (S i) m)) i) as [c|] eqn:En; [now apply cache_item_ok|].
  apply nth_error_None in En. destruct (prepare_post (S i) m) as [P|P]; [lia|].
  now rewrite (full_list_exhausted _ P).
Qed.

(** Menu::CreatePage is a Prepare followed by a cut of the cache *)
Lemma create_page_eq ps pno m :
  let m' := prepare (ps * pno + ps) m in
  let n := length (m_cache m') in
  create_page ps pno m =
  (if Nat.ltb (length (m_cache m)) (ps * pno + ps) && Nat.leb n (ps * pno) then None
   else Some (mkPage ps pno (exhausted (m_res m') && Nat.eqb (Nat.min (ps * pno + ps) n) n)
                     (firstn ps (skipn (ps * pno) (m_cache m')))), m').
Proof.
  cbn zeta. unfold create_page. destruct (Nat.ltb (length (m_cache m)) (ps * pno + ps)) eqn:L; cbn [andb].
  - replace (if exhausted (m_res m) then m else prepare (ps * pno + ps) m) with (prepare (ps * pno + ps) m)
      by (destruct (exhausted (m_res m)) eqn:E; [now rewrite prepare_exhausted|reflexivity]).
    destruct (Nat.leb _ (ps * pno)); [reflexivity|]. now rewrite firstn_min_skipn.
  - apply Nat.ltb_ge in L. rewrite prepare_noop, Nat.min_l by exact L.
    now replace (ps * pno + ps - ps * pno) with ps by lia.
Qed.

Lemma create_page_menu ps pno m : snd (create_page ps pno m) = prepare (ps * pno + ps) m.
Proof. now rewrite create_page_eq. Qed.

Lemma create_page_spec ps pno m :
  match fst (create_page ps pno m) with
  | Some pg =>
      map shown (pg_cands pg) = firstn ps (skipn (ps * pno) (map shown (full_list m))) /\
      Forall (ok_item (full_list m)) (number_from (ps * pno) (pg_cands pg))
  | None => 0 < ps -> length (full_list m) <= ps * pno
  end.
Proof.
  rewrite create_page_eq. cbn [fst]. set (m' := prepare (ps * pno + ps) m).
  rewrite <- (prepare_full (ps * pno + ps) m). fold m'.
  assert (P : ps * pno + ps <= length (m_cache m') \/ full_list m' = m_cache m').
  { destruct (prepare_post (ps * pno + ps) m) as [P|P]; [now left|right; now apply full_list_exhausted]. }
  destruct (_ && _) eqn:G.
  - intro Hps. apply andb_true_iff in G. destruct G as [_ G]. apply Nat.leb_le in G.
    destruct P as [P|P]; [lia|now rewrite P].
  - cbn [pg_cands]. split; [|apply segment_ok].
    rewrite <- firstn_map, <- skipn_map. destruct P as [P|P]; [|now rewrite P].
    destruct (full_list_prefix m') as [suf E]. rewrite E. symmetry.
    apply firstn_skipn_app_prefix. rewrite map_length. lia.
Qed.

Lemma iterate_spec : forall n from m,
  let r := iterate n from m in
  full_list (snd r) = full_list m /\
  map shown (fst r) = firstn n (skipn from (map shown (full_list m))) /\
  Forall (ok_item (full_list m)) (number_from from (fst r)).
Proof.
  induction n as [|n IH]; intros from m; cbn [iterate].
  - cbn. repeat split. constructor.
  - pose proof (get_candidate_at_spec from m) as G. cbn zeta in G.
    destruct (get_candidate_at from m) as [[c|] m']; cbn [fst snd] in G; destruct G as [G1 G2].
    + specialize (IH (S from) m'). cbn zeta in IH.
      destruct (iterate n (S from) m') as [l m'']. cbn [fst snd] in *.
      destruct IH as [I1 [I2 I3]]. rewrite G1 in *.
      split; [exact I1|]. split; [|now constructor].
      cbn [map]. now rewrite I2, (skipn_nth_error _ from _ G2).
    + split; [exact G1|]. split; [|constructor].
      cbn [map]. rewrite skipn_all2 by (rewrite map_length; lia). now rewrite firstn_nil.
Qed.

Lemma iterate_all_spec from m :
  map shown (fst (iterate_all from m)) = skipn from (map shown (full_list m)).
Proof.
  unfold iterate_all.
  destruct (iterate_spec (S (length (m_cache m) + rem (m_res m))) from m) as [_ [H _]].
  rewrite H. apply firstn_all2. rewrite skipn_length, map_length.
  pose proof (drain_length (rem (m_res m)) (m_res m) (m_cache m)). unfold full_list. lia.
Qed.

Lemma iterate_fetched : forall n from m, fetched m (snd (iterate n from m)).
Proof.
  induction n as [|n IH]; intros from m; cbn [iterate]; [apply fetched_refl|].
  rewrite get_candidate_at_eq. pose proof (prepare_fetched (S from) m) as H.
  destruct (nth_error _ from); [|exact H].
  specialize (IH (S from) (prepare (S from) m)). destruct (iterate n (S from) _) as [l m''].
  exact (fetched_trans _ _ _ H IH).
Qed.

Lemma highlight_menu idx s : s_menu (snd (highlight idx s)) = prepare (S idx) (s_menu s).
Proof. unfold highlight. now destruct (Nat.eqb (s_sel s) _). Qed.

Lemma step_fetched s o : fetched (s_menu s) (s_menu (snd (step s o))).
Proof.
  assert (C : forall ps pno, fetched (s_menu s) (snd (create_page ps pno (s_menu s)))).
  { intros. rewrite create_page_menu. apply prepare_fetched. }
  assert (H : forall i, fetched (s_menu s) (s_menu (snd (highlight i s)))).
  { intros. rewrite highlight_menu. apply prepare_fetched. }
  destruct o; cbn [step].
  - apply prepare_fetched.
  - specialize (C ps pno). now destruct (create_page ps pno (s_menu s)) as [[p|] m'].
  - rewrite get_candidate_at_eq. destruct (nth_error _ i); apply prepare_fetched.
  - unfold get_context. destruct (menu_empty (s_menu s)); [apply fetched_refl|].
    specialize (C (s_ps s) (s_sel s / s_ps s)). now destruct (create_page _ _ (s_menu s)) as [[p|] m'].
  - specialize (H i). now destruct (highlight i s).
  - unfold highlight_on_page. destruct (menu_empty (s_menu s)); [apply fetched_refl|].
    destruct (Nat.leb (s_ps s) i); [apply fetched_refl|].
    specialize (H (s_sel s / s_ps s * s_ps s + i)). now destruct (highlight _ s).
  - unfold change_page. destruct (menu_empty (s_menu s)); [apply fetched_refl|].
    match goal with |- context [highlight ?i s] => specialize (H i); now destruct (highlight i s) end.
  - destruct (menu_empty (s_menu s)); [apply fetched_refl|].
    pose proof (iterate_fetched n from (s_menu s)). now destruct (iterate n from (s_menu s)).
  - cbn [snd]. unfold sel_next_page. destruct (Nat.leb _ _); apply prepare_fetched.
  - apply fetched_refl.
  - cbn [snd]. unfold sel_next_cand. destruct (Nat.leb _ _); apply prepare_fetched.
  - apply fetched_refl.
  - apply fetched_refl.
Qed.

Lemma run_fetched : forall ops s, fetched (s_menu s) (s_menu (snd (run s ops))).
Proof.
  induction ops as [|o ops IH]; intros s; cbn [run]; [apply fetched_refl|].
  pose proof (step_fetched s o) as H. destruct (step s o) as [ob s'].
  specialize (IH s'). destruct (run s' ops) as [l s'']. exact (fetched_trans _ _ _ H IH).
Qed.

Lemma step_spec s o : Forall (ok_item (full_list (s_menu s))) (o_items (fst (step s o))).
Proof.
  assert (C : forall ps pno, match fst (create_page ps pno (s_menu s)) with
                             | Some p => Forall (ok_item (full_list (s_menu s))) (number_from (ps * pno) (pg_cands p))
                             | None => True end).
  { intros. pose proof (create_page_spec ps pno (s_menu s)) as H. destruct (fst _); [apply H|exact I]. }
  destruct o; cbn [step]; try (cbn; constructor).
  - specialize (C ps pno). destruct (create_page ps pno (s_menu s)) as [[p|] m']; [exact C|constructor].
  - pose proof (get_candidate_at_spec i (s_menu s)) as [_ H].
    destruct (get_candidate_at i (s_menu s)) as [[c|] m']; repeat constructor. exact H.
  - unfold get_context. destruct (menu_empty (s_menu s)); [constructor|].
    specialize (C (s_ps s) (s_sel s / s_ps s)).
    destruct (create_page _ _ (s_menu s)) as [[p|] m']; [|constructor].
    cbn [fst snd o_items cm_page_no cm_cands]. now rewrite Nat.mul_comm.
  - destruct (highlight i s). constructor.
  - destruct (highlight_on_page i s). constructor.
  - destruct (change_page backward s). constructor.
  - destruct (menu_empty (s_menu s)); [constructor|].
    pose proof (iterate_spec n from (s_menu s)) as [_ [_ H]].
    now destruct (iterate n from (s_menu s)).
Qed.

Lemma run_spec : forall ops s,
  Forall (fun ob => Forall (ok_item (full_list (s_menu s))) (o_items ob)) (fst (run s ops)) /\
  full_list (s_menu (snd (run s ops))) = full_list (s_menu s).
Proof.
  intros ops s. split; [|apply fetched_full, run_fetched].
  revert s. induction ops as [|o ops IH]; intros s; cbn [run]; [constructor|].
  pose proof (step_spec s o) as H1. pose proof (fetched_full _ _ (step_fetched s o)) as H2.
  destruct (step s o) as [ob s']. specialize (IH s'). destruct (run s' ops) as [l s''].
  cbn [fst snd] in *. rewrite H2 in IH. now constructor.
Qed.

(** stability stated directly: two reports of the same index, anywhere in a
    call sequence, show the same text and comment *)
Lemma reports_stable ops s ob1 ob2 i c1 c2 :
  In ob1 (fst (run s ops)) -> In ob2 (fst (run s ops)) ->
  In (i, c1) (o_items ob1) -> In (i, c2) (o_items ob2) -> shown c1 = shown c2.
Proof.
  intros H1 H2 I1 I2. destruct (run_spec ops s) as [R _].
  rewrite Forall_forall in R.
  pose proof (R ob1 H1) as R1. pose proof (R ob2 H2) as R2. rewrite Forall_forall in R1, R2.
  specialize (R1 _ I1). specialize (R2 _ I2). unfold ok_item in *. cbn [fst snd] in *. congruence.
Qed.
