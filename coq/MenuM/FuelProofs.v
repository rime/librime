(** C04 proofs: the explicit fuel of the model's loops is never
    exhausted – more fuel gives the same result.  (The nesting budget [d] of
    [next_d] is validated by the correspondence only.) *)
From Coq Require Import List Arith ZArith NArith Bool Lia.
From RimeV Require Import MenuM.Gen MenuM.GenProofs.
Import ListNotations.

(** Elect: every erase shortens the vector by one, so [S (length ts)] rounds suffice *)
Lemma scan_erase_len c suf : forall pre ts', scan pre suf c = SErase ts' -> S (length ts') = length (pre ++ suf).
Proof.
  induction suf as [|cur rest IH]; intros pre ts' H; cbn [scan] in H; [discriminate|].
  destruct (compare cur (hd_error rest) c) as [cmp cur']. cbv beta iota in H.
  destruct (Z.leb cmp 0).
  - destruct (exhausted cur'); [|discriminate]. injection H as <-. rewrite !app_length. cbn. lia.
  - apply IH in H. rewrite H, !app_length. cbn [length]. lia.
Qed.

Lemma elect_loop_enough c : forall f1 f2 k0 ts, length ts < f1 -> length ts < f2 ->
  elect_loop f1 k0 ts c = elect_loop f2 k0 ts c.
Proof.
  induction f1 as [|f1 IH]; intros f2 k0 ts H1 H2; [lia|].
  destruct f2 as [|f2]; [lia|]. cbn [elect_loop].
  destruct (scan (firstn k0 ts) (skipn k0 ts) c) as [k ts'|ts'|ts'] eqn:E; try reflexivity.
  apply scan_erase_len in E. rewrite firstn_skipn in E. apply IH; lia.
Qed.

Section LoopsFuel.
  Variable nx : tr -> cache -> bool * tr * cache.
  Hypothesis Hnx : nx_rem nx.

  Lemma distinct_loop_enough : forall f1 f2 t seen c, rem t < f1 -> rem t < f2 ->
    distinct_loop nx f1 t seen c = distinct_loop nx f2 t seen c.
  Proof.
    induction f1 as [|f1 IH]; intros f2 t seen c H1 H2; [lia|].
    destruct f2 as [|f2]; [lia|]. cbn [distinct_loop].
    pose proof (nx_rem_alive nx Hnx t c) as Hal.
    destruct (nx t c) as [[r0 t'] c']. cbn [r_tr fst snd] in Hal.
    destruct (exhausted t') eqn:E; [reflexivity|]. specialize (Hal eq_refl).
    destruct (peek t') as [p|]; [|reflexivity].
    destruct (has_text seen (c_text p)); [|reflexivity]. apply IH; lia.
  Qed.

  Lemma locate_enough : forall f1 f2 t c, rem t < f1 -> rem t < f2 -> locate nx f1 t c = locate nx f2 t c.
  Proof.
    induction f1 as [|f1 IH]; intros f2 t c H1 H2; [lia|].
    destruct f2 as [|f2]; [lia|]. cbn [locate].
    destruct (exhausted t) eqn:E; [reflexivity|].
    destruct (Hnx t c) as [_ Hlt]. specialize (Hlt E).
    destruct (peek t) as [p|].
    - destruct (charset_ok p); [reflexivity|].
      destruct (nx t c) as [[r0 t'] c']. cbn [r_tr fst snd] in Hlt. apply IH; lia.
    - destruct (nx t c) as [[r0 t'] c']. cbn [r_tr fst snd] in Hlt. apply IH; lia.
  Qed.

  Lemma uniquify_enough yl : forall f1 f2 t c, rem t < f1 -> rem t < f2 ->
    uniquify nx f1 yl t (exhausted t) c = uniquify nx f2 yl t (exhausted t) c.
  Proof.
    induction f1 as [|f1 IH]; intros f2 t c H1 H2; [lia|].
    destruct f2 as [|f2]; [lia|]. cbn [uniquify].
    destruct (exhausted t) eqn:E; [reflexivity|].
    destruct (peek t) as [p|]; [|reflexivity].
    destruct (find_text (c_text p) c) as [k|].
    - destruct (Hnx t (rewrite_at k p c)) as [_ Hlt]. specialize (Hlt E).
      destruct (nx t (rewrite_at k p c)) as [[r0 t'] c2]. cbn [r_tr fst snd] in Hlt. apply IH; lia.
    - destruct (has_text yl (c_text p)); [|reflexivity].
      destruct (Hnx t c) as [_ Hlt]. specialize (Hlt E).
      destruct (nx t c) as [[r0 t'] c2]. cbn [r_tr fst snd] in Hlt. apply IH; lia.
  Qed.

  Lemma rearrange_enough : forall f1 f2 t top bottom c, rem t < f1 -> rem t < f2 ->
    rearrange nx f1 t top bottom c = rearrange nx f2 t top bottom c.
  Proof.
    induction f1 as [|f1 IH]; intros f2 t top bottom c H1 H2; [lia|].
    destruct f2 as [|f2]; [lia|]. cbn [rearrange].
    destruct (exhausted t) eqn:E; [reflexivity|].
    destruct (peek t) as [p|]; [|reflexivity].
    destruct (negb (is_table_phrase p)); [reflexivity|].
    destruct (Hnx t c) as [_ Hlt]. specialize (Hlt E).
    destruct (nx t c) as [[r0 t'] c']. cbn [r_tr fst snd] in Hlt.
    destruct (is_single_char p); apply IH; lia.
  Qed.
End LoopsFuel.
