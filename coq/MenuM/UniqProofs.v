(** C04 proofs: the two filter orders of the stock schemas.  With the
    uniquifier as the last filter the full list has no two entries with the same
    text; neither has it with the prefetching single-char filter after the
    uniquifier (the order of data/minimal/cangjie5.schema.yaml): the prefetch
    drains the uniquified stream while the menu's cache is still empty, and the
    [yielded] record of the uniquifier is what keeps the prefetched run free of
    duplicates.  Both are instances of [uniq_anywhere_build]. *)
From Coq Require Import List Arith ZArith NArith Bool.
From RimeV Require Import MenuM.Gen MenuM.Menu MenuM.StackProofs.
Import ListNotations.

Theorem uniq_no_dup ts fs : NoDup (texts (full_list (build_menu ts (fs ++ [FUniquifier])))).
Proof. apply uniq_anywhere_build. constructor. Qed.

Theorem uniq_single_no_dup ts fs :
  NoDup (texts (full_list (build_menu ts (fs ++ [FUniquifier; FSingleChar])))).
Proof. apply uniq_anywhere_build. repeat constructor. Qed.

Definition dup_a : cand := mkCand [0x4E00%N] 1 0 0 1 3 0.
Definition dup_b : cand := mkCand [0x4E00%N] 2 0 0 1 2 0.
Definition dup_witness : list tr := [mk_fifo [dup_a; dup_b]].

(** two table phrases with the same text, met during the prefetch while the
    menu's cache is still empty: the second is dropped because the first was yielded *)
Lemma uniq_then_prefetch_example :
  map (fun c => (c_text c, c_comment c, c_uniq c)) (full_list (build_menu dup_witness [FUniquifier; FSingleChar]))
  = [([0x4E00%N], 1%N, 0)].
Proof. vm_compute. reflexivity. Qed.

(** non-vacuity: with the uniquifier last the same stream is merged into one entry *)
Lemma uniq_last_example :
  map (fun c => (c_text c, c_uniq c)) (full_list (build_menu dup_witness [FSingleChar; FUniquifier]))
  = [([0x4E00%N], 2)].
Proof. vm_compute. reflexivity. Qed.
