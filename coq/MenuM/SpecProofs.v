(** C04 proofs: every menu the harness can build is well-formed, call
    sequences keep it well-formed, and RimeGetContext's view is a window. *)
From Coq Require Import List Arith ZArith NArith Bool Lia.
From RimeV Require Import Base.ListX MenuM.Gen MenuM.Menu MenuM.Spec MenuM.MenuProofs MenuM.WfProofs.
Import ListNotations.

Fixpoint sheight (s : spec) : nat :=
  match s with
  | SpUnique _ | SpEcho _ | SpFifo _ => 1
  | SpUnion l => S ((fix mx (l : list spec) : nat := match l with [] => 0 | x :: r => Nat.max (sheight x) (mx r) end) l)
  | SpCache s0 | SpDistinct s0 | SpPrefetch s0 | SpSingle s0 | SpCharset s0 => S (sheight s0)
  end.

Lemma sheight_union_in l x : In x l -> sheight x < sheight (SpUnion l).
Proof.
  cbn [sheight]. induction l as [|y r IH]; intros H; [destruct H|].
  destruct H as [->|H]; [lia|]. specialize (IH H). lia.
Qed.

Lemma union_fold_live l : forall acc, forallb wf l = true -> forallb live acc = true ->
  forallb live (fold_left union_add l acc) = true.
Proof.
  induction l as [|t l IH]; intros acc Hl Ha; [exact Ha|].
  cbn [forallb fold_left] in *. apply andb_true_iff in Hl. destruct Hl as [Ht Hl].
  apply IH; [exact Hl|]. unfold union_add. destruct (exhausted t) eqn:E; [exact Ha|].
  apply forallb_app_true. split; [exact Ha|]. cbn [forallb]. unfold live. now rewrite Ht, E.
Qed.

Lemma add_filter_single m : add_filter m FSingleChar =
  mkMenu (fst (mk_single_char (height (m_res m)) (m_res m) (m_cache m)))
         (snd (mk_single_char (height (m_res m)) (m_res m) (m_cache m))).
Proof. unfold add_filter. now destruct (mk_single_char _ _ _). Qed.
Lemma add_filter_charset m : add_filter m FCharset =
  mkMenu (fst (mk_charset (height (m_res m)) (m_res m) (m_cache m)))
         (snd (mk_charset (height (m_res m)) (m_res m) (m_cache m))).
Proof. unfold add_filter. now destruct (mk_charset _ _ _). Qed.

Lemma build_wf s : wf (build s) = true.
Proof.
  enough (G : forall n s, sheight s <= n -> wf (build s) = true) by exact (G (sheight s) s (le_n _)).
  clear s. induction n as [|n IH]; intros s Hh; [destruct s; cbn [sheight] in Hh; lia|].
  destruct s as [c|c|l|l|s|s|s|s|s]; cbn [build].
  - destruct c; reflexivity.
  - reflexivity.
  - reflexivity.
  - unfold mk_union. rewrite wf_union. apply union_fold_live; [|reflexivity].
    apply forallb_forall. intros t Ht. apply in_map_iff in Ht. destruct Ht as [x [<- Hx]].
    apply IH. pose proof (sheight_union_in l x Hx). lia.
  - cbn [sheight] in Hh. apply wf_wrap; [apply IH; lia|]. destruct (exhausted (build s)); auto.
  - cbn [sheight] in Hh. apply wf_wrap; [apply IH; lia|]. destruct (exhausted (build s)); auto.
  - cbn [sheight] in Hh. unfold mk_prefetch. cbn [wf is_nil negb orb]. rewrite IH by lia. cbn [andb].
    rewrite orb_false_r. apply orb_negb_r.
  - cbn [sheight] in Hh. assert (H : wf (build s) = true) by (apply IH; lia).
    pose proof (add_filter_wf (mkMenu (build s) []) FSingleChar H) as G.
    rewrite add_filter_single in G. exact G.
  - cbn [sheight] in Hh. assert (H : wf (build s) = true) by (apply IH; lia).
    pose proof (add_filter_wf (mkMenu (build s) []) FCharset H) as G.
    rewrite add_filter_charset in G. exact G.
Qed.

Lemma menu_of_wf specs fs : wf (m_res (menu_of specs fs)) = true.
Proof.
  unfold menu_of. apply build_menu_wf. apply forallb_forall. intros t Ht.
  apply in_map_iff in Ht. destruct Ht as [x [<- _]]. apply build_wf.
Qed.

Lemma run_wf : forall ops s, wf (m_res (s_menu s)) = true -> wf (m_res (s_menu (snd (run s ops)))) = true.
Proof. intros ops s. apply fetched_wf, run_fetched. Qed.

(** RimeGetContext: position i of page p is element p*page_size+i *)

Lemma get_context_spec s cm :
  fst (get_context s) = Some cm ->
  cm_page_no cm = s_sel s / s_ps s /\ cm_hl cm = s_sel s mod s_ps s /\
  map shown (cm_cands cm) =
    firstn (s_ps s) (skipn (cm_page_no cm * s_ps s) (map shown (full_list (s_menu s)))) /\
  (wf (m_res (s_menu s)) = true ->
   (cm_last cm = true <-> length (full_list (s_menu s)) <= cm_page_no cm * s_ps s + s_ps s)).
Proof.
  unfold get_context. destruct (menu_empty (s_menu s)); [discriminate|].
  pose proof (create_page_spec (s_ps s) (s_sel s / s_ps s) (s_menu s)) as P.
  pose proof (create_page_last (s_ps s) (s_sel s / s_ps s) (s_menu s)) as L.
  destruct (create_page (s_ps s) (s_sel s / s_ps s) (s_menu s)) as [[pg|] m']; cbn [fst snd] in *; [|discriminate].
  intro H. injection H as <-. cbn [cm_page_no cm_hl cm_cands cm_last].
  rewrite (Nat.mul_comm (s_sel s / s_ps s)). repeat split; try apply P; now apply L.
Qed.
