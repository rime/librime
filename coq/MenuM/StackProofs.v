(** C04 proofs: no duplicate text for ANY chain in which the filters
    applied after the (last) uniquifier create no new texts – they may hold
    candidates back, reorder them or drop them (single_char_filter's prefetch,
    the charset filter).  The uniquifier's [yielded] record makes the texts it
    hands on pairwise distinct and different from the texts the menu's cache
    held when it was added; the wrappers above it only move those texts between
    their queues and the cache.  Nothing is assumed of the translations below
    the uniquifier. *)
From Coq Require Import List Arith ZArith NArith Bool Lia Permutation.
From RimeV Require Import Base.ListX MenuM.Gen MenuM.Menu MenuM.Spec MenuM.GenProofs MenuM.MenuProofs
  MenuM.WfProofs MenuM.SpecProofs.
Import ListNotations.

Lemma text_eqb_eq a b : text_eqb a b = true <-> a = b.
Proof.
  revert b. induction a as [|x a IH]; intros [|y b]; cbn [text_eqb]; split; intro H;
    try reflexivity; try discriminate.
  - apply andb_true_iff in H. destruct H as [H1 H2]. apply N.eqb_eq in H1. apply IH in H2. congruence.
  - injection H as -> ->. rewrite N.eqb_refl. cbn. now apply IH.
Qed.

Lemma find_text_none t c : find_text t c = None <-> ~ In t (texts c).
Proof.
  induction c as [|x c IH]; cbn [find_text texts map In]; [tauto|]. fold (texts c).
  destruct (text_eqb (c_text x) t) eqn:E.
  - apply text_eqb_eq in E. split; [discriminate|tauto].
  - assert (c_text x <> t) by (intro G; apply text_eqb_eq in G; congruence).
    destruct (find_text t c) as [k|]; cbn [option_map]; [|tauto].
    split; [discriminate|]. intro G. assert (Some k = None) by (apply IH; tauto). discriminate.
Qed.

Lemma has_text_in l x : has_text l x = true <-> In x l.
Proof.
  unfold has_text. rewrite existsb_exists. split.
  - intros [y [Hy E]]. apply text_eqb_eq in E. now subst.
  - intro H. exists x. split; [exact H|]. now apply text_eqb_eq.
Qed.

Lemma has_text_notin l x : has_text l x = false <-> ~ In x l.
Proof. rewrite <- has_text_in. now destruct (has_text l x). Qed.

Lemma shown_texts a b : map shown a = map shown b -> texts a = texts b.
Proof.
  intro H. unfold texts.
  assert (E : forall l, map c_text l = map fst (map shown l)).
  { intro l. rewrite map_map. reflexivity. }
  now rewrite !E, H.
Qed.

Lemma texts_app a b : texts (a ++ b) = texts a ++ texts b.
Proof. apply map_app. Qed.

Inductive subseq {A} : list A -> list A -> Prop :=
| ss_nil : subseq [] []
| ss_skip x l1 l2 : subseq l1 l2 -> subseq l1 (x :: l2)
| ss_keep x l1 l2 : subseq l1 l2 -> subseq (x :: l1) (x :: l2).

Lemma subseq_refl {A} (l : list A) : subseq l l.
Proof. induction l; constructor; assumption. Qed.

Lemma subseq_nil {A} (l : list A) : subseq [] l.
Proof. induction l; constructor; assumption. Qed.

Lemma subseq_In {A} (l1 l2 : list A) x : subseq l1 l2 -> In x l1 -> In x l2.
Proof.
  induction 1 as [|y l1 l2 S IH|y l1 l2 S IH]; intro G; [exact G|right; auto|destruct G as [G|G]; [now left|right; auto]].
Qed.

Lemma subseq_NoDup {A} (l1 l2 : list A) : subseq l1 l2 -> NoDup l2 -> NoDup l1.
Proof.
  induction 1 as [|x l1 l2 S IH|x l1 l2 S IH]; intro H; [exact H| |]; inversion H; subst; [auto|].
  constructor; [|auto]. intro G. eapply subseq_In in G; eauto.
Qed.

Lemma subseq_trans {A} (l1 l2 l3 : list A) : subseq l1 l2 -> subseq l2 l3 -> subseq l1 l3.
Proof.
  intros H12 H23. revert l1 H12. induction H23 as [|x l2 l3 S IH|x l2 l3 S IH]; intros l1 H12.
  - exact H12.
  - constructor. now apply IH.
  - inversion H12; subst; [constructor; now apply IH|constructor; now apply IH].
Qed.

Lemma subseq_app {A} (a a' b b' : list A) : subseq a a' -> subseq b b' -> subseq (a ++ b) (a' ++ b').
Proof.
  induction 1 as [|y l1 l2 S IH|y l1 l2 S IH]; intro G; cbn [app].
  - exact G.
  - apply ss_skip. now apply IH.
  - apply ss_keep. now apply IH.
Qed.

(** [Y]: the texts in the cache when the uniquifier was added, or yielded by it since *)
Definition distinct_in (Y L : list text) : Prop := NoDup L /\ incl L Y.

Lemma distinct_in_perm Y L L' : Permutation L L' -> distinct_in Y L -> distinct_in Y L'.
Proof.
  intros P [H1 H2]. split; [exact (Permutation_NoDup P H1)|].
  intros x Hx. apply H2. exact (Permutation_in _ (Permutation_sym P) Hx).
Qed.

Lemma distinct_in_weaken Y Y' L L' : subseq L' L -> incl Y Y' -> distinct_in Y L -> distinct_in Y' L'.
Proof.
  intros Q I [H1 H2]. split; [exact (subseq_NoDup _ _ Q H1)|].
  intros x Hx. apply I, H2. exact (subseq_In _ _ _ Q Hx).
Qed.

Lemma add_filter_shown m f : map shown (m_cache (add_filter m f)) = map shown (m_cache m).
Proof.
  destruct m as [t c]. unfold add_filter. cbn [m_res m_cache]. set (d := height t).
  pose proof (steps_shown _ (next_d_shown d)) as Hs. destruct f.
  - unfold mk_uniquified. destruct (uniquify _ _ _ _ _ _) as [[[r t'] e'] c'] eqn:E.
    apply uniquify_spec in E as [H _]. exact (Hs _ _ _ _ H).
  - unfold mk_single_char. destruct (exhausted t); [reflexivity|].
    destruct (rearrange _ _ _ _ _ _) as [[t' q] c'] eqn:E. apply rearrange_spec in E as [H _]. exact (Hs _ _ _ _ H).
  - unfold mk_charset. destruct (locate _ _ _ _) as [[found t'] c'] eqn:E.
    apply locate_spec in E as [H _]. exact (Hs _ _ _ _ H).
  - unfold mk_simplified.
    destruct (settle _ _ _ _) as [t' c'] eqn:E. exact (settle_shown _ _ _ _ _ _ (next_d_shown d) E).
Qed.

Lemma fold_add_filter_shown fs : forall m, map shown (m_cache (fold_left add_filter fs m)) = map shown (m_cache m).
Proof. induction fs as [|f fs IH]; intro m; [reflexivity|]. cbn [fold_left]. now rewrite IH, add_filter_shown. Qed.

Lemma build_menu_cache ts fs : m_cache (build_menu ts fs) = [].
Proof.
  unfold build_menu. apply (map_eq_nil shown). rewrite fold_add_filter_shown.
  assert (A : forall l m, m_cache m = [] -> m_cache (fold_left add_translation l m) = []).
  { induction l as [|t l IH]; intros m H; [exact H|]. apply IH. exact H. }
  now rewrite A.
Qed.

Definition uq_front (X : list text) (t0 : tr) (e : bool) (yl : list text) : Prop :=
  e = false -> forall p, peek t0 = Some p -> ~ In (c_text p) (X ++ yl).

Lemma uq_front_incl X X' t0 e yl : incl X X' -> uq_front X' t0 e yl -> uq_front X t0 e yl.
Proof.
  intros I H He p Hp G. apply (H He p Hp). rewrite in_app_iff in *. destruct G; auto.
Qed.

Lemma uniquify_front nx fuel yl : forall t e c r t' e' c',
  uniquify nx fuel yl t e c = (r, t', e', c') -> uq_front (texts c') t' e' yl.
Proof.
  unfold uq_front. induction fuel as [|f IH]; intros t e c r t' e' c'; cbn [uniquify].
  { intros [= <- <- <- <-]. discriminate. }
  destruct e; [intros [= <- <- <- <-]; discriminate|].
  destruct (peek t) as [p0|] eqn:Ep; [|intros [= <- <- <- <-]; congruence].
  destruct (find_text (c_text p0) c) as [k|] eqn:Ef.
  - destruct (nx t (rewrite_at k p0 c)) as [[r0 t1] c2]. apply IH.
  - destruct (has_text yl (c_text p0)) eqn:Eh.
    + destruct (nx t c) as [[r0 t1] c2]. apply IH.
    + intros [= <- <- <- <-] _ p Hp. assert (p = p0) by congruence. subst. rewrite in_app_iff.
      intros [G|G]; [now apply find_text_none in Ef|now apply has_text_notin in Eh].
Qed.

Lemma uniquify_next_front d fuel yl t c r t' e' c' :
  uniquify (next_d d) fuel yl t (exhausted t) c = (r, t', e', c') -> uq_front (texts c) t' e' yl.
Proof.
  intro E. rewrite <- (shown_texts _ _ (steps_shown _ (next_d_shown d) _ _ _ _ (proj1 (uniquify_spec _ _ _ _ _ _ _ _ _ E)))).
  exact (uniquify_front _ _ _ _ _ _ _ _ _ _ E).
Qed.

Lemma uq_next d t0 yl c :
  let yl' := match peek t0 with Some p => c_text p :: yl | None => yl end in
  exists t1 e1, r_tr (next_d (S d) (TUniquified t0 false yl) c) = TUniquified t1 e1 yl' /\
    uq_front (texts c) t1 e1 yl'.
Proof.
  cbn zeta. cbn [next_d].
  set (yl' := match peek t0 with Some p => c_text p :: yl | None => yl end).
  pose proof (shown_texts _ _ (next_d_shown d t0 c)) as S0.
  destruct (next_d d t0 c) as [[r0 t0'] c'']. cbn [r_cache snd] in S0. rewrite <- S0.
  destruct (uniquify (next_d d) (S (rem t0')) yl' t0' (exhausted t0') c'') as [[[r1 t1] e1] c1'] eqn:E.
  exists t1, e1. split; [reflexivity|exact (uniquify_next_front _ _ _ _ _ _ _ _ _ E)].
Qed.

Lemma mk_uniquified_front d t c :
  exists t1 e1, fst (mk_uniquified d t c) = TUniquified t1 e1 [] /\ uq_front (texts c) t1 e1 [].
Proof.
  unfold mk_uniquified. destruct (uniquify (next_d d) (S (rem t)) [] t (exhausted t) c) as [[[r t'] e'] c'] eqn:E.
  exists t', e'. split; [reflexivity|exact (uniquify_next_front _ _ _ _ _ _ _ _ _ E)].
Qed.

Lemma next_prefetch_nil d t c :
  next_d (S d) (TPrefetch t [] false) c =
  (true, TPrefetch (r_tr (next_d d t c)) [] (exhausted (r_tr (next_d d t c))), r_cache (next_d d t c)).
Proof. cbn [next_d]. destruct (next_d d t c) as [[r0 t'] c']. reflexivity. Qed.

(** [stack n t]: [n - 1] prefetching / charset wrappers over a uniquifier, each wrapper's flag
    consistent with what is below it (what [wf] asks of these wrappers; nothing is asked of the
    translation under the uniquifier). *)
Inductive stack : nat -> tr -> Prop :=
| st_base t0 e yl : stack 1 (TUniquified t0 e yl)
| st_pre n t q ex : stack n t -> ex || negb (is_nil q) || negb (exhausted t) = true -> stack (S n) (TPrefetch t q ex)
| st_chr n t ex : stack n t -> ex || negb (exhausted t) = true -> stack (S n) (TCharset t ex).

Fixpoint held (t : tr) : list cand :=
  match t with TPrefetch t0 q _ => q ++ held t0 | TCharset t0 _ => held t0 | _ => [] end.
Fixpoint yielded (t : tr) : list text :=
  match t with TPrefetch t0 _ _ | TCharset t0 _ => yielded t0 | TUniquified _ _ yl => yl | _ => [] end.
Fixpoint front_new (X : list text) (t : tr) : Prop :=
  match t with
  | TPrefetch t0 _ _ | TCharset t0 _ => front_new X t0
  | TUniquified t0 e yl => uq_front X t0 e yl
  | _ => True
  end.

Lemma stack_height n t : stack n t -> n <= height t.
Proof. induction 1; cbn [height]; lia. Qed.

Lemma stack_pos n t : stack n t -> 0 < n.
Proof. induction 1; lia. Qed.

Lemma stack_peek n X t p : stack n t -> front_new X t -> peek t = Some p ->
  In p (held t) \/ ~ In (c_text p) (X ++ yielded t).
Proof.
  induction 1 as [t0 e yl|n t q ex S IH|n t ex S IH]; cbn [peek front_new held yielded]; intros Hf Hp.
  - destruct e; [discriminate|]. right. now apply Hf.
  - destruct ex; [discriminate|]. destruct q as [|x q'].
    + destruct (IH Hf Hp) as [G|G]; [left; exact G|now right].
    + injection Hp as ->. left. now left.
  - exact (IH Hf Hp).
Qed.

Definition continues (n : nat) (C : list text) (t t' : tr) : Prop :=
  stack n t' /\ subseq (texts (held t')) (texts (held t)) /\ incl (yielded t) (yielded t') /\
  forall X, incl X C -> front_new X t -> front_new X t'.

Lemma continues_refl n C t : stack n t -> continues n C t t.
Proof. intro S. split; [exact S|]. split; [apply subseq_refl|]. split; [apply incl_refl|auto]. Qed.

Lemma continues_trans n C t1 t2 t3 : continues n C t1 t2 -> continues n C t2 t3 -> continues n C t1 t3.
Proof.
  intros [_ [Q1 [L1 F1]]] [S2 [Q2 [L2 F2]]]. split; [exact S2|].
  split; [eapply subseq_trans; eauto|]. split; [eapply incl_tran; eauto|auto].
Qed.

Definition taken (t t' : tr) : Prop :=
  exhausted t = false -> NoDup (texts (held t)) -> forall p, peek t = Some p ->
  (In (c_text p) (texts (held t)) -> ~ In (c_text p) (texts (held t'))) /\
  (~ In (c_text p) (texts (held t)) -> In (c_text p) (yielded t')).

Lemma taken_continues n C t t1 t2 : taken t t1 -> continues n C t1 t2 -> taken t t2.
Proof.
  intros T [_ [Q [L _]]] E Hnd p Hp. destruct (T E Hnd p Hp) as [A B]. split.
  - intros G F. apply (A G). eapply subseq_In; eauto.
  - intro G. apply L. auto.
Qed.

Definition step_ok (n : nat) (nx : tr -> cache -> bool * tr * cache) : Prop :=
  forall t c, stack n t -> continues n (texts c) t (r_tr (nx t c)) /\ taken t (r_tr (nx t c)).

Lemma steps_stack n nx : step_ok n nx -> nx_shown nx ->
  forall t c t' c', steps nx t c t' c' -> stack n t -> continues n (texts c) t t'.
Proof.
  intros Hok Hsh t c t' c'. induction 1 as [|t c t' c' _ IH|k p t c t' c' _ IH]; intro S.
  - now apply continues_refl.
  - destruct (Hok t c S) as [C1 _]. apply (continues_trans _ _ _ _ _ C1).
    rewrite <- (shown_texts _ _ (Hsh t c)). apply IH, C1.
  - rewrite <- (shown_texts _ _ (rewrite_at_shown k p c)). now apply IH.
Qed.

Lemma step_ok_next_d : forall d n, n <= d -> step_ok n (next_d d).
Proof.
  induction d as [|d IH]; intros n Hn t c St.
  { pose proof (stack_pos _ _ St). lia. }
  assert (Same : exhausted t = true -> continues n (texts c) t t /\ taken t t).
  { intro E. split; [now apply continues_refl|]. intro E'. congruence. }
  destruct St as [t0 e yl|n t q ex St Hq|n t ex St Hq].
  - (* the uniquifier itself *)
    destruct e; [exact (Same eq_refl)|]. clear Same.
    destruct (uq_next d t0 yl c) as [t1 [e1 [E1 E3]]]. rewrite E1.
    split; [split; [constructor|split; [constructor|split]]|].
    + cbn [yielded]. destruct (peek t0); [apply incl_tl|]; apply incl_refl.
    + intros X HX _. exact (uq_front_incl _ _ _ _ _ HX E3).
    + intros _ _ p Hp. cbn [peek] in Hp. cbn [held texts map yielded]. split; [intros []|].
      intros _. rewrite Hp. now left.
  - (* a prefetching wrapper *)
    assert (Hn' : n <= d) by lia. specialize (IH n Hn'). destruct ex; [exact (Same eq_refl)|]. clear Same.
    destruct q as [|x q'].
    + rewrite next_prefetch_nil. cbn [r_tr fst snd]. destruct (IH t c St) as [[S1 C1] T1].
      cbn [orb is_nil negb] in Hq. apply negb_true_iff in Hq.
      split; [split; [|exact C1]|exact (fun _ => T1 Hq)].
      constructor; [exact S1|]. destruct (exhausted (r_tr _)); reflexivity.
    + cbn [next_d r_tr fst snd]. split; [split; [|split; [|split]]|].
      * constructor; [exact St|]. destruct q'; destruct (exhausted t); reflexivity.
      * cbn [held app texts map]. apply ss_skip, subseq_refl.
      * apply incl_refl.
      * auto.
      * intros _ Hnd p Hp. cbn [peek] in Hp. injection Hp as <-. cbn [held app texts map] in *.
        inversion Hnd; subst. split; [auto|]. intro G. exfalso. apply G. now left.
  - (* the charset filter *)
    assert (Hn' : n <= d) by lia. specialize (IH n Hn'). destruct ex; [exact (Same eq_refl)|]. clear Same.
    cbn [orb] in Hq. apply negb_true_iff in Hq. cbn [next_d].
    destruct (IH t c St) as [C1 T1]. pose proof (next_d_shown d t c) as Hs.
    destruct (next_d d t c) as [[r0 t''] c']. cbn [r_tr r_cache fst snd] in *.
    destruct (negb r0).
    + cbn [r_tr fst snd]. split; [|exact (fun _ => T1 Hq)].
      destruct C1 as [S1 C1]. split; [constructor; [exact S1|reflexivity]|exact C1].
    + destruct (locate _ _ _ _) as [[found t3] c3] eqn:E. apply locate_spec in E as [C2 L].
      apply (steps_stack n _ IH (next_d_shown d)) in C2; [|exact (proj1 C1)].
      rewrite (shown_texts _ _ Hs) in C2. cbn [r_tr fst snd] in *.
      split; [|exact (fun _ => taken_continues _ _ _ _ _ T1 C2 Hq)].
      destruct (continues_trans _ _ _ _ _ C1 C2) as [S3 C3]. split; [|exact C3].
      constructor; [exact S3|]. destruct found; [now rewrite L|reflexivity].
Qed.

(** [F]: the texts that are in the menu's cache, or on their way into it *)
Definition holds (n : nat) (X F : list text) (t : tr) : Prop :=
  stack n t /\ front_new X t /\ distinct_in (X ++ yielded t) (F ++ texts (held t)).

Lemma holds_perm n X F F' t : Permutation F F' -> holds n X F t -> holds n X F' t.
Proof.
  intros P [S [Hf D]]. split; [exact S|]. split; [exact Hf|].
  eapply distinct_in_perm; [|exact D]. now apply Permutation_app_tail.
Qed.

Lemma holds_continues n C X F t t' : continues n C t t' -> incl X C -> holds n X F t -> holds n X F t'.
Proof.
  intros [S1 [Q [L F1]]] HX [_ [Hf D]]. split; [exact S1|]. split; [now apply F1|].
  eapply distinct_in_weaken; [| |exact D].
  - apply subseq_app; [apply subseq_refl|exact Q].
  - apply incl_app_app; [apply incl_refl|exact L].
Qed.

Lemma consume n C X F t t' p :
  continues n C t t' -> taken t t' -> incl X C -> holds n X F t -> exhausted t = false -> peek t = Some p ->
  holds n X (c_text p :: F) t'.
Proof.
  intros Cn T HX H He Hp. destruct (holds_continues _ _ _ _ _ _ Cn HX H) as [S1 [F1 [Hnd1 Hin1]]].
  destruct Cn as [_ [Q1 [L1 _]]]. destruct H as [S [Hf [Hnd Hin]]].
  assert (Hndh : NoDup (texts (held t))).
  { eapply subseq_NoDup; [|exact Hnd]. apply (subseq_app [] F); [apply subseq_nil|apply subseq_refl]. }
  destruct (T He Hndh p Hp) as [A B].
  split; [exact S1|]. split; [exact F1|]. cbn [app].
  destruct (in_dec (list_eq_dec N.eq_dec) (c_text p) (texts (held t))) as [i|ni].
  - (* a held candidate *)
    split; [constructor; [|exact Hnd1]|].
    + rewrite in_app_iff. intros [G|G]; [exact (NoDup_app_disjoint _ _ _ Hnd G i)|exact (A i G)].
    + intros x [<-|Hx]; [|auto]. rewrite in_app_iff.
      destruct (in_app_or _ _ _ (Hin _ (in_or_app F _ _ (or_intror i)))); auto.
  - (* the uniquifier's own *)
    destruct (stack_peek n X t p S Hf Hp) as [Hq|Hq]; [apply (in_map c_text) in Hq; contradiction|].
    split; [constructor; [|exact Hnd1]|].
    + intro G. apply Hq, Hin. revert G. apply subseq_In, subseq_app; [apply subseq_refl|exact Q1].
    + intros x [<-|Hx]; [|auto]. rewrite in_app_iff. right. now apply B.
Qed.

Definition us_stack (m : menu) : Prop :=
  exists n X, incl X (texts (m_cache m)) /\ holds n X (texts (m_cache m)) (m_res m).

Lemma us_stack_fetch m : us_stack m -> exhausted (m_res m) = false -> us_stack (fetch m).
Proof.
  intros [n [X [HX H]]] E. unfold fetch, next. cbn zeta.
  match goal with |- context [next_d _ _ ?c] => set (c1 := c) end.
  destruct (step_ok_next_d (height (m_res m)) n (stack_height _ _ (proj1 H)) (m_res m) c1 (proj1 H)) as [Cn T].
  pose proof (shown_texts _ _ (next_d_shown (height (m_res m)) (m_res m) c1)) as Hs.
  destruct (next_d (height (m_res m)) (m_res m) c1) as [[r0 t'] c2]. cbn [r_tr r_cache fst snd] in *.
  assert (HX1 : incl X (texts c1)).
  { subst c1. destruct (peek _); [rewrite texts_app; apply incl_appl|]; exact HX. }
  exists n, X. cbn [m_res m_cache]. rewrite Hs. split; [exact HX1|].
  subst c1. destruct (peek (m_res m)) as [p|] eqn:Ep.
  - rewrite texts_app. apply (holds_perm _ _ _ _ _ (Permutation_cons_append _ _)).
    exact (consume _ _ _ _ _ _ _ Cn T HX1 H E Ep).
  - (* a round without a candidate *) exact (holds_continues _ _ _ _ _ _ Cn HX1 H).
Qed.

Lemma drain_stack m : us_stack m -> NoDup (texts (full_list m)).
Proof.
  intro I. destruct (full_list_fetched m) as [t H].
  assert (G : us_stack (mkMenu t (full_list m))).
  { revert I. induction H as [|m m' E _ IH]; [trivial|]. intro I. apply IH. now apply us_stack_fetch. }
  destruct G as [n [X [_ [_ [_ [G _]]]]]]. exact (NoDup_app_l _ _ G).
Qed.

Lemma us_stack_uniq m : NoDup (texts (m_cache m)) -> us_stack (add_filter m FUniquifier).
Proof.
  intro Hn. pose proof (shown_texts _ _ (add_filter_shown m FUniquifier)) as Hc. unfold add_filter in *.
  destruct (mk_uniquified_front (height (m_res m)) (m_res m) (m_cache m)) as [t1 [e1 [E1 E3]]].
  destruct (mk_uniquified (height (m_res m)) (m_res m) (m_cache m)) as [tu cu]. cbn [fst m_res m_cache] in *. subst tu.
  exists 1, (texts (m_cache m)). cbn [m_res m_cache]. rewrite Hc. split; [apply incl_refl|].
  split; [constructor|]. split; [exact E3|]. cbn [held yielded texts map]. rewrite !app_nil_r.
  split; [exact Hn|apply incl_refl].
Qed.

Lemma perm_top {A} (c top bottom : list A) x : Permutation (x :: c ++ top ++ bottom) (c ++ (top ++ [x]) ++ bottom).
Proof. rewrite <- (app_assoc top), !(app_assoc c top). apply Permutation_middle. Qed.

Lemma perm_bot {A} (c top bottom : list A) x : Permutation (x :: c ++ top ++ bottom) (c ++ top ++ bottom ++ [x]).
Proof. rewrite !app_assoc. apply Permutation_cons_append. Qed.

Lemma rearrange_stack n nx X : step_ok n nx -> nx_shown nx ->
  forall fuel t top bottom c t' q c',
  incl X (texts c) -> holds n X (texts c ++ texts top ++ texts bottom) t ->
  rearrange nx fuel t top bottom c = (t', q, c') -> holds n X (texts c ++ texts q) t'.
Proof.
  intros Hok Hsh. induction fuel as [|f IH]; intros t top bottom c t' q c' HX H; cbn [rearrange].
  - intros [= <- <- <-]. now rewrite texts_app.
  - assert (Done : (t, top ++ bottom, c) = (t', q, c') -> holds n X (texts c ++ texts q) t').
    { intros [= <- <- <-]. now rewrite texts_app. }
    destruct (exhausted t) eqn:E; [exact Done|].
    destruct (peek t) as [p|] eqn:Ep; [|exact Done].
    destruct (negb (is_table_phrase p)); [exact Done|]. clear Done.
    destruct (Hok t c (proj1 H)) as [Cn T]. pose proof (consume _ _ _ _ _ _ _ Cn T HX H E Ep) as H1.
    pose proof (shown_texts _ _ (Hsh t c)) as Ec.
    destruct (nx t c) as [[r0 t1] c1]. cbn [r_tr r_cache fst snd] in *.
    destruct (is_single_char p); rewrite <- Ec; apply IH; rewrite ?Ec; try exact HX; rewrite texts_app.
    + exact (holds_perm _ _ _ _ _ (perm_top _ _ _ _) H1).
    + exact (holds_perm _ _ _ _ _ (perm_bot _ _ _ _) H1).
Qed.

Lemma us_stack_single m : us_stack m -> us_stack (add_filter m FSingleChar).
Proof.
  rewrite add_filter_single. destruct m as [t c]. intros [n [X [HX H]]]. cbn [m_res m_cache] in *.
  unfold mk_single_char. destruct (exhausted t) eqn:E.
  - exists (S n), X. split; [exact HX|]. destruct H as [S H]. split; [now constructor|exact H].
  - set (d := height t).
    pose proof (step_ok_next_d d n (stack_height _ _ (proj1 H))) as Hok.
    destruct (rearrange _ _ _ _ _ _) as [[t' q] c'] eqn:R.
    destruct (rearrange_spec _ _ _ _ _ _ _ _ _ R) as [Ec L].
    apply (steps_shown _ (next_d_shown d)), shown_texts in Ec. specialize (L (or_intror E)).
    apply (rearrange_stack n _ X Hok (next_d_shown d)) in R as [S1 [F1 D1]];
      [|exact HX|cbn [texts map app]; now rewrite app_nil_r].
    exists (S n), X. cbn [fst snd m_res m_cache]. rewrite Ec. split; [exact HX|].
    split; [constructor; [exact S1|]|]. { cbn [orb]. destruct L as [-> | ->]; [reflexivity|apply orb_true_r]. }
    split; [exact F1|]. cbn [held yielded]. now rewrite texts_app, app_assoc.
Qed.

Lemma us_stack_charset m : us_stack m -> us_stack (add_filter m FCharset).
Proof.
  rewrite add_filter_charset. destruct m as [t c]. intros [n [X [HX H]]]. cbn [m_res m_cache] in *.
  unfold mk_charset. set (d := height t).
  pose proof (step_ok_next_d d n (stack_height _ _ (proj1 H))) as Hok.
  destruct (locate _ _ _ _) as [[found t'] c'] eqn:E. apply locate_spec in E as [St L]. cbn [fst snd] in *.
  pose proof (steps_stack n _ Hok (next_d_shown d) _ _ _ _ St (proj1 H)) as Cn.
  destruct (holds_continues _ _ _ _ _ _ Cn HX H) as [S1 H1].
  exists (S n), X. cbn [m_res m_cache].
  rewrite (shown_texts _ _ (steps_shown _ (next_d_shown d) _ _ _ _ St)). split; [exact HX|].
  split; [|exact H1]. constructor; [exact S1|]. destruct found; [now rewrite L|reflexivity].
Qed.

Definition no_new_text (f : filt) : Prop := match f with FSimplifier _ => False | _ => True end.
Definition holds_back (f : filt) : Prop := f = FSingleChar \/ f = FCharset.

Lemma us_stack_fold fs : Forall holds_back fs -> forall m, us_stack m -> us_stack (fold_left add_filter fs m).
Proof.
  induction 1 as [|f fs Hf _ IH]; intros m I; [exact I|]. cbn [fold_left]. apply IH.
  destruct Hf as [->| ->]; [now apply us_stack_single|now apply us_stack_charset].
Qed.

Lemma split_last_uniq fs2 : Forall no_new_text fs2 ->
  exists g1 g2, FUniquifier :: fs2 = g1 ++ FUniquifier :: g2 /\ Forall holds_back g2.
Proof.
  induction fs2 as [|f fs IH] using rev_ind; intro H.
  - exists [], []. split; [reflexivity|constructor].
  - apply Forall_app in H. destruct H as [H1 H2]. inversion H2 as [|? ? Hf _]; subst.
    assert (Hb : f = FUniquifier \/ holds_back f).
    { destruct f; [now left|right; now left|right; now right|destruct Hf]. }
    destruct Hb as [->|Hb].
    + exists (FUniquifier :: fs), []. split; [now rewrite app_comm_cons|constructor].
    + destruct (IH H1) as [g1 [g2 [E G]]]. exists g1, (g2 ++ [f]). split.
      * rewrite app_comm_cons, E, <- app_assoc. reflexivity.
      * apply Forall_app. split; [exact G|]. constructor; [exact Hb|constructor].
Qed.

(** a menu whose cache shows no text twice is given a uniquifier and then any
    filters that create no new texts *)
Theorem uniq_anywhere_menu m fs2 :
  NoDup (texts (m_cache m)) -> Forall no_new_text fs2 ->
  NoDup (texts (full_list (fold_left add_filter (FUniquifier :: fs2) m))).
Proof.
  intros Hn Hfs. destruct (split_last_uniq fs2 Hfs) as [g1 [g2 [-> G]]].
  rewrite fold_left_app. cbn [fold_left]. apply drain_stack, us_stack_fold, us_stack_uniq; [exact G|].
  now rewrite (shown_texts _ _ (fold_add_filter_shown g1 m)).
Qed.

(** ... in particular the menus built from nothing: any translations, any filters before the uniquifier *)
Theorem uniq_anywhere_build ts fs1 fs2 :
  Forall no_new_text fs2 -> NoDup (texts (full_list (build_menu ts (fs1 ++ FUniquifier :: fs2)))).
Proof.
  intro Hfs. unfold build_menu. rewrite fold_left_app. apply uniq_anywhere_menu; [|exact Hfs].
  fold (build_menu ts fs1). rewrite build_menu_cache. constructor.
Qed.

Theorem uniq_anywhere ts fs1 fs2 :
  forallb wf ts = true -> Forall no_new_text fs2 ->
  NoDup (texts (full_list (build_menu ts (fs1 ++ FUniquifier :: fs2)))).
Proof. intros _. apply uniq_anywhere_build. Qed.

(** the condition is needed: a filter after the uniquifier that creates texts *)
Definition refute_specs : list spec := [SpFifo [mkCand [0x4E01%N] 1 0 0 1 3 0; mkCand [0x4E00%N] 2 0 0 1 2 0]].

Lemma uniq_before_simplifier_dup :
  texts (full_list (menu_of refute_specs [FUniquifier; FSimplifier (dict_conv dict_a)])) = [[0x4E00%N]; [0x4E00%N]].
Proof. vm_compute. reflexivity. Qed.

Lemma uniq_before_simplifier_refuted :
  exists specs conv, ~ NoDup (texts (full_list (menu_of specs [FUniquifier; FSimplifier conv]))).
Proof.
  exists refute_specs, (dict_conv dict_a). rewrite uniq_before_simplifier_dup. intro H.
  inversion H as [|? ? Hin _]; subst. apply Hin. now left.
Qed.
