(** C07 - candidates for an input are exactly the dictionary entries that its code spells.

    Model: coq/Lookup/Model.v (Table::Query, match_extra_code, lookup_table, compare_chunk_by_head_element,
    DictEntryIterator, Dictionary::LookupWords, ScriptTranslation, TableTranslation, LazyTableTranslation,
    SentenceTranslation, DistinctTranslation).  The syllable graph, the table index and the prism are inputs
    ([wf_graph], [graph_pruned], [wf_table], [table_sorted] state what C08 / C06 guarantee of them); Poet is an
    oracle of which only the type of its answer is assumed, until the last part puts it inside the model.  All
    statements are for every graph, table, prism and input: no bound on sizes. *)
From Coq Require Import List Arith ZArith NArith Bool Sorted Permutation.
From Coq.Strings Require Import Byte.
From RimeV Require Import Lookup.Defs Lookup.Model Lookup.Spec Lookup.MapProofs Lookup.QueryProofs Lookup.IterProofs
     Lookup.LookupProofs Lookup.ScriptProofs Lookup.TableProofs Lookup.Examples Lookup.Compose Lookup.WeightProofs Lookup.LazyProofs Lookup.ComposeTable Lookup.ComposePrism Lookup.ComposeAll Lookup.Poet Lookup.PoetProofs Lookup.PoetCompose.
Import ListNotations.

(** * Table::Query returns, at every end position, exactly the index codes that label a path of the graph *)
Theorem C07_query_sound_complete : forall g t start e a,
  wf_graph g -> start < g_ilen g ->
  (In (e, a) (query g t start) <-> short_result g t start e a \/ long_result g t start e a).
Proof. exact query_sound_complete. Qed.
Print Assumptions C07_query_sound_complete.

Theorem C07_query_short_codes : forall g t start c e,
  wf_graph g -> wf_table t -> start < g_ilen g -> 1 <= length c <= 3 -> node_ents t c <> [] ->
  ((exists cred, In (e, AccShort c (node_ents t c) cred) (query g t start)) <-> gpath g start c e).
Proof. exact query_short_codes. Qed.
Print Assumptions C07_query_short_codes.

Theorem C07_query_tail_pages : forall g t start ic e,
  wf_graph g -> wf_table t -> start < g_ilen g -> node_tail t ic <> [] ->
  ((exists cred, In (e, AccLong ic (node_tail t ic) cred) (query g t start)) <->
   gpath g start ic e /\ e < g_ilen g /\ exists index, In (e, index) (g_indices g)).
Proof. exact query_tail_pages. Qed.
Print Assumptions C07_query_tail_pages.

(** * lookup_table + match_extra_code: the collector holds, under end position [e], exactly the table entries whose
    code is spelled start -> e (codes longer than 3 syllables at the farthest end their extra code reaches) *)
Theorem C07_collector_exact : forall g t start e c te,
  wf_graph g -> wf_table t -> start < g_ilen g ->
  ((exists ch, In (e, ch) (lookup_chunks g t start false) /\ c_code ch = c /\ In te (c_ents ch)) <->
   table_has t c te /\ spelled g c start e).
Proof. exact collector_exact. Qed.
Print Assumptions C07_collector_exact.

(** * DictEntryIterator: every entry exactly once, best head first *)
Theorem C07_iterator_yields_every_entry_once : forall it,
  Forall nonempty it -> Permutation (drain_all it) (all_entries it).
Proof. exact drain_all_perm. Qed.
Print Assumptions C07_iterator_yields_every_entry_once.

Theorem C07_iterator_best_head_first : forall it,
  Forall chunk_ok it -> StronglySorted dle (drain_all (sort_head it)).
Proof. exact drain_all_sorted. Qed.
Print Assumptions C07_iterator_best_head_first.

(** * script translator: the phrase candidates are exactly the spelled entries *)
Theorem C07_script_candidates_exact : forall g t e c txt,
  wf_graph g -> wf_table t -> 0 < g_ilen g ->
  (In (mkCand TPhrase 0 e txt c) (script_phrases (lookup g t 0 false)) <->
   (exists w, table_has t c (mkTE txt w) /\ spelled g c 0 e)).
Proof. exact script_candidates_exact. Qed.
Print Assumptions C07_script_candidates_exact.

Theorem C07_candidates_on_complete_segmentation : forall g c e,
  graph_pruned g -> c <> [] -> gpath g 0 c e -> on_complete_segmentation g e.
Proof. exact spelled_on_complete_segmentation. Qed.
Print Assumptions C07_candidates_on_complete_segmentation.

(** longer matches come before shorter ones *)
Theorem C07_script_longer_first : forall g t start predict,
  wf_graph g -> table_sorted t ->
  StronglySorted (fun a b => k_end b <= k_end a) (script_phrases (lookup g t start predict)).
Proof. exact script_longer_first. Qed.
Print Assumptions C07_script_longer_first.

(** the order the code implements: end positions descending, then exact before predictive, then weight +
    credibility non-increasing *)
Theorem C07_script_best_head_first : forall g t start predict,
  wf_graph g -> table_sorted t ->
  StronglySorted pe_le (script_phrase_entries (lookup g t start predict)).
Proof. exact script_phrase_entries_sorted. Qed.
Print Assumptions C07_script_best_head_first.

(** the property's wording: entries with the same code appear in non-increasing (dictionary) weight order.
    In the form the code implements (weight PLUS the credibility of the path the chunk was reached over): *)
Theorem C07_same_end_weight_plus_credibility_order : forall g t start predict l1 a l2 b l3,
  wf_graph g -> table_sorted t ->
  script_phrase_entries (lookup g t start predict) = l1 ++ a :: l2 ++ b :: l3 ->
  fst a = fst b -> (d_match (snd a) =? 0) = (d_match (snd b) =? 0) ->
  (d_w (snd b) <= d_w (snd a))%Z.
Proof. exact script_same_end_weight_order. Qed.
Print Assumptions C07_same_end_weight_plus_credibility_order.

(** for the pure dictionary weight the statement is FALSE of the undeduplicated stream: two chunks of one code
    reached over paths of different credibility are merged by weight + credibility (witness: A 5, B 3 under one code
    reached with credibilities 0 and -10: A, B, A, B).  The undeduplicated stream is not observable - the
    translator wraps it in DistinctTranslation - and the property speaks of the candidate list: *)
Theorem C07_raw_stream_weight_order_refuted : ~ raw_stream_weight_order.
Proof. exact raw_stream_weight_order_refuted. Qed.
Print Assumptions C07_raw_stream_weight_order_refuted.

(** ... in the candidate list (after DistinctTranslation, for every set of texts already shown) two entries of one
    code, one end position and one exactness class appear in non-increasing DICTIONARY weight order: FULL. *)
Theorem C07_same_code_weight_order : forall g t predict seen l1 a l2 b l3 ca ta cb tb,
  wf_graph g -> wf_table t -> table_sorted t -> 0 < g_ilen g ->
  distinct_pe seen (script_phrase_entries (lookup g t 0 predict)) = l1 ++ a :: l2 ++ b :: l3 ->
  fst a = fst b ->
  In (fst a, ca) (lookup_chunks g t 0 predict) -> In ta (c_ents ca) -> snd a = mk_dentry ca ta ->
  In (fst b, cb) (lookup_chunks g t 0 predict) -> In tb (c_ents cb) -> snd b = mk_dentry cb tb ->
  c_code ca = c_code cb -> (c_match ca <? length (c_code ca)) = (c_match cb <? length (c_code cb)) ->
  (te_w tb <= te_w ta)%Z.
Proof. exact script_distinct_same_code_weight_order. Qed.
Print Assumptions C07_same_code_weight_order.

(** ... and without the restriction to one end position and one exactness class - the property's wording as it
    stands: in the candidate list any two entries of one code appear in non-increasing dictionary weight order. *)
Theorem C07_same_code_weight_order_any_end : forall g t predict seen l1 a l2 b l3 ca ta cb tb,
  wf_graph g -> wf_table t -> table_sorted t -> 0 < g_ilen g ->
  distinct_pe seen (script_phrase_entries (lookup g t 0 predict)) = l1 ++ a :: l2 ++ b :: l3 ->
  In (fst a, ca) (lookup_chunks g t 0 predict) -> In ta (c_ents ca) -> snd a = mk_dentry ca ta ->
  In (fst b, cb) (lookup_chunks g t 0 predict) -> In tb (c_ents cb) -> snd b = mk_dentry cb tb ->
  c_code ca = c_code cb ->
  (te_w tb <= te_w ta)%Z.
Proof. exact script_distinct_same_code_weight_order_full. Qed.
Print Assumptions C07_same_code_weight_order_any_end.

(** the candidate list of ScriptTranslator::Query is the sentence (if any) followed by that deduplicated stream *)
Theorem C07_script_query_shape : forall (poet : wgraph -> nat -> option sentence) wordcompl mh g t,
  let predict := wordcompl && (g_ilen g =? g_input_len g) in
  exists sent seen, (sent = [] \/ exists s, sent = [sentence_cand s]) /\
    script_query poet wordcompl mh g t =
    sent ++ map phrase_cand (distinct_pe seen (script_phrase_entries (lookup g t 0 predict))).
Proof. exact script_query_shape. Qed.
Print Assumptions C07_script_query_shape.

(** * the sentence is a concatenation of spelled entries covering the interpreted input (Poet: oracle) *)
Theorem C07_sentence_is_concatenation : forall (poet : wgraph -> nat -> option sentence),
  (forall wg total s, poet wg total = Some s -> wg_path_ok wg 0 total s = true) ->
  forall g t mh s, wf_graph g -> wf_table t ->
  poet (script_wgraph g t mh) (g_ilen g) = Some s -> chain g t 0 (g_ilen g) s.
Proof. exact sentence_is_concatenation. Qed.
Print Assumptions C07_sentence_is_concatenation.

(** * nothing foreign; every spelled entry is there *)
Theorem C07_script_no_foreign_candidate : forall (poet : wgraph -> nat -> option sentence),
  (forall wg total s, poet wg total = Some s -> wg_path_ok wg 0 total s = true) ->
  forall wordcompl mh g t c, wf_graph g -> wf_table t ->
  In c (script_query poet wordcompl mh g t) ->
  phrase_ok g t c \/ completion_ok g t wordcompl c \/ sentence_ok g t c.
Proof. exact script_no_foreign_candidate. Qed.
Print Assumptions C07_script_no_foreign_candidate.

Theorem C07_script_contains_every_entry : forall (poet : wgraph -> nat -> option sentence) wordcompl mh g t c te e,
  wf_graph g -> wf_table t -> 0 < g_ilen g ->
  table_has t c te -> gpath g 0 c e ->
  exists k, In k (script_query poet wordcompl mh g t) /\ k_text k = te_text te.
Proof. exact script_contains_every_entry. Qed.
Print Assumptions C07_script_contains_every_entry.

Theorem C07_distinct_keeps_first_occurrences : forall l c,
  In c l -> exists c', In c' (distinct [] l) /\ k_text c' = k_text c.
Proof. exact distinct_complete. Qed.
Print Assumptions C07_distinct_keeps_first_occurrences.

(** * table translator *)
(** entries whose code equals the input: all of them, in non-increasing weight order (after the repair 3b72e76) *)
Theorem C07_table_exact_weight_order : forall pr syls t code,
  table_sorted t ->
  StronglySorted (fun a b => (d_w b <= d_w a)%Z) (table_entries true false pr syls t code) /\
  Permutation (table_entries true false pr syls t code) (all_entries (plain_chunks pr syls t code)).
Proof. exact table_exact_weight_order. Qed.
Print Assumptions C07_table_exact_weight_order.

(** before the repair the statement is false of the faithful model: the witness (a key spelling two syllables) is
    replayed on the real code by the check's algebra schemas *)
Theorem C07_table_exact_weight_order_unsorted_refuted :
  exists pr syls t code, table_sorted t /\
    ~ StronglySorted (fun a b => (d_w b <= d_w a)%Z) (table_entries false false pr syls t code).
Proof. exact table_exact_weight_order_unsorted_refuted. Qed.
Print Assumptions C07_table_exact_weight_order_unsorted_refuted.

(** no completion candidate when completion is disabled: only entries of syllables the input itself spells *)
Theorem C07_table_no_completion_when_disabled : forall presort pr syls t code d,
  In d (table_entries presort false pr syls t code) ->
  d_remlen d = 0 /\ exists sps sid, In (code, sps) pr /\ In (sid, 0) sps /\ d_code d = [sid] /\
                               In (mkTE (d_text d) (d_w d)) (node_ents t [sid]).
Proof. exact table_no_completion_when_disabled. Qed.
Print Assumptions C07_table_no_completion_when_disabled.

(** with completion: whatever the number of fetches, every entry shown belongs to a key that extends the input *)
Theorem C07_table_completion_sound : forall presort pr syls t code d,
  In d (table_entries presort true pr syls t code) ->
  exists key sps sid, is_prefix code key = true /\ In (key, sps) pr /\ In (sid, 0) sps /\ d_code d = [sid] /\
                      In (mkTE (d_text d) (d_w d)) (node_ents t [sid]).
Proof. exact table_completion_candidates_sound. Qed.
Print Assumptions C07_table_completion_sound.

(** exact matches first in weight order, then completions, for ANY number of extending keys (the fetch-more protocol
    with limits 10, 100, 1000, ... and Skip): the chunks of the first ten keys (the key equal to the input is the
    first) are drained completely, best head first - no remaining code before remaining code, then weight
    non-increasing -, and everything shown afterwards is an entry of a chunk of a later key: FULL. *)
Theorem C07_table_exact_then_completion : forall pr syls t code,
  table_sorted t ->
  let b1 := B1 pr syls t code in
  let r := R pr syls t code in
  snd (lookup_words pr syls t code true 0) = b1 ++ r /\
  exists rest,
    table_entries true true pr syls t code = drain_all (sort_head b1) ++ rest /\
    Permutation (drain_all (sort_head b1)) (all_entries b1) /\
    StronglySorted dle (drain_all (sort_head b1)) /\
    forall d, In d rest -> exists c te, In c r /\ In te (c_ents c) /\ d = mk_dentry c te.
Proof. exact table_exact_then_completion. Qed.
Print Assumptions C07_table_exact_then_completion.

(** with fewer than 10 extending keys (one fetch) the whole list is one best-head-first merge of all chunks *)
Theorem C07_table_single_fetch_globally_sorted : forall pr syls t code,
  table_sorted t ->
  fst (lookup_words pr syls t code true 10) < 10 ->
  let chunks := snd (lookup_words pr syls t code true 0) in
  Permutation (table_entries true true pr syls t code) (all_entries chunks) /\
  StronglySorted dle (table_entries true true pr syls t code).
Proof. exact table_exact_then_completion_partial. Qed.
Print Assumptions C07_table_single_fetch_globally_sorted.

(** ... which is false of the faithful model beyond ten keys (a later fetch is drained after the earlier one; and a
    fetch that brings no new entry ends the translation).  The property asks for no order among completions nor
    for all of them, so this is not a violation; eleven-key witness, the eleventh key with the best weight. *)
Theorem C07_table_global_order_refuted : ~ global_order_full.
Proof. exact global_order_full_refuted. Qed.
Print Assumptions C07_table_global_order_refuted.

(** [dle] on table entries: no remaining code (code equals the input) first, by non-increasing weight *)
Theorem C07_table_order_meaning : forall a b,
  dle a b -> d_match a = 0 -> d_match b = 0 ->
  d_remlen a <= d_remlen b /\ (d_remlen a = d_remlen b -> (d_w b <= d_w a)%Z).
Proof. exact dle_table. Qed.
Print Assumptions C07_table_order_meaning.

(** sentence mode of the table translator: the prefix phrases come longest first *)
Theorem C07_prefix_phrases_longer_first : forall coll,
  StronglySorted (fun a b => k_end b <= k_end a) (prefix_phrases coll).
Proof. exact prefix_phrases_desc. Qed.
Print Assumptions C07_prefix_phrases_longer_first.

(** ... but they are NOT confined to prefixes on a complete segmentation (known finding, replayed on the real code) *)
Theorem C07_table_prefix_phrases_off_segmentation_witness :
  map (fun c => (k_end c, k_text c))
      (table_query (fun _ _ => Some f1_sentence) false true 1 f1_prism f1_syls f1_table [39%N] f1_input)
  = [(4, [68%N; 66%N]); (3, [68%N]); (2, [67%N]); (1, [66%N])] /\
  wg_path_ok (table_wgraph 1 f1_prism f1_syls f1_table [39%N] f1_input) 0 4 f1_sentence = true /\
  common_prefix f1_prism (skipn 1 f1_input) = [] /\ common_prefix f1_prism (skipn 2 f1_input) = [].
Proof. exact table_prefix_phrases_off_segmentation. Qed.
Print Assumptions C07_table_prefix_phrases_off_segmentation_witness.

(** * composition with C08 (Dict/Syll.v): the graph BuildSyllableGraph hands over meets the hypotheses made above,
    for every well-formed prism, delimiter set, flag combination and input ([cv] : any valuation of C08's symbolic
    credibilities) *)
Theorem C07_built_graph_wf : forall cv P delims comp strict inp g0,
  SS.prism_wf P delims -> Sy.build_syllable_graph P delims comp strict inp = Some g0 ->
  wf_graph (conv_graph cv g0).
Proof. exact built_graph_wf. Qed.
Print Assumptions C07_built_graph_wf.

Theorem C07_built_graph_pruned : forall cv P delims comp strict inp g0,
  SS.prism_wf P delims -> Sy.build_syllable_graph P delims comp strict inp = Some g0 ->
  graph_pruned (conv_graph cv g0).
Proof. exact built_graph_pruned. Qed.
Print Assumptions C07_built_graph_pruned.

(** paths of the converted graph are chains of C08's retained edges (each hop is then described by C08_edge_sound) *)
Theorem C07_paths_are_edge_chains : forall cv P delims comp strict inp g0,
  SS.prism_wf P delims -> Sy.build_syllable_graph P delims comp strict inp = Some g0 ->
  forall s c e, gpath (conv_graph cv g0) s c e <-> epath g0 s c e.
Proof. exact gpath_epath. Qed.
Print Assumptions C07_paths_are_edge_chains.

(** end to end over C08: for every prism, flags and input, the phrase candidates computed on the graph of
    BuildSyllableGraph are exactly the table entries whose code is spelled from 0, and each lies on a complete
    segmentation of the interpreted input *)
Theorem C07_script_candidates_exact_end_to_end : forall cv P delims comp strict inp g0,
  SS.prism_wf P delims -> Sy.build_syllable_graph P delims comp strict inp = Some g0 ->
  forall t e c txt, wf_table t -> 0 < Sy.g_interpreted_length g0 ->
  (In (mkCand TPhrase 0 e txt c) (script_phrases (lookup (conv_graph cv g0) t 0 false)) <->
   (exists w, table_has t c (mkTE txt w) /\ spelled (conv_graph cv g0) c 0 e)) /\
  (In (mkCand TPhrase 0 e txt c) (script_phrases (lookup (conv_graph cv g0) t 0 false)) ->
   epath g0 0 c e /\ on_complete_segmentation (conv_graph cv g0) e).
Proof. exact script_candidates_exact_over_built_graph. Qed.
Print Assumptions C07_script_candidates_exact_end_to_end.

(** ... and every table entry whose code is the syllable sequence of a prefix of a complete segmentation of the
    tilable prefix by normal spellings is among the candidates of the script translator *)
Theorem C07_script_contains_entries_on_normal_segmentations : forall cv P delims comp strict inp g0,
  SS.prism_wf P delims -> Sy.build_syllable_graph P delims comp strict inp = Some g0 ->
  forall (poet : wgraph -> nat -> option sentence) wordcompl mh t far l1 l2 te,
  wf_table t -> Sy.forward_farthest P delims strict inp = Some far ->
  SS.tiling P delims strict inp 0 far (l1 ++ l2) ->
  Forall (fun x : nat * nat * Sy.desc => Sy.d_type (snd x) = Sy.kNormalSpelling) (l1 ++ l2) -> l1 <> [] ->
  table_has t (map (fun x : nat * nat * Sy.desc => Sy.d_sid (snd x)) l1) te ->
  exists k, In k (script_query poet wordcompl mh (conv_graph cv g0) t) /\ k_text k = te_text te.
Proof. exact script_contains_entries_on_normal_segmentations. Qed.
Print Assumptions C07_script_contains_entries_on_normal_segmentations.

(** * composition with C06 (Dict/Vocab.v, Dict/TableIx.v): the index Table::Build produces meets the hypotheses made
    above - for every vocabulary C06 calls well-formed, hence for every source ([cast] : the double -> float cast of
    the log weight, [wz] : any valuation of the stored weight that is monotone through the cast) *)
Theorem C07_built_index_wf : forall F (cast : Vo.dec -> F) (wz : F -> Z) S v,
  TP.wf1 S v -> wf_table (conv_head F wz (Ix.build_head cast S v)).
Proof. exact built_index_wf. Qed.
Print Assumptions C07_built_index_wf.

Theorem C07_built_index_sorted : forall F (cast : Vo.dec -> F) (wz : F -> Z),
  (forall a b, Vo.dec_leb a b = true -> (wz (cast a) <= wz (cast b))%Z) ->
  forall S v, TP.sorted1 v -> table_sorted (conv_head F wz (Ix.build_head cast S v)).
Proof. exact built_index_sorted. Qed.
Print Assumptions C07_built_index_sorted.

Theorem C07_compiled_index_wf : forall F (cast : Vo.dec -> F) (wz : F -> Z) sort_original files,
  let c := Vo.collect_files files in
  wf_table (conv_head F wz (Ix.build_head cast (length (Vo.co_syll c)) (Vo.compile_vocab sort_original c))).
Proof. exact compiled_index_wf. Qed.
Print Assumptions C07_compiled_index_wf.

Theorem C07_compiled_index_sorted : forall F (cast : Vo.dec -> F) (wz : F -> Z),
  (forall a b, Vo.dec_leb a b = true -> (wz (cast a) <= wz (cast b))%Z) ->
  forall files, let c := Vo.collect_files files in
  table_sorted (conv_head F wz (Ix.build_head cast (length (Vo.co_syll c)) (Vo.compile_vocab false c))).
Proof. exact compiled_index_sorted. Qed.
Print Assumptions C07_compiled_index_sorted.

(** both sides together: for every source dictionary (C06's pipeline), every well-formed prism, delimiter set,
    flags and input (C08's builder), the script translator's phrase candidates are exactly the entries of the
    compiled index whose code labels a chain of retained edges from 0, each on a complete segmentation of the
    interpreted input.  (C06_enumerate_build identifies the entries of the index with the source rows.) *)
Theorem C07_script_candidates_exact_source_to_candidates :
  forall F (cast : Vo.dec -> F) (wz : F -> Z) sort_original files cv P delims comp strict inp g0,
  SS.prism_wf P delims -> Sy.build_syllable_graph P delims comp strict inp = Some g0 ->
  0 < Sy.g_interpreted_length g0 ->
  let c := Vo.collect_files files in
  let t := conv_head F wz (Ix.build_head cast (length (Vo.co_syll c)) (Vo.compile_vocab sort_original c)) in
  let g := conv_graph cv g0 in
  forall e code txt,
  (In (mkCand TPhrase 0 e txt code) (script_phrases (lookup g t 0 false)) <->
   (exists w, table_has t code (mkTE txt w) /\ spelled g code 0 e)) /\
  (In (mkCand TPhrase 0 e txt code) (script_phrases (lookup g t 0 false)) ->
   epath g0 0 code e /\ on_complete_segmentation g e).
Proof.
  intros F cast wz so files cv P delims comp strict inp g0 WF HB Hl c t g e code txt.
  apply (script_candidates_exact_over_built_graph cv P delims comp strict inp g0 WF HB t e code txt);
    [apply compiled_index_wf|exact Hl].
Qed.
Print Assumptions C07_script_candidates_exact_source_to_candidates.

(** the entries of the converted index are C06's enumeration, hence the collected source entries, hence the rows *)
Theorem C07_table_has_enumerate : forall F (cast : Vo.dec -> F) (wz : F -> Z) S v c te,
  TP.wf1 S v ->
  (table_has (conv_head F wz (Ix.build_head cast S v)) c te <->
   exists ie, In (c, ie) (Ix.enumerate S (Ix.build_head cast S v)) /\ te = conv_entry F wz ie).
Proof. exact table_has_enumerate. Qed.
Print Assumptions C07_table_has_enumerate.

Theorem C07_table_has_source_rows : forall F (cast : Vo.dec -> F) (wz : F -> Z) sort_original files c txt,
  let col := Vo.collect_files files in
  let t := conv_head F wz (Ix.build_head cast (length (Vo.co_syll col)) (Vo.compile_vocab sort_original col)) in
  (exists w, table_has t c (mkTE txt w)) <->
  c <> [] /\ exists tx cs ws, In (Vo.LRow tx cs ws) (TP.source_rows files) /\ cs <> [] /\
                              txt = conv_text tx /\ c = map (Vo.id_of (Vo.co_syll col)) (Vo.split_skip x20 cs).
Proof. exact table_has_rows. Qed.
Print Assumptions C07_table_has_source_rows.

(** end to end, in ONE statement about the rows of the source dictionary file: for every source, prism, delimiter set,
    flags and input the script translator's phrase candidates are exactly the rows whose code (syllables by rank in the
    collected syllabary) labels a chain of retained edges of BuildSyllableGraph's graph from 0 *)
Theorem C07_script_candidates_exact_source_rows :
  forall F (cast : Vo.dec -> F) (wz : F -> Z) sort_original files cv P delims comp strict inp g0,
  SS.prism_wf P delims -> Sy.build_syllable_graph P delims comp strict inp = Some g0 ->
  0 < Sy.g_interpreted_length g0 ->
  let col := Vo.collect_files files in
  let t := conv_head F wz (Ix.build_head cast (length (Vo.co_syll col)) (Vo.compile_vocab sort_original col)) in
  let g := conv_graph cv g0 in
  forall e code txt,
  In (mkCand TPhrase 0 e txt code) (script_phrases (lookup g t 0 false)) <->
  (code <> [] /\ exists tx cs ws, In (Vo.LRow tx cs ws) (TP.source_rows files) /\ cs <> [] /\
                                 txt = conv_text tx /\ code = map (Vo.id_of (Vo.co_syll col)) (Vo.split_skip x20 cs)) /\
  spelled g code 0 e.
Proof. exact script_candidates_source_rows. Qed.
Print Assumptions C07_script_candidates_exact_source_rows.

(** * composition with C09 (Dict/PrismModel.v): the table translator's prism input.  [prism_at p q] lists, for C09's
    built prism [p], the keys extending [q] in ExpandSearch order with what QuerySpelling enumerates; what the lookup
    model reads from it is what C09's ExpandSearch (any limit), its match lengths and GetValue return *)
Theorem C07_prism_expand_faithful : forall fcred (fcast : Z -> fcred) (p : PM.prism fcred),
  PP.wf_prism fcred p -> NoDup (PM.p_keys fcred p) ->
  forall q L, expand_search (prism_at fcred fcast p q) (conv_text q) L =
              map (conv_match fcred fcast p) (PM.expand_search fcred p q L).
Proof. exact expand_search_prism_at. Qed.
Print Assumptions C07_prism_expand_faithful.

Theorem C07_prism_match_length : forall fcred (fcast : Z -> fcred) (p : PM.prism fcred),
  PP.wf_prism fcred p -> NoDup (PM.p_keys fcred p) ->
  forall q m, In m (PM.expand_search fcred p q 0) -> length (fst (conv_match fcred fcast p m)) = snd m.
Proof. exact match_length. Qed.
Print Assumptions C07_prism_match_length.

Theorem C07_prism_exact_faithful : forall fcred (fcast : Z -> fcred) (p : PM.prism fcred),
  PP.wf_prism fcred p ->
  forall q, exact_key (prism_at fcred fcast p q) (conv_text q) =
            option_map (spellings_of fcred fcast p) (PM.get_value fcred p q).
Proof. exact exact_key_prism_at. Qed.
Print Assumptions C07_prism_exact_faithful.

(** end to end, table translator, completion off: from the source files (C06), the syllabary they yield, the algebra
    rules (C09: compile_script, Prism::Build) and the input, the candidates are exactly the word rows of the syllables
    the input spells with a normal spelling in the script the algebra produces (in non-increasing weight order:
    C07_table_exact_weight_order with C07_compiled_index_sorted) *)
Theorem C07_table_candidates_sound_end_to_end :
  forall F (cast : Vo.dec -> F) (wz : F -> Z) fcred (fcast : Z -> fcred) sort_original files calcs sc,
  let syls := Vo.co_syll (Vo.collect_files files) in
  (forall s, In s syls -> s <> []) -> Al.compile_script syls calcs = Some sc ->
  let t := conv_head F wz (Ix.build_head cast (length syls) (Vo.compile_vocab sort_original (Vo.collect_files files))) in
  let p := PM.compile fcred fcast syls calcs in
  forall smap code d,
  In d (table_entries true false (prism_at fcred fcast p code) smap t (conv_text code)) ->
  exists sid tx, d_code d = [sid] /\ d_text d = conv_text tx /\ d_remlen d = 0 /\
                 spells_normal files sc code sid /\ word_row files sid tx.
Proof. exact table_plain_sound. Qed.
Print Assumptions C07_table_candidates_sound_end_to_end.

Theorem C07_table_candidates_complete_end_to_end :
  forall F (cast : Vo.dec -> F) (wz : F -> Z) fcred (fcast : Z -> fcred) sort_original files calcs sc,
  let syls := Vo.co_syll (Vo.collect_files files) in
  (forall s, In s syls -> s <> []) -> NoDup syls -> Al.compile_script syls calcs = Some sc ->
  let t := conv_head F wz (Ix.build_head cast (length syls) (Vo.compile_vocab sort_original (Vo.collect_files files))) in
  let p := PM.compile fcred fcast syls calcs in
  forall smap code sid tx,
  spells_normal files sc code sid -> word_row files sid tx ->
  exists d, In d (table_entries true false (prism_at fcred fcast p code) smap t (conv_text code)) /\
            d_code d = [sid] /\ d_text d = conv_text tx.
Proof. exact table_plain_complete. Qed.
Print Assumptions C07_table_candidates_complete_end_to_end.

(** completion on, any number of fetches: every candidate is a word row of a syllable spelled, with a normal
    spelling, by a key of the built prism that extends the input *)
Theorem C07_table_completion_sound_end_to_end :
  forall F (cast : Vo.dec -> F) (wz : F -> Z) fcred (fcast : Z -> fcred) sort_original files calcs sc,
  let syls := Vo.co_syll (Vo.collect_files files) in
  Al.compile_script syls calcs = Some sc ->
  let t := conv_head F wz (Ix.build_head cast (length syls) (Vo.compile_vocab sort_original (Vo.collect_files files))) in
  let p := PM.compile fcred fcast syls calcs in
  forall smap code d,
  In d (table_entries true true (prism_at fcred fcast p code) smap t (conv_text code)) ->
  exists sid tx key, d_code d = [sid] /\ d_text d = conv_text tx /\ word_row files sid tx /\
                     In key (PM.p_keys fcred p) /\ (exists w, key = code ++ w) /\
                     exists v, PM.get_value fcred p key = Some v /\ In (sid, 0) (spellings_of fcred fcast p v).
Proof. exact table_completion_sound_e2e. Qed.
Print Assumptions C07_table_completion_sound_end_to_end.

(** * non-vacuity *)
Theorem C07_example_meets_hypotheses :
  wf_graph ex_g /\ graph_pruned ex_g /\ wf_table ex_t /\ table_sorted ex_t /\ 0 < g_ilen ex_g /\
  table_has ex_t [0; 0; 0; 0; 0] tZ /\ spelled ex_g [0; 0; 0; 0; 0] 0 5 /\
  In (mkCand TPhrase 0 5 [90%N] [0; 0; 0; 0; 0]) (script_phrases (lookup ex_g ex_t 0 false)).
Proof. exact example_meets_hypotheses. Qed.
Print Assumptions C07_example_meets_hypotheses.

Theorem C07_example_candidates :
  map (fun c => (k_end c, k_text c, k_code c)) (script_phrases (lookup ex_g ex_t 0 false))
  = [(5, [90%N], [0; 0; 0; 0; 0]); (4, [87%N], [0; 0; 0; 0]); (2, [88%N; 88%N], [0; 0]); (1, [88%N], [0]); (1, [89%N], [0])].
Proof. exact ex_script_phrases. Qed.
Print Assumptions C07_example_candidates.

Theorem C07_example_word_completion :
  map (fun c => (k_type c, k_end c, k_text c)) (script_phrases (lookup ex_g4 ex_t 0 true))
  = [(TPhrase, 4, [87%N]); (TCompletion, 4, [90%N]); (TPhrase, 2, [88%N; 88%N]); (TPhrase, 1, [88%N]); (TPhrase, 1, [89%N])].
Proof. exact ex_script_completion. Qed.
Print Assumptions C07_example_word_completion.

Theorem C07_example_table_after_repair :
  map d_w (table_entries true false ex_prism ex_syls ex_table [98%N]) = [100%Z; 2%Z; 1%Z].
Proof. exact table_exact_weight_order_example. Qed.
Print Assumptions C07_example_table_after_repair.

(** * the sentence maker (gear/poet.cc) inside the model: Lookup/Poet.v ports Poet::MakeSentence with both strategies
    (DynamicProgramming without a grammar, BeamSearch with one), CompareWeight / LeftAssociateCompare and
    Grammar::Evaluate.  The oracle hypothesis of C07_sentence_is_concatenation / C07_script_no_foreign_candidate is
    discharged for it. *)

(** every grammar, comparison, word graph and length: a returned sentence is a chain of word-graph entries that ends at
    [total] and never uses the single edge 0 -> total; it starts at 0 - or, without a grammar only, at the end of an
    edge WITHOUT entries (the dynamic programme creates [states[end_pos]] before it looks at the entries) *)
Theorem C07_poet_sentence_is_chain : forall gr pen cmp preceding wg total s,
  make_sentence gr pen cmp preceding wg total = Some s ->
  exists o, wchain wg total o total s /\ (o = 0 \/ (gr = None /\ eend wg o)).
Proof. exact make_sentence_chain. Qed.
Print Assumptions C07_poet_sentence_is_chain.

(** "... it starts at 0" for ALL word graphs is false of the faithful model (0 -[no entry]-> 1 -[X]-> 2 yields "X" as a
    sentence for [0, 2)); replayed on rime::Poet by the direct stream of the check.  Neither translator builds such
    a graph (the four theorems after the next two). *)
Theorem C07_poet_sentence_from_zero_refuted :
  wg_map quirk_wg /\ wg_sorted quirk_wg /\ wg_forward quirk_wg /\
  dp_sentence None 0%Z compare_weight [] quirk_wg 2 = Some [(qx, 2)] /\
  wg_path_ok quirk_wg 0 2 [(qx, 2)] = false /\ wg_path_ok quirk_wg 1 2 [(qx, 2)] = true.
Proof. exact dp_sentence_from_zero_refuted. Qed.
Print Assumptions C07_poet_sentence_from_zero_refuted.

(** the assumed [wg_path_ok wg 0 total s], proved: graphs (maps of maps) without an edge that has no entry ... *)
Theorem C07_poet_path_ok_no_empty_edge : forall gr pen cmp preceding wg total s,
  wg_det wg -> wg_no_empty wg ->
  make_sentence gr pen cmp preceding wg total = Some s -> wg_path_ok wg 0 total s = true.
Proof. exact make_sentence_path_ok_no_empty. Qed.
Print Assumptions C07_poet_path_ok_no_empty_edge.

(** ... and graphs whose every start position is reached over an edge with entries from an earlier start position *)
Theorem C07_poet_path_ok_grounded : forall gr pen cmp preceding wg total s,
  wg_det wg -> grounded wg total ->
  make_sentence gr pen cmp preceding wg total = Some s -> wg_path_ok wg 0 total s = true.
Proof. exact make_sentence_path_ok_grounded. Qed.
Print Assumptions C07_poet_path_ok_grounded.

(** script translator: hypothesis-free versions of the two sentence theorems, for the modelled Poet with any grammar,
    comparison, penalty and max_homophones (max_homophones = 0: every edge is empty and no sentence is made) *)
Theorem C07_script_poet_path_ok : forall gr pen cmp preceding g t mh s,
  wf_graph g ->
  make_sentence gr pen cmp preceding (script_wgraph g t mh) (g_ilen g) = Some s ->
  wg_path_ok (script_wgraph g t mh) 0 (g_ilen g) s = true.
Proof. exact script_poet_path_ok. Qed.
Print Assumptions C07_script_poet_path_ok.

Theorem C07_sentence_is_concatenation_modelled_poet : forall pen g t mh s,
  wf_graph g -> wf_table t ->
  poet_script pen (script_wgraph g t mh) (g_ilen g) = Some s -> chain g t 0 (g_ilen g) s.
Proof. intros pen. exact (script_poet_sentence_is_concatenation None pen compare_weight []). Qed.
Print Assumptions C07_sentence_is_concatenation_modelled_poet.

Theorem C07_script_no_foreign_candidate_modelled_poet : forall pen wordcompl mh g t c,
  wf_graph g -> wf_table t ->
  In c (script_query (poet_script pen) wordcompl mh g t) ->
  phrase_ok g t c \/ completion_ok g t wordcompl c \/ sentence_ok g t c.
Proof. intros pen. exact (script_poet_no_foreign_candidate None pen compare_weight []). Qed.
Print Assumptions C07_script_no_foreign_candidate_modelled_poet.

(** the same with a grammar plugin (BeamSearch), whatever its Query function returns *)
Theorem C07_script_no_foreign_candidate_any_grammar : forall gr pen cmp preceding wordcompl mh g t c,
  wf_graph g -> wf_table t ->
  In c (script_query (make_sentence gr pen cmp preceding) wordcompl mh g t) ->
  phrase_ok g t c \/ completion_ok g t wordcompl c \/ sentence_ok g t c.
Proof. exact script_poet_no_foreign_candidate. Qed.
Print Assumptions C07_script_no_foreign_candidate_any_grammar.

(** table translator: the graph TableTranslator::MakeSentence builds is a map of maps in key order with forward edges,
    and every start position is a vertex reached over an edge with entries *)
Theorem C07_table_wgraph_shape : forall mhg pr syls t delims inp,
  let wg := table_wgraph mhg pr syls t delims inp in
  wg_map wg /\ wg_sorted wg /\ wg_forward wg /\ grounded wg (length inp).
Proof.
  intros. split; [apply table_wgraph_map|]. split; [apply table_wgraph_sorted_forward|].
  split; [apply table_wgraph_sorted_forward|apply table_wgraph_grounded].
Qed.
Print Assumptions C07_table_wgraph_shape.

(** the sentence of the table translator is a concatenation of dictionary words, each spelled with a normal spelling by
    a prism key at its position (trailing delimiters consumed), covering the whole input *)
Theorem C07_table_sentence_is_concatenation_modelled_poet : forall pen mhg pr syls t delims inp l,
  table_sentence (poet_table pen) mhg pr syls t delims inp = Some l ->
  exists s, l = sentence_cand s :: prefix_phrases (snd (table_ms mhg pr syls t delims inp)) /\
            tchain pr t delims inp 0 (length inp) s /\
            wg_path_ok (table_wgraph mhg pr syls t delims inp) 0 (length inp) s = true.
Proof. intros pen mhg pr syls t delims inp. exact (table_poet_sentence_candidate mhg pr syls t delims inp None pen left_associate_compare []). Qed.
Print Assumptions C07_table_sentence_is_concatenation_modelled_poet.

Theorem C07_table_sentence_is_concatenation_any_grammar : forall gr pen cmp preceding mhg pr syls t delims inp s,
  make_sentence gr pen cmp preceding (table_wgraph mhg pr syls t delims inp) (length inp) = Some s ->
  tchain pr t delims inp 0 (length inp) s.
Proof. intros gr pen cmp preceding mhg pr syls t delims inp. exact (table_poet_sentence_is_concatenation mhg pr syls t delims inp gr pen cmp preceding). Qed.
Print Assumptions C07_table_sentence_is_concatenation_any_grammar.

(** completeness of the dynamic programme (key-ordered forward graph without empty edges): a sentence is returned iff
    some chain of at least two words leads from 0 to total.  Otherwise - the end is unreachable, reached by the single
    word 0 -> total only, or total = 0 - MakeSentence returns a null pointer and no sentence candidate is shown *)
Theorem C07_poet_dp_complete : forall pen cmp preceding wg total,
  wg_sorted wg -> wg_forward wg -> wg_no_empty wg ->
  ((exists s, dp_sentence None pen cmp preceding wg total = Some s) <->
   (exists p, 2 <= length p /\ wchain wg total 0 total p)).
Proof. exact dp_sentence_iff. Qed.
Print Assumptions C07_poet_dp_complete.

(** with empty edges allowed: every chain of at least one step (single edge excluded) yields a sentence *)
Theorem C07_poet_dp_complete_any_graph : forall pen cmp preceding wg total p,
  wg_sorted wg -> wg_forward wg -> p <> [] -> wchain wg total 0 total p ->
  exists s, dp_sentence None pen cmp preceding wg total = Some s.
Proof. exact dp_sentence_complete. Qed.
Print Assumptions C07_poet_dp_complete_any_graph.

(** optimality: for a comparison that is a strict weak order preserved under extension by a common word, no chain
    beats the returned line.  Ties: the update is strict ([compare_(best, new_line)]), so among lines that compare
    equal the one stored first stays - start positions ascending, end positions in map order, entries in list order *)
Theorem C07_poet_dp_optimal : forall pen cmp preceding wg total p,
  cmp_ok cmp -> wg_sorted wg -> wg_forward wg -> p <> [] -> wchain wg total 0 total p ->
  exists r, dp_best pen cmp preceding total wg = Some r /\
            dp_sentence None pen cmp preceding wg total = Some (sentence_of r) /\
            cmp r (line_of pen preceding total p) = false.
Proof. exact dp_optimal. Qed.
Print Assumptions C07_poet_dp_optimal.

Theorem C07_poet_tie_keeps_first : forall cmp best nl,
  (best <> [] -> cmp best nl = false -> better cmp best nl = best) /\
  (cmp best nl = true -> better cmp best nl = nl) /\
  ((compare_weight best nl = false /\ compare_weight nl best = false) <-> l_weight best = l_weight nl).
Proof.
  intros. split; [apply better_keeps_first|]. split; [apply better_takes_strictly_better|apply compare_weight_tie].
Qed.
Print Assumptions C07_poet_tie_keeps_first.

Theorem C07_poet_comparisons_ok : cmp_ok compare_weight /\ cmp_ok left_associate_compare.
Proof. split; [exact compare_weight_ok|exact left_associate_compare_ok]. Qed.
Print Assumptions C07_poet_comparisons_ok.

(** script translator (CompareWeight): the sentence has the greatest total of entry weight + penalty per word *)
Theorem C07_poet_dp_weight_maximal : forall pen preceding wg total p,
  wg_sorted wg -> wg_forward wg -> p <> [] -> wchain wg total 0 total p ->
  exists r, dp_sentence None pen compare_weight preceding wg total = Some (sentence_of r) /\
            (path_weight pen p <= l_weight r)%Z.
Proof. exact dp_weight_maximal. Qed.
Print Assumptions C07_poet_dp_weight_maximal.

(** table translator (LeftAssociateCompare) on the graph it builds: no tiling of the input by dictionary words beats
    the sentence shown - by weight, then fewer words, then lexicographically greater word lengths *)
Theorem C07_table_sentence_optimal : forall pen mhg pr syls t delims inp p,
  let wg := table_wgraph mhg pr syls t delims inp in
  p <> [] -> wchain wg (length inp) 0 (length inp) p ->
  exists r, poet_table pen wg (length inp) = Some (sentence_of r) /\
            left_associate_compare r (line_of pen [] (length inp) p) = false.
Proof.
  intros pen mhg pr syls t delims inp p wg Np H.
  destruct (dp_optimal pen left_associate_compare [] wg (length inp) p left_associate_compare_ok
              (proj1 (table_wgraph_sorted_forward mhg pr syls t delims inp))
              (proj2 (table_wgraph_sorted_forward mhg pr syls t delims inp)) Np H) as [r [_ [E C]]].
  exists r. split; [exact E|exact C].
Qed.
Print Assumptions C07_table_sentence_optimal.

(** non-vacuity: two competing segmentations of [0, 3) beside a much heavier single word *)
Theorem C07_poet_example_hypotheses :
  wg_map ex_wg /\ wg_sorted ex_wg /\ wg_forward ex_wg /\ wg_no_empty ex_wg /\
  wchain ex_wg 3 0 3 [(eA, 1); (eB, 3)] /\ wchain ex_wg 3 0 3 [(eC, 2); (eD, 3)].
Proof. exact ex_wg_hyps. Qed.
Print Assumptions C07_poet_example_hypotheses.

Theorem C07_poet_example_best :
  dp_sentence None (-10)%Z compare_weight [] ex_wg 3 = Some [(eC, 2); (eD, 3)] /\
  path_weight (-10)%Z [(eC, 2); (eD, 3)] = (-11)%Z /\ path_weight (-10)%Z [(eA, 1); (eB, 3)] = (-14)%Z.
Proof. exact ex_dp_best. Qed.
Print Assumptions C07_poet_example_best.

Theorem C07_poet_example_tie_break :
  dp_sentence None (-10)%Z compare_weight [] ex_wg_tie 3 = Some [(eA, 1); (eB, 3)] /\
  dp_sentence None (-10)%Z left_associate_compare [] ex_wg_tie 3 = Some [(eC, 2); (eD', 3)].
Proof. exact ex_dp_tie. Qed.
Print Assumptions C07_poet_example_tie_break.

Theorem C07_poet_example_no_sentence :
  dp_sentence None (-10)%Z compare_weight [] [(0, [(3, [eE])])] 3 = None /\
  dp_sentence None (-10)%Z compare_weight [] ex_wg 4 = None.
Proof. exact ex_dp_none. Qed.
Print Assumptions C07_poet_example_no_sentence.
